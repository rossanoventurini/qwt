(* Huffman-shaped wavelet matrix: every symbol x has a code of [clen x] digits, level l stores
   only the symbols with clen x > l.  The walks are the generic ones of WaveletMatrix.v, run
   over the (unfiltered) stored digit lists.  They are correct under [wm_ok]: a code that ends at
   a level is larger, in reversed-digit order, than every prefix that continues there; so the
   symbols dropped between two levels lie above everything a walk for a continuing symbol
   counts.  Prefix-freeness follows from [wm_ok]. *)
From Coq Require Import ZArith Lia ZifyBool ZifyN ZifyNat Sorted.
From QwtModel Require Import ListX Seq ListXP WaveletMatrix.
Arguments N.pow : simpl never.

Lemma count_lt_filter {A} (f : A -> N) (g : A -> bool) d U :
  (forall x, In x U -> f x < d -> g x = true) ->
  count_lt d (map f (filter g U)) = count_lt d (map f U).
Proof.
  induction U as [|x U IH]; intros H; cbn [filter map count_lt]; [reflexivity|].
  assert (IH' := IH (fun y Hy => H y (or_intror Hy))).
  destruct (g x) eqn:Eg; cbn [map count_lt]; rewrite IH'; [reflexivity|].
  destruct (N.ltb_spec (f x) d) as [Hlt|Hge]; cbv iota; [|lia].
  rewrite (H x (or_introl eq_refl) Hlt) in Eg. discriminate.
Qed.

Lemma len_filter_le_lt {A} (f : A -> N) (p : A -> bool) d U :
  (forall x, In x U -> p x = true -> f x < d) -> len (filter p U) <= count_lt d (map f U).
Proof.
  induction U as [|x U IH]; intros H; cbn [filter map count_lt]; [unfold len; cbn [length]; lia|].
  assert (IH' := IH (fun y Hy => H y (or_intror Hy))).
  destruct (p x) eqn:Ep; [|lia]. rewrite len_cons.
  pose proof (H x (or_introl eq_refl) Ep) as Hlt.
  destruct (N.ltb_spec (f x) d); cbv iota; lia.
Qed.

Lemma len_filter_le_le {A} (f : A -> N) (p : A -> bool) d U :
  (forall x, In x U -> p x = true -> f x <= d) ->
  len (filter p U) <= count_lt d (map f U) + countN d (map f U).
Proof.
  induction U as [|x U IH]; intros H; cbn [filter map count_lt countN]; [unfold len; cbn [length]; lia|].
  assert (IH' := IH (fun y Hy => H y (or_intror Hy))).
  destruct (p x) eqn:Ep; [|lia]. rewrite len_cons.
  pose proof (H x (or_introl eq_refl) Ep) as Hle.
  destruct (N.ltb_spec (f x) d), (N.eqb_spec (f x) d); cbv iota; lia.
Qed.

Lemma get_walk_stop levels j :
  match levels with [] => True | D :: _ => len D <= j end ->
  get_walk levels j = [] /\ get_walk_pos levels j = [].
Proof.
  destruct levels as [|D levels]; [split; reflexivity|]. intros H.
  cbn [get_walk get_walk_pos]. rewrite (nthN_none D j H). split; reflexivity.
Qed.

Lemma select_pred_ext_in {A} (f g : A -> bool) s : (forall x, In x s -> f x = g x) ->
  forall k pos, select_pred A f s k pos = select_pred A g s k pos.
Proof.
  induction s as [|x s IH]; intros H k pos; cbn [select_pred]; [reflexivity|].
  rewrite (H x (or_introl eq_refl)), !(IH (fun y Hy => H y (or_intror Hy))). reflexivity.
Qed.

Lemma SS_app {B} (R : B -> B -> Prop) l1 l2 : StronglySorted R l1 -> StronglySorted R l2 ->
  (forall x y, In x l1 -> In y l2 -> R x y) -> StronglySorted R (l1 ++ l2).
Proof.
  induction l1 as [|z l1 IH]; intros H1 H2 H; cbn [app]; [exact H2|].
  inversion H1 as [|? ? H3 H4]; subst. constructor.
  - apply IH; [exact H3|exact H2|]. intros x y Hx Hy. apply H; [now right|exact Hy].
  - apply Forall_app. split; [exact H4|]. apply Forall_forall. intros y Hy. apply H; [now left|exact Hy].
Qed.
Lemma SS_filter {B} (R : B -> B -> Prop) f l : StronglySorted R l -> StronglySorted R (filter f l).
Proof.
  induction 1 as [|z l H1 IH H2]; cbn [filter]; [constructor|].
  destruct (f z); [|exact IH]. constructor; [exact IH|].
  rewrite Forall_forall in *. intros y Hy. apply filter_In in Hy as [Hy _]. exact (H2 y Hy).
Qed.
Lemma SS_impl_in {B} (R R' : B -> B -> Prop) l :
  (forall x y, In x l -> In y l -> R x y -> R' x y) -> StronglySorted R l -> StronglySorted R' l.
Proof.
  induction l as [|z l IH]; intros H HS; [constructor|].
  inversion HS as [|? ? H1 H2]; subst. constructor.
  - apply IH; [|exact H1]. intros x y Hx Hy. apply H; now right.
  - rewrite Forall_forall in *. intros y Hy. apply H; [now left|now right|exact (H2 y Hy)].
Qed.

Lemma SS_all {B} (R : B -> B -> Prop) l : (forall x y, In x l -> In y l -> R x y) -> StronglySorted R l.
Proof.
  induction l as [|a l IH]; intros H; constructor.
  - apply IH. intros x y Hx Hy. apply H; now right.
  - apply Forall_forall. intros y Hy. apply H; [now left|now right].
Qed.

Section HWM.
Variable A : Type.
Variable a : nat.                       (* arity *)
Variable dig : nat -> A -> N.           (* digit l of the code of x (junk for l >= clen x) *)
Hypothesis dig_lt : forall l x, dig l x < N.of_nat a.
Variable clen : A -> nat.               (* code length *)

Local Notation parts := (WaveletMatrix.parts A dig).
Local Notation pre := (WaveletMatrix.pre A dig).
Local Notation prer := (WaveletMatrix.prer A dig).
Local Notation digits_of := (WaveletMatrix.digits_of A dig).
Local Notation select_pred := (WaveletMatrix.select_pred A).

(* level l holds the symbols with clen > l, partitioned by digits 0..l-1 *)
Fixpoint Q (l : nat) (s : list A) : list A :=
  match l with
  | O => s
  | S l' => parts l' a (filter (fun x => (S l' <? clen x)%nat) (Q l' s))
  end.
Fixpoint hwm_levels (l0 n : nat) (s : list A) : list (list N) :=
  match n with O => [] | S n' => map (dig l0) (Q l0 s) :: hwm_levels (S l0) n' s end.

(* first digit least significant *)
Fixpoint rev_val (n : nat) (x : A) : N :=
  match n with O => 0 | S n' => rev_val n' x + dig n' x * N.of_nat a ^ N.of_nat n' end.

(* f finishes at level clen f - 1; if g continues there, its prefix is below the code of f *)
Definition ok_pair (f g : A) : bool :=
  implb (clen f <? clen g)%nat (rev_val (clen f) g <? rev_val (clen f) f).
Definition ok_cont (s : list A) (c : A) : bool := forallb (fun f => ok_pair f c) s.
Definition ok_fin (s : list A) (x : A) : bool := forallb (fun g => ok_pair x g) s.
Definition wm_ok (s : list A) : bool := forallb (fun f => forallb (fun g => ok_pair f g) s) s.
Definition prefix_free (s : list A) : bool :=
  forallb (fun x => forallb (fun y => implb (pre (clen x) x y) (clen y =? clen x)%nat) s) s.
Definition same_code (c x : A) : bool := pre (clen c) c x && (clen x =? clen c)%nat.

Definition Pw (l : nat) : N := N.of_nat a ^ N.of_nat l.
Lemma rev_val_S n x : rev_val (S n) x = rev_val n x + dig n x * Pw n.
Proof. reflexivity. Qed.
Lemma Pw_S n : Pw (S n) = N.of_nat a * Pw n.
Proof. unfold Pw. rewrite Nnat.Nat2N.inj_succ, N.pow_succ_r'. reflexivity. Qed.
Lemma rev_val_lt n x : rev_val n x < Pw n.
Proof.
  induction n as [|n IH].
  - unfold Pw. change (N.of_nat 0) with 0. rewrite N.pow_0_r. cbn [rev_val]. lia.
  - rewrite rev_val_S, Pw_S. pose proof (dig_lt n x) as Hd.
    assert (H : (dig n x + 1) * Pw n <= N.of_nat a * Pw n) by (apply N.mul_le_mono_r; lia). lia.
Qed.

(* rev_val (S l) orders by the pair (digit l, rev_val l), the digit first *)
Lemma rev_val_S_lt l x y : dig l x < dig l y -> rev_val (S l) x < rev_val (S l) y.
Proof.
  intros H. rewrite !rev_val_S. pose proof (rev_val_lt l x) as Hx.
  assert (H' : (dig l x + 1) * Pw l <= dig l y * Pw l) by (apply N.mul_le_mono_r; lia). lia.
Qed.
Lemma rev_val_S_le l x y : rev_val l x <= rev_val l y -> dig l x <= dig l y ->
  rev_val (S l) x <= rev_val (S l) y.
Proof.
  intros H1 H2. rewrite !rev_val_S.
  assert (H' : dig l x * Pw l <= dig l y * Pw l) by (apply N.mul_le_mono_r; exact H2). lia.
Qed.

Lemma pre_rev_val l c x : pre l c x = true -> rev_val l x = rev_val l c.
Proof.
  induction l as [|l IH]; cbn [WaveletMatrix.pre]; intros H; [reflexivity|].
  apply andb_prop in H as [H1 H2]. rewrite !rev_val_S, (IH H1).
  apply N.eqb_eq in H2. now rewrite H2.
Qed.

Lemma pre_le l : forall m c x, (m <= l)%nat -> pre l c x = true -> pre m c x = true.
Proof.
  induction l as [|l IH]; intros m c x Hm H.
  - replace m with 0%nat by lia. reflexivity.
  - destruct (Nat.eq_dec m (S l)) as [->|Hne]; [exact H|].
    cbn [WaveletMatrix.pre] in H. apply andb_prop in H as [H1 _]. apply IH; [lia|exact H1].
Qed.

Lemma ok_pair_spec f g : ok_pair f g = true -> (clen f < clen g)%nat ->
  rev_val (clen f) g < rev_val (clen f) f.
Proof.
  unfold ok_pair. intros H Hlt. destruct (Nat.ltb_spec (clen f) (clen g)) as [_|Hge]; [|lia].
  cbn [implb] in H. lia.
Qed.
Lemma ok_cont_spec s c f : ok_cont s c = true -> In f s -> (clen f < clen c)%nat ->
  rev_val (clen f) c < rev_val (clen f) f.
Proof.
  intros Hok Hf. apply ok_pair_spec. unfold ok_cont in Hok. rewrite forallb_forall in Hok. exact (Hok f Hf).
Qed.
Lemma ok_fin_spec s x g : ok_fin s x = true -> In g s -> (clen x < clen g)%nat ->
  rev_val (clen x) g < rev_val (clen x) x.
Proof.
  intros Hok Hg. apply ok_pair_spec. unfold ok_fin in Hok. rewrite forallb_forall in Hok. exact (Hok g Hg).
Qed.

Lemma wm_ok_spec s f g : wm_ok s = true -> In f s -> In g s -> ok_pair f g = true.
Proof.
  unfold wm_ok. intros H Hf Hg. rewrite forallb_forall in H. specialize (H f Hf).
  rewrite forallb_forall in H. exact (H g Hg).
Qed.
Lemma wm_ok_cont s c : wm_ok s = true -> In c s -> ok_cont s c = true.
Proof. intros H Hc. apply forallb_forall. intros f Hf. exact (wm_ok_spec s f c H Hf Hc). Qed.
Lemma wm_ok_fin s x : wm_ok s = true -> In x s -> ok_fin s x = true.
Proof. intros H Hx. apply forallb_forall. intros g Hg. exact (wm_ok_spec s x g H Hx Hg). Qed.

Lemma pre_same_len s c x : ok_cont s c = true -> ok_fin s c = true -> In x s ->
  pre (clen c) c x = true -> clen x = clen c.
Proof.
  intros Hc Hf Hx Hp.
  destruct (lt_eq_lt_dec (clen x) (clen c)) as [[Hlt|Heq]|Hgt]; [exfalso|exact Heq|exfalso].
  - pose proof (ok_cont_spec s c x Hc Hx Hlt) as H.
    rewrite (pre_rev_val (clen x) c x) in H; [lia|]. apply (pre_le (clen c)); [lia|exact Hp].
  - pose proof (ok_fin_spec s c x Hf Hx Hgt) as H.
    rewrite (pre_rev_val (clen c) c x Hp) in H. lia.
Qed.

Theorem wm_ok_prefix_free s : wm_ok s = true -> prefix_free s = true.
Proof.
  intros H. unfold prefix_free. apply forallb_forall. intros x Hx. apply forallb_forall. intros y Hy.
  destruct (pre (clen x) x y) eqn:Ep; [|reflexivity]. cbn [implb].
  apply Nat.eqb_eq. exact (pre_same_len s x y (wm_ok_cont s x H Hx) (wm_ok_fin s x H Hx) Hy Ep).
Qed.

Lemma same_code_pre s c x : ok_cont s c = true -> ok_fin s c = true -> In x s ->
  same_code c x = pre (clen c) c x.
Proof.
  intros Hc Hf Hx. unfold same_code. destruct (pre (clen c) c x) eqn:Ep; [|reflexivity].
  rewrite (pre_same_len s c x Hc Hf Hx Ep), Nat.eqb_refl. reflexivity.
Qed.

Lemma Q_In l : forall s x, In x (Q l s) -> In x s /\ (l = 0 \/ l < clen x)%nat.
Proof.
  induction l as [|l IH]; intros s x H; cbn [Q] in H; [split; [exact H|now left]|].
  apply In_parts in H as [H _]. apply filter_In in H as [H1 H2].
  split; [exact (proj1 (IH s x H1))|right; lia].
Qed.

Lemma Q_S_len l s : len (Q (S l) s) = len (filter (fun x => (S l <? clen x)%nat) (Q l s)).
Proof. cbn [Q]. rewrite parts_len. apply (count_lt_arity A a dig dig_lt). Qed.

Lemma Q_len_le l : forall s, len (Q l s) <= len s.
Proof.
  induction l as [|l IH]; intros s; [cbn [Q]; lia|].
  rewrite Q_S_len. pose proof (len_filter_le (fun x => (S l <? clen x)%nat) (Q l s)) as H.
  specialize (IH s). lia.
Qed.

Lemma hwm_levels_length n : forall l0 s, length (hwm_levels l0 n s) = n.
Proof. induction n as [|n IH]; intros l0 s; cbn [hwm_levels length]; [reflexivity|]. now rewrite IH. Qed.

Section Cont.
Variable s : list A.
Variable c : A.
Hypothesis Hok : ok_cont s c = true.
Hypothesis Hpos : (0 < clen c)%nat.

Lemma clen_pos x : In x s -> (0 < clen x)%nat.
Proof.
  intros Hx. destruct (clen x) as [|m] eqn:E; [exfalso|lia].
  assert (Hlt : (clen x < clen c)%nat) by lia.
  pose proof (ok_cont_spec s c x Hok Hx Hlt) as H. rewrite E in H. cbn [rev_val] in H. lia.
Qed.

(* an element of level l that finishes there is above c at level l + 1; so whatever is not above
   c there continues *)
Lemma fin_above l x : In x (Q l s) -> (S l < clen c)%nat -> (S l <? clen x)%nat = false ->
  rev_val (S l) c < rev_val (S l) x.
Proof.
  intros Hx Hc Hf. apply Q_In in Hx as [Hx Hl]. pose proof (clen_pos x Hx) as Hp.
  assert (E : clen x = S l) by lia.
  assert (Hlt : (clen x < clen c)%nat) by lia.
  pose proof (ok_cont_spec s c x Hok Hx Hlt) as H. rewrite E in H. exact H.
Qed.

Lemma below_cont l x : In x (Q l s) -> (S l < clen c)%nat ->
  rev_val (S l) x <= rev_val (S l) c -> (S l <? clen x)%nat = true.
Proof.
  intros Hx Hc Hle. destruct (S l <? clen x)%nat eqn:Ef; [reflexivity|].
  pose proof (fin_above l x Hx Hc Ef). lia.
Qed.

(* [block_step] for Q: what is dropped between levels l and l + 1 lies above c, so it takes
   nothing from before or inside the c-part of a block that is below c *)
Lemma hblock_step l X Y Z : Q l s = X ++ Y ++ Z -> (S l < clen c)%nat ->
  Forall (fun x => rev_val l x <= rev_val l c) (X ++ Y) ->
  exists X' Z', Q (S l) s = X' ++ filter (fun x => dig l x =? dig l c) Y ++ Z' /\
    len X' = loccs_smaller (map (dig l) (Q l s)) (dig l c) +
             lrank (map (dig l) (Q l s)) (dig l c) (len X) /\
    Forall (fun x => rev_val (S l) x <= rev_val (S l) c)
           (X' ++ filter (fun x => dig l x =? dig l c) Y) /\
    (Forall (fun z => rev_val l c <= rev_val l z) Z ->
     Forall (fun z => rev_val (S l) c <= rev_val (S l) z) Z').
Proof.
  intros E Hc HXY. rewrite Forall_forall in HXY.
  set (d := dig l c). set (cf := fun x : A => (S l <? clen x)%nat).
  set (eqd := fun x : A => dig l x =? d).
  set (W := filter cf (Q l s)).
  assert (Hd : d < N.of_nat a) by apply dig_lt.
  destruct (parts_split A dig l (N.to_nat d) a W) as (post & EP & HP); [lia|].
  rewrite Nnat.N2Nat.id in EP, HP. fold eqd in EP.
  assert (FK : filter eqd (filter cf (X ++ Y)) = filter eqd (X ++ Y)).
  { rewrite filter_filter. apply filter_ext_in. intros x Hx. unfold eqd.
    destruct (N.eqb_spec (dig l x) d) as [He|_]; [|apply andb_false_r].
    unfold cf. rewrite (below_cont l x); [reflexivity| |exact Hc|].
    - rewrite E, app_assoc. apply in_or_app. now left.
    - apply rev_val_S_le; [exact (HXY x Hx)|fold d; lia]. }
  assert (EF : filter eqd W = filter eqd X ++ filter eqd Y ++ filter eqd (filter cf Z)).
  { unfold W. rewrite E, app_assoc, (filter_app cf), (filter_app eqd), FK, filter_app, <- app_assoc.
    reflexivity. }
  exists (parts l (N.to_nat d) W ++ filter eqd X), (filter eqd (filter cf Z) ++ post).
  split; [|split; [|split]].
  - change (Q (S l) s) with (parts l a W). rewrite EP, EF, <- !app_assoc. reflexivity.
  - rewrite len_app, parts_len, Nnat.N2Nat.id. unfold loccs_smaller. f_equal.
    + unfold W. apply count_lt_filter. intros x Hx Hlt.
      apply (below_cont l x Hx Hc), N.lt_le_incl, rev_val_S_lt, Hlt.
    + rewrite E, lrank_exact. reflexivity.
  - apply Forall_forall. intros x Hx. rewrite <- app_assoc, <- filter_app in Hx.
    apply in_app_or in Hx as [Hx|Hx].
    + apply In_parts in Hx as [_ Hx]. rewrite Nnat.N2Nat.id in Hx.
      apply N.lt_le_incl, rev_val_S_lt, Hx.
    + apply filter_In in Hx as [Hx He]. unfold eqd in He.
      apply rev_val_S_le; [exact (HXY x Hx)|fold d; lia].
  - intros HZ. rewrite Forall_forall in HZ. apply Forall_forall. intros x Hx.
    apply in_app_or in Hx as [Hx|Hx].
    + apply filter_In in Hx as [Hx He]. unfold eqd in He. apply filter_In in Hx as [Hx _].
      apply rev_val_S_le; [exact (HZ x Hx)|fold d; lia].
    + apply HP in Hx as [_ Hx]. apply N.lt_le_incl, rev_val_S_lt, Hx.
Qed.

(* a block below c in the rev_val order is tracked through all levels of the code of c *)
Lemma Q_tracks n : forall l0 X Y Z, (l0 + n <= clen c)%nat -> Q l0 s = X ++ Y ++ Z ->
  Forall (fun x => rev_val l0 x <= rev_val l0 c) (X ++ Y) ->
  tracks A dig (fun l => Q l s) c l0 n (len X) Y.
Proof.
  induction n as [|n IH]; intros l0 X Y Z Hn E HF; [exact I|]. split; [now exists X, Z|].
  destruct n as [|n]; [exact I|].
  destruct (hblock_step l0 X Y Z E ltac:(lia) HF) as (X1 & Z1 & E1 & <- & HF1 & _).
  exact (IH (S l0) X1 _ Z1 ltac:(lia) E1 HF1).
Qed.

Lemma Q_tracks0 n X Y Z : (n <= clen c)%nat -> s = X ++ Y ++ Z ->
  tracks A dig (fun l => Q l s) c 0 n (len X) Y.
Proof.
  intros Hn E. apply (Q_tracks n 0%nat X Y Z Hn E).
  apply Forall_forall. intros x _. cbn [rev_val]. lia.
Qed.

Local Notation Qs := (fun l => Q l s).
Local Notation hwmls := (fun l0 n => hwm_levels l0 n s).

Theorem hwm_rank_pre : forall i, i <= len s ->
  let r := rank_walk (hwm_levels 0 (clen c) s) (digits_of 0 (clen c) c) 0 i in
  fst r <= snd r /\ snd r <= len s /\
  snd r - fst r = len (filter (pre (clen c) c) (firstnN i s)).
Proof.
  intros i Hi. cbv zeta.
  destruct (rank_walk_prefix A dig Qs hwmls (fun _ => eq_refl) (fun _ _ => eq_refl) c (clen c) 0%nat i Hi
              (Q_tracks0 (clen c + 0) [] _ _ ltac:(lia) (eq_sym (firstnN_skipnN s i)))) as (p & HR & _).
  pose proof (rank_walk_le A dig Qs hwmls (fun _ => eq_refl) (fun _ _ => eq_refl) (len s)
                (fun l => Q_len_le l s) (clen c) 0%nat (digits_of 0 (clen c) c) 0 i Hi) as HB.
  cbn [Q] in HR, HB. rewrite HR in HB |- *. cbn [fst snd] in HB |- *. repeat split; lia.
Qed.

(* intermediate positions: after n < clen c levels both ends are inside level n *)
Theorem hwm_rank_prefix : forall n i, (n < clen c)%nat -> i <= len s ->
  let r := rank_walk (hwm_levels 0 n s) (digits_of 0 n c) 0 i in
  fst r <= snd r /\ snd r <= len (Q n s) /\
  snd r - fst r = len (filter (pre n c) (firstnN i s)).
Proof.
  intros n i Hn Hi. cbv zeta.
  destruct (rank_walk_prefix A dig Qs hwmls (fun _ => eq_refl) (fun _ _ => eq_refl) c n 1%nat i Hi
              (Q_tracks0 (n + 1) [] _ _ ltac:(lia) (eq_sym (firstnN_skipnN s i))))
    as (p & HR & (X & Z & E & HX) & _).
  cbn [Q] in HR, E. rewrite HR, E. cbn [fst snd]. lens. repeat split; lia.
Qed.

Definition hpath (l0 n : nat) (b : N) : list (list N * N * (N * N)) :=
  combine (combine (hwm_levels l0 n s) (digits_of l0 n c))
          (select_down (hwm_levels l0 n s) (digits_of l0 n c) b).

Lemma select_up_rev_hpath_S l0 n b k :
  select_up (rev (hpath l0 (S n) b)) k =
  match select_up (rev (hpath (S l0) n (lrank (map (dig l0) (Q l0 s)) (dig l0 c) b +
                     loccs_smaller (map (dig l0) (Q l0 s)) (dig l0 c)))) k with
  | Some j => up_step (map (dig l0) (Q l0 s)) (dig l0 c) b
                      (lrank (map (dig l0) (Q l0 s)) (dig l0 c) b) j
  | None => None
  end.
Proof. apply select_up_rev_cons. Qed.

Theorem hwm_select_pre : forall k,
  wm_select (hwm_levels 0 (clen c) s) (digits_of 0 (clen c) c) k =
  select_pred (pre (clen c) c) s k 0.
Proof.
  intros k.
  rewrite (select_pred_ext A (pre (clen c) c) (prer 0 (clen c) c) s (pre_prer0 A dig (clen c) c)).
  exact (select_walk_whole A dig Qs hwmls (fun _ => eq_refl) (fun _ _ => eq_refl) c (clen c) 0%nat k Hpos
           (Q_tracks0 (clen c) [] s [] (le_n _) (eq_sym (app_nil_r s)))).
Qed.

Theorem hselect_down_bounds :
  Forall2 (fun '(b, rb) l => b <= len (Q l s) /\ rb <= b)
    (select_down (hwm_levels 0 (clen c) s) (digits_of 0 (clen c) c) 0) (seq 0 (clen c)).
Proof.
  exact (select_down_tracks A dig Qs hwmls (fun _ => eq_refl) (fun _ _ => eq_refl) c (clen c) 0%nat _ _
           (Q_tracks0 (clen c) [] s [] (le_n _) (eq_sym (app_nil_r s)))).
Qed.

End Cont.

Section Get.
Variable s : list A.
Variable x : A.
Hypothesis Hokc : ok_cont s x = true.
Hypothesis Hokf : ok_fin s x = true.
Hypothesis Hpos : (0 < clen x)%nat.

Lemma hget_nth l X Z : Q l s = X ++ x :: Z ->
  nthN (map (dig l) (Q l s)) (len X) = Some (dig l x) /\ len X < len (Q l s).
Proof.
  intros E. rewrite E. split.
  - rewrite nthN_map, nthN_app2, N.sub_diag by lia. reflexivity.
  - lens. lia.
Qed.

Lemma hget_step_cont l X Z : Q l s = X ++ x :: Z -> (S l < clen x)%nat ->
  Forall (fun y => rev_val l y <= rev_val l x) X ->
  Forall (fun z => rev_val l x <= rev_val l z) Z ->
  exists X' Z', Q (S l) s = X' ++ x :: Z' /\
    len X' = loccs_smaller (map (dig l) (Q l s)) (dig l x) +
             lrank (map (dig l) (Q l s)) (dig l x) (len X) /\
    Forall (fun y => rev_val (S l) y <= rev_val (S l) x) X' /\
    Forall (fun z => rev_val (S l) x <= rev_val (S l) z) Z'.
Proof.
  intros E Hc HX HZ.
  assert (HXY : Forall (fun y => rev_val l y <= rev_val l x) (X ++ [x])).
  { apply Forall_app. split; [exact HX|]. constructor; [lia|constructor]. }
  destruct (hblock_step s x Hokc Hpos l X [x] Z E Hc HXY) as (X' & Z' & E' & HL & HF & HZ').
  cbn [filter] in E', HF. rewrite N.eqb_refl in E', HF.
  exists X', Z'. split; [exact E'|split; [exact HL|split]].
  - apply Forall_app in HF. exact (proj1 HF).
  - exact (HZ' HZ).
Qed.

Lemma hget_step_fin l X Z : Q l s = X ++ x :: Z -> clen x = S l ->
  Forall (fun z => rev_val l x <= rev_val l z) Z ->
  len (Q (S l) s) <= loccs_smaller (map (dig l) (Q l s)) (dig l x) +
                     lrank (map (dig l) (Q l s)) (dig l x) (len X).
Proof.
  intros E Hc HZ. rewrite Forall_forall in HZ.
  set (d := dig l x). set (cf := fun y : A => (S l <? clen y)%nat).
  rewrite Q_S_len. fold cf.
  assert (Hg : forall g, In g (Q l s) -> cf g = true -> rev_val (S l) g < rev_val (S l) x).
  { intros g Hg Hcf. apply Q_In in Hg as [Hg _]. unfold cf in Hcf.
    pose proof (ok_fin_spec s x g Hokf Hg ltac:(lia)) as H. rewrite Hc in H. exact H. }
  assert (HcX : len (filter cf X) <= count_lt d (map (dig l) X) + countN d (map (dig l) X)).
  { apply len_filter_le_le. intros g HgX Hcf.
    assert (HgQ : In g (Q l s)) by (rewrite E; apply in_or_app; now left).
    pose proof (Hg g HgQ Hcf) as H.
    destruct (N.leb_spec (dig l g) d) as [Hle|Hgt]; [exact Hle|exfalso].
    pose proof (rev_val_S_lt l x g Hgt). lia. }
  assert (HcZ : len (filter cf Z) <= count_lt d (map (dig l) Z)).
  { apply len_filter_le_lt. intros g HgZ Hcf.
    assert (HgQ : In g (Q l s)) by (rewrite E; apply in_or_app; right; now right).
    pose proof (Hg g HgQ Hcf) as H.
    destruct (N.ltb_spec (dig l g) d) as [Hlt|Hge]; [exact Hlt|exfalso].
    pose proof (rev_val_S_le l x g (HZ g HgZ) Hge). lia. }
  assert (Hcx : cf x = false) by (unfold cf; apply Nat.ltb_ge; lia).
  unfold loccs_smaller, lrank. rewrite E.
  rewrite map_app, <- (len_map (dig l) X), firstnN_app_exact, count_lt_app.
  rewrite filter_app, len_app. cbn [filter map count_lt]. rewrite Hcx.
  fold d. lia.
Qed.

(* [k+1] levels remain for x; M levels are stored from l0 on *)
Lemma hget_inv k : forall l0 M X Z, (l0 + S k = clen x)%nat -> (S k <= M)%nat ->
  Q l0 s = X ++ x :: Z ->
  Forall (fun y => rev_val l0 y <= rev_val l0 x) X ->
  Forall (fun z => rev_val l0 x <= rev_val l0 z) Z ->
  get_walk (hwm_levels l0 M s) (len X) = digits_of l0 (S k) x /\
  Forall2 (fun j l => j < len (Q l s)) (get_walk_pos (hwm_levels l0 M s) (len X)) (seq l0 (S k)).
Proof.
  induction k as [|k IH]; intros l0 M X Z Hk HM E HX HZ;
    (destruct M as [|M]; [lia|]);
    destruct (hget_nth l0 X Z E) as (Hn & Hlt);
    rewrite digits_of_S; cbn [hwm_levels get_walk get_walk_pos seq]; rewrite Hn.
  - pose proof (hget_step_fin l0 X Z E ltac:(lia) HZ) as HL.
    destruct (get_walk_stop (hwm_levels (S l0) M s)
               (loccs_smaller (map (dig l0) (Q l0 s)) (dig l0 x) +
                lrank (map (dig l0) (Q l0 s)) (dig l0 x) (len X))) as (G1 & G2).
    { destruct M as [|M]; cbn [hwm_levels]; [exact I|]. rewrite len_map. exact HL. }
    rewrite G1, G2. split; [reflexivity|]. constructor; [exact Hlt|constructor].
  - destruct (hget_step_cont l0 X Z E ltac:(lia) HX HZ) as (X' & Z' & E' & HL & HX' & HZ').
    rewrite <- HL.
    destruct (IH (S l0) M X' Z' ltac:(lia) ltac:(lia) E' HX' HZ') as (G1 & G2).
    rewrite G1. split; [reflexivity|]. constructor; [exact Hlt|exact G2].
Qed.

Theorem hwm_get_at : forall M i, (clen x <= M)%nat -> nthN s i = Some x ->
  get_walk (hwm_levels 0 M s) i = digits_of 0 (clen x) x /\
  Forall2 (fun j l => j < len (Q l s)) (get_walk_pos (hwm_levels 0 M s) i) (seq 0 (clen x)).
Proof.
  intros M i HM H. destruct (nthN_split s i x H) as (X & Z & E & HX). rewrite <- HX.
  assert (Ek : exists k, clen x = S k) by (exists (pred (clen x)); lia).
  destruct Ek as [k Ek]. rewrite Ek.
  apply (hget_inv k 0%nat M X Z); [lia|lia|exact E| |];
    apply Forall_forall; intros y _; cbn [rev_val]; lia.
Qed.

End Get.

Lemma parts_sorted l k W :
  StronglySorted (fun x y => rev_val l x <= rev_val l y) W ->
  StronglySorted (fun x y => rev_val (S l) x <= rev_val (S l) y) (parts l k W).
Proof.
  intros HW. induction k as [|k IH]; cbn [WaveletMatrix.parts]; [constructor|].
  apply SS_app; [exact IH| |].
  - apply (SS_impl_in (fun x y => rev_val l x <= rev_val l y)); [|apply SS_filter; exact HW].
    intros x y Hx Hy Hxy. apply filter_In in Hx as [_ Hx]. apply filter_In in Hy as [_ Hy].
    apply rev_val_S_le; [exact Hxy|lia].
  - intros x y Hx Hy. apply In_parts in Hx as [_ Hx]. apply filter_In in Hy as [_ Hy].
    apply N.lt_le_incl, rev_val_S_lt. lia.
Qed.

Theorem Q_sorted : forall l s, StronglySorted (fun x y => rev_val l x <= rev_val l y) (Q l s).
Proof.
  induction l as [|l IH]; intros s; cbn [Q].
  - apply SS_all. intros x y _ _. cbn [rev_val]. lia.
  - apply parts_sorted, SS_filter, IH.
Qed.

Theorem hwm_rank_correct : forall s c i, wm_ok s = true -> In c s -> (0 < clen c)%nat ->
  i <= len s ->
  let r := rank_walk (hwm_levels 0 (clen c) s) (digits_of 0 (clen c) c) 0 i in
  fst r <= snd r /\ snd r <= len s /\
  snd r - fst r = len (filter (same_code c) (firstnN i s)).
Proof.
  intros s c i Hok Hc Hpos Hi.
  assert (EF : filter (same_code c) (firstnN i s) = filter (pre (clen c) c) (firstnN i s)).
  { apply filter_ext_in. intros x Hx.
    apply (same_code_pre s c x (wm_ok_cont s c Hok Hc) (wm_ok_fin s c Hok Hc)).
    rewrite <- (firstnN_skipnN s i). apply in_or_app. now left. }
  rewrite EF. exact (hwm_rank_pre s c (wm_ok_cont s c Hok Hc) Hpos i Hi).
Qed.

Theorem hwm_get_correct : forall M s i x, wm_ok s = true -> nthN s i = Some x ->
  (0 < clen x)%nat -> (clen x <= M)%nat ->
  get_walk (hwm_levels 0 M s) i = digits_of 0 (clen x) x /\
  Forall2 (fun j l => j < len (Q l s)) (get_walk_pos (hwm_levels 0 M s) i) (seq 0 (clen x)).
Proof.
  intros M s i x Hok H Hpos HM.
  assert (Hx : In x s).
  { rewrite nthN_nth_error in H. exact (nth_error_In _ _ H). }
  exact (hwm_get_at s x (wm_ok_cont s x Hok Hx) (wm_ok_fin s x Hok Hx) Hpos M i HM H).
Qed.

Theorem hwm_select_correct : forall s c k, wm_ok s = true -> In c s -> (0 < clen c)%nat ->
  wm_select (hwm_levels 0 (clen c) s) (digits_of 0 (clen c) c) k =
  select_pred (same_code c) s k 0.
Proof.
  intros s c k Hok Hc Hpos.
  rewrite (select_pred_ext_in (same_code c) (pre (clen c) c) s
             (fun x Hx => same_code_pre s c x (wm_ok_cont s c Hok Hc) (wm_ok_fin s c Hok Hc) Hx)).
  exact (hwm_select_pre s c (wm_ok_cont s c Hok Hc) Hpos k).
Qed.

End HWM.

Definition hex_code (x : N) : list N :=
  nth (N.to_nat x) [[3]; [2]; [1; 3]; [0; 3]; [1; 2; 0]; [1; 2; 1]; [0; 2; 3]] [].
Definition hex_dig (l : nat) (x : N) : N := nth l (hex_code x) 0.
Definition hex_clen (x : N) : nat := length (hex_code x).
Lemma nth_Forall {B} (P : B -> Prop) l d n : Forall P l -> P d -> P (nth n l d).
Proof. intros H Hd. revert n. induction H; intros [|n]; cbn [nth]; auto. Qed.
Lemma hex_dig_lt : forall l x, hex_dig l x < N.of_nat 4.
Proof.
  intros l x. unfold hex_dig, hex_code. change (N.of_nat 4) with 4.
  apply nth_Forall; [|lia].
  apply (nth_Forall (fun code => Forall (fun d => d < 4) code)); [|constructor].
  repeat (constructor; try lia).
Qed.
Definition hex_s : list N := [2; 0; 4; 1; 0; 6; 5; 3; 0; 4; 2; 1].
Definition hex_levels := hwm_levels N 4 hex_dig hex_clen 0 3 hex_s.
Example hex_levels_val :
  hex_levels = [[1; 3; 1; 2; 3; 0; 1; 0; 3; 1; 1; 2]; [2; 3; 3; 2; 2; 2; 3]; [3; 0; 1; 0]].
Proof. vm_compute. reflexivity. Qed.
Example hex_ok : wm_ok N 4 hex_dig hex_clen hex_s = true /\ prefix_free N hex_dig hex_clen hex_s = true /\
  forallb (fun x => (0 <? hex_clen x)%nat) hex_s = true.
Proof. vm_compute. repeat split; reflexivity. Qed.
(* rank over hex_s[0..10) of the symbols 0 (1 digit), 2 (2 digits), 4 and 6 (3 digits) *)
Example hex_rank :
  map (fun c => rank_walk (hwm_levels N 4 hex_dig hex_clen 0 (hex_clen c) hex_s)
                          (digits_of N hex_dig 0 (hex_clen c) c) 0 10) [0; 2; 4; 6] =
    [(9, 12); (5, 6); (0, 2); (3, 4)] /\
  map (fun c => len (filter (same_code N hex_dig hex_clen c) (firstnN 10 hex_s))) [0; 2; 4; 6] = [3; 1; 2; 1].
Proof. vm_compute. split; reflexivity. Qed.
Example hex_get :
  map (fun i => (get_walk hex_levels i, get_walk_pos hex_levels i)) [0; 1; 2; 5] =
    [([1; 3], [0; 2]); ([3], [1]); ([1; 2; 0], [2; 3; 1]); ([0; 2; 3], [5; 0; 0])].
Proof. vm_compute. reflexivity. Qed.
Example hex_select :
  map (fun c => map (wm_select (hwm_levels N 4 hex_dig hex_clen 0 (hex_clen c) hex_s)
                               (digits_of N hex_dig 0 (hex_clen c) c)) [0; 1; 2; 3]) [0; 2; 4; 6] =
    [[Some 1; Some 4; Some 8; None]; [Some 0; Some 10; None; None];
     [Some 2; Some 9; None; None]; [Some 5; None; None; None]] /\
  map (fun c => map (fun k => select_pred N (same_code N hex_dig hex_clen c) hex_s k 0) [0; 1; 2; 3])
      [0; 2; 4; 6] =
    [[Some 1; Some 4; Some 8; None]; [Some 0; Some 10; None; None];
     [Some 2; Some 9; None; None]; [Some 5; None; None; None]].
Proof. vm_compute. split; reflexivity. Qed.
Example hex_select_thm : forall c k, In c hex_s ->
  wm_select (hwm_levels N 4 hex_dig hex_clen 0 (hex_clen c) hex_s) (digits_of N hex_dig 0 (hex_clen c) c) k =
  select_pred N (same_code N hex_dig hex_clen c) hex_s k 0.
Proof.
  intros c k Hc. apply (hwm_select_correct N 4 hex_dig hex_dig_lt hex_clen hex_s c k); [apply hex_ok|exact Hc|].
  destruct hex_ok as (_ & _ & H). rewrite forallb_forall in H. specialize (H c Hc). lia.
Qed.
Example hex_get_thm : forall i x, nthN hex_s i = Some x ->
  get_walk hex_levels i = digits_of N hex_dig 0 (hex_clen x) x.
Proof.
  intros i x H.
  assert (Hx : In x hex_s) by (rewrite nthN_nth_error in H; exact (nth_error_In _ _ H)).
  destruct hex_ok as (Hok & _ & Hp). rewrite forallb_forall in Hp. specialize (Hp x Hx).
  apply (hwm_get_correct N 4 hex_dig hex_dig_lt hex_clen 3 hex_s i x Hok H); [lia|].
  assert (H3 : forallb (fun y => (hex_clen y <=? 3)%nat) hex_s = true) by (vm_compute; reflexivity).
  rewrite forallb_forall in H3. specialize (H3 x Hx). lia.
Qed.

Print Assumptions hblock_step.
Print Assumptions hwm_rank_pre.
Print Assumptions hwm_rank_prefix.
Print Assumptions hwm_select_pre.
Print Assumptions hselect_down_bounds.
Print Assumptions hwm_get_at.
Print Assumptions hwm_rank_correct.
Print Assumptions hwm_get_correct.
Print Assumptions hwm_select_correct.
Print Assumptions wm_ok_prefix_free.
Print Assumptions Q_sorted.
Print Assumptions hex_levels_val.
Print Assumptions hex_ok.
Print Assumptions hex_rank.
Print Assumptions hex_get.
Print Assumptions hex_select.
Print Assumptions hex_select_thm.
Print Assumptions hex_get_thm.
