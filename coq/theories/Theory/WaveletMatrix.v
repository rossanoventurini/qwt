(* Generic theory of wavelet-matrix walks (rank / get / select) over the stored digit
   lists only, in the vocabulary of Base/ListX.v and Spec/Seq.v. *)
From Coq Require Import ZArith Lia ZifyBool ZifyN ZifyNat.
From QwtModel Require Import ListX Seq ListXP SeqP.

Lemma firstnN_map {A B} (f : A -> B) (X : list A) :
  forall i, firstnN i (map f X) = map f (firstnN i X).
Proof. intros i. apply ListXP.firstnN_map. Qed.

Lemma countN_map_filter {A} (f : A -> N) d X :
  countN d (map f X) = len (filter (fun x => f x =? d) X).
Proof.
  induction X as [|x X IH]; cbn [map countN filter]; [reflexivity|].
  destruct (f x =? d); cbv iota; rewrite ?len_cons, IH; lia.
Qed.

Lemma count_lt_le_len c D : count_lt c D <= len D.
Proof.
  induction D as [|x D IH]; cbn [count_lt]; [unfold len; cbn [length]; lia|].
  rewrite len_cons. destruct (x <? c); cbv iota; lia.
Qed.

Lemma Forall2_Forall_l {A B} (P : A -> B -> Prop) (Q : A -> Prop) l l' :
  (forall x y, P x y -> Q x) -> Forall2 P l l' -> Forall Q l.
Proof. intros H. induction 1; constructor; eauto. Qed.

Definition lrank (D : list N) (d i : N) : N := countN d (firstnN i D).
Definition loccs_smaller (D : list N) (d : N) : N := count_lt d D.

Lemma lrank_le D d i : lrank D d i <= i.
Proof.
  unfold lrank. pose proof (countN_le_len d (firstnN i D)) as H.
  rewrite firstnN_len in H. lia.
Qed.

Lemma occs_rank_le_len D d j : loccs_smaller D d + lrank D d j <= len D.
Proof.
  unfold loccs_smaller, lrank. pose proof (count_lt_eq_le_len d D) as H.
  rewrite <- (firstnN_skipnN D j) in H at 2. rewrite countN_app in H. lia.
Qed.

Definition up_step (D : list N) (d b rb j : N) : option N :=
  match select_spec D d (rb + j) with
  | None => None
  | Some p => if p <? b then None else Some (p - b)
  end.

Lemma up_step_lt D d b rb j q : up_step D d b rb j = Some q -> q + b < len D.
Proof.
  unfold up_step. destruct (select_spec D d (rb + j)) as [p|] eqn:Ep; [|discriminate].
  apply select_spec_some_lt in Ep as [_ Ep].
  destruct (N.ltb_spec p b) as [Hpb|Hpb]; [discriminate|]. intros Hq. injection Hq as <-. lia.
Qed.

Section WM.
Set Default Proof Using "Type".
Variable A : Type.
Variable a : nat.                       (* arity: 2 or 4 *)
Variable dig : nat -> A -> N.           (* digit of a symbol at a level, as N *)
Hypothesis dig_lt : forall l x, dig l x < N.of_nat a.

(* stable a-way partition by the level-l digit *)
Fixpoint parts (l : nat) (k : nat) (s : list A) : list A :=
  match k with O => [] | S k' => parts l k' s ++ filter (fun x => dig l x =? N.of_nat k') s end.
Fixpoint lev (l : nat) (s : list A) : list A :=
  match l with O => s | S l' => parts l' a (lev l' s) end.
(* the digit lists the structure stores: levels l0, l0+1, ..., l0+n-1 *)
Fixpoint wm_levels (l0 n : nat) (s : list A) : list (list N) :=
  match n with O => [] | S n' => map (dig l0) (lev l0 s) :: wm_levels (S l0) n' s end.
Definition digits_of (l0 n : nat) (c : A) : list N := map (fun l => dig l c) (seq l0 n).
Fixpoint pre (l : nat) (c x : A) : bool :=      (* x agrees with c on digits 0..l-1 *)
  match l with O => true | S l' => pre l' c x && (dig l' x =? dig l' c) end.


Fixpoint rank_walk (levels : list (list N)) (digs : list N) (p i : N) : N * N :=
  match levels, digs with
  | D :: levels', d :: digs' =>
      rank_walk levels' digs' (loccs_smaller D d + lrank D d p) (loccs_smaller D d + lrank D d i)
  | _, _ => (p, i)
  end.
Fixpoint get_walk (levels : list (list N)) (i : N) : list N :=
  match levels with
  | D :: levels' => match nthN D i with
                    | Some d => d :: get_walk levels' (loccs_smaller D d + lrank D d i)
                    | None => []
                    end
  | [] => []
  end.
Fixpoint get_walk_pos (levels : list (list N)) (i : N) : list N :=
  match levels with
  | D :: levels' => match nthN D i with
                    | Some d => i :: get_walk_pos levels' (loccs_smaller D d + lrank D d i)
                    | None => []
                    end
  | [] => []
  end.
(* select: downward pass records (b_l, rank_b_l); upward pass applies per-level select *)
Fixpoint select_down (levels : list (list N)) (digs : list N) (b : N) : list (N * N) :=
  match levels, digs with
  | D :: levels', d :: digs' =>
      let rb := lrank D d b in (b, rb) :: select_down levels' digs' (rb + loccs_smaller D d)
  | _, _ => []
  end.
(* [path] = zip of levels, digits and the recorded pairs, DEEPEST level first *)
Fixpoint select_up (path : list (list N * N * (N * N))) (result : N) : option N :=
  match path with
  | [] => Some result
  | (D, d, (b, rb)) :: rest =>
      match select_spec D d (rb + result) with
      | None => None
      | Some p => if p <? b then None else select_up rest (p - b)
      end
  end.
Definition wm_select (levels : list (list N)) (digs : list N) (k : N) : option N :=
  select_up (rev (combine (combine levels digs) (select_down levels digs 0))) k.
(* position in s of the (k+1)-th element satisfying f *)
Fixpoint select_pred (f : A -> bool) (s : list A) (k pos : N) : option N :=
  match s with
  | [] => None
  | x :: s' => if f x then (if k =? 0 then Some pos else select_pred f s' (N.pred k) (pos + 1))
               else select_pred f s' k (pos + 1)
  end.

(* x agrees with c on digits l0 .. l0+n-1 (proof device) *)
Fixpoint prer (l0 n : nat) (c x : A) : bool :=
  match n with O => true | S n' => (dig l0 x =? dig l0 c) && prer (S l0) n' c x end.

Definition wpath (levels : list (list N)) (digs : list N) (b : N) : list (list N * N * (N * N)) :=
  combine (combine levels digs) (select_down levels digs b).

Lemma select_up_app p1 : forall p2 k,
  select_up (p1 ++ p2) k = match select_up p1 k with Some r => select_up p2 r | None => None end.
Proof.
  induction p1 as [|[[D d] [b rb]] p1 IH]; intros p2 k; cbn [app select_up]; [reflexivity|].
  destruct (select_spec D d (rb + k)) as [p|]; [|reflexivity].
  destruct (p <? b); [reflexivity|]. apply IH.
Qed.

Lemma select_up_rev_cons D Ls d ds b k :
  select_up (rev (wpath (D :: Ls) (d :: ds) b)) k =
  match select_up (rev (wpath Ls ds (lrank D d b + loccs_smaller D d))) k with
  | Some j => up_step D d b (lrank D d b) j
  | None => None
  end.
Proof.
  unfold wpath. cbn [select_down combine rev]. rewrite select_up_app.
  destruct (select_up _ k) as [j|]; [|reflexivity].
  cbn [select_up]. unfold up_step.
  destruct (select_spec _ _ _) as [p|]; [|reflexivity].
  destruct (p <? b); reflexivity.
Qed.

Lemma digits_of_S l0 n c : digits_of l0 (S n) c = dig l0 c :: digits_of (S l0) n c.
Proof. reflexivity. Qed.
Lemma digits_of_snoc l0 n c : digits_of l0 (S n) c = digits_of l0 n c ++ [dig (l0 + n) c].
Proof. unfold digits_of. now rewrite seq_S, map_app. Qed.
Lemma digits_of_length l0 n c : length (digits_of l0 n c) = n.
Proof. unfold digits_of. now rewrite map_length, seq_length. Qed.

Lemma pre_prer n : forall l0 c x, pre (l0 + n) c x = pre l0 c x && prer l0 n c x.
Proof.
  induction n as [|n IH]; intros l0 c x.
  - rewrite Nat.add_0_r. cbn [prer]. now rewrite andb_true_r.
  - rewrite Nat.add_succ_r. change (S (l0 + n))%nat with (S l0 + n)%nat.
    rewrite IH. cbn [pre prer]. now rewrite andb_assoc.
Qed.

Lemma pre_prer0 L c x : pre L c x = prer 0 L c x.
Proof. exact (pre_prer L 0%nat c x). Qed.

Lemma pre_refl l x : pre l x x = true.
Proof. induction l as [|l IH]; cbn [pre]; [reflexivity|]. rewrite IH, N.eqb_refl. reflexivity. Qed.

Lemma parts_len l k s : len (parts l k s) = count_lt (N.of_nat k) (map (dig l) s).
Proof.
  induction k as [|k IH]; cbn [parts].
  - change (N.of_nat 0) with 0. now rewrite count_lt_0.
  - rewrite Nnat.Nat2N.inj_succ, <- N.add_1_r, len_app, IH, count_lt_succ, countN_map_filter. reflexivity.
Qed.

Lemma count_lt_arity l s : count_lt (N.of_nat a) (map (dig l) s) = len s.
Proof using dig_lt.
  induction s as [|x s IH]; cbn [map count_lt]; [reflexivity|].
  rewrite IH, len_cons. pose proof (dig_lt l x) as H.
  destruct (N.ltb_spec (dig l x) (N.of_nat a)); cbv iota; lia.
Qed.

Theorem lev_length : forall l s, len (lev l s) = len s.
Proof using dig_lt.
  induction l as [|l IH]; intros s; cbn [lev]; [reflexivity|].
  now rewrite parts_len, count_lt_arity, IH.
Qed.

Lemma parts_split l d k W : (d < k)%nat ->
  exists post, parts l k W = parts l d W ++ filter (fun x => dig l x =? N.of_nat d) W ++ post /\
               forall x, In x post -> In x W /\ N.of_nat d < dig l x.
Proof. clear dig_lt a. (* here and below: otherwise lia draws dig_lt into the proof term *)
  intros H. induction k as [|k IH]; [lia|]. destruct (Nat.eq_dec d k) as [->|Hne].
  - exists []. cbn [parts]. split; [now rewrite app_nil_r|contradiction].
  - destruct IH as (post & E & HP); [lia|].
    exists (post ++ filter (fun x => dig l x =? N.of_nat k) W). split.
    + cbn [parts]. rewrite E. now rewrite <- !app_assoc.
    + intros x Hx. apply in_app_or in Hx as [Hx|Hx]; [exact (HP x Hx)|].
      apply filter_In in Hx as [H1 H2]. split; [exact H1|lia].
Qed.

Lemma In_parts l k W x : In x (parts l k W) -> In x W /\ dig l x < N.of_nat k.
Proof. clear dig_lt a.
  induction k as [|k IH]; cbn [parts]; [contradiction|]. intros H.
  apply in_app_or in H as [H|H].
  - apply IH in H. split; [tauto|lia].
  - apply filter_In in H as [H1 H2]. split; [exact H1|lia].
Qed.

Lemma lrank_exact l X W d :
  lrank (map (dig l) (X ++ W)) d (len X) = len (filter (fun x => dig l x =? d) X).
Proof.
  unfold lrank. rewrite map_app, <- (len_map (dig l) X), firstnN_app_exact.
  apply countN_map_filter.
Qed.

Lemma lrank_block l X Y W d :
  lrank (map (dig l) (X ++ Y ++ W)) d (len X + len Y) =
  lrank (map (dig l) (X ++ Y ++ W)) d (len X) + len (filter (fun x => dig l x =? d) Y).
Proof.
  rewrite lrank_exact. rewrite app_assoc, <- len_app, lrank_exact, filter_app, len_app. reflexivity.
Qed.

(* the key step: a block Y of level l (at offset |X|) becomes, restricted to the elements of
   digit d, a block of level l+1 at offset occs_smaller + rank d |X| *)
Lemma block_step l s X Y Z d : lev l s = X ++ Y ++ Z -> d < N.of_nat a ->
  exists X' Z', lev (S l) s = X' ++ filter (fun x => dig l x =? d) Y ++ Z' /\
    len X' = loccs_smaller (map (dig l) (lev l s)) d + lrank (map (dig l) (lev l s)) d (len X).
Proof using dig_lt.
  intros E Hd.
  destruct (parts_split l (N.to_nat d) a (lev l s)) as (post & EP & _); [lia|].
  rewrite Nnat.N2Nat.id in EP.
  assert (EF : filter (fun x => dig l x =? d) (lev l s) =
               filter (fun x => dig l x =? d) X ++ filter (fun x => dig l x =? d) Y ++
               filter (fun x => dig l x =? d) Z).
  { rewrite E. now rewrite !filter_app. }
  exists (parts l (N.to_nat d) (lev l s) ++ filter (fun x => dig l x =? d) X),
         (filter (fun x => dig l x =? d) Z ++ post).
  split.
  - cbn [lev]. rewrite EP, EF. now rewrite <- !app_assoc.
  - rewrite len_app, parts_len, Nnat.N2Nat.id. unfold loccs_smaller. f_equal.
    rewrite E, lrank_exact. reflexivity.
Qed.

Lemma select_pred_ext f g s : (forall x, f x = g x) ->
  forall k pos, select_pred f s k pos = select_pred g s k pos.
Proof.
  intros H. induction s as [|x s IH]; intros k pos; cbn [select_pred]; [reflexivity|].
  rewrite H, !IH. reflexivity.
Qed.

Lemma select_pred_shift f s : forall k pos,
  select_pred f s k pos = option_map (fun j => pos + j) (select_pred f s k 0).
Proof. clear dig_lt dig a.
  induction s as [|x s IH]; intros k pos; cbn [select_pred]; [reflexivity|].
  rewrite (IH k (pos + 1)), (IH k (0 + 1)), (IH (N.pred k) (pos + 1)), (IH (N.pred k) (0 + 1)).
  destruct (f x); [destruct (k =? 0)|].
  - cbn [option_map]. f_equal. lia.
  - destruct (select_pred f s (N.pred k) 0); cbn [option_map]; [f_equal; lia|reflexivity].
  - destruct (select_pred f s k 0); cbn [option_map]; [f_equal; lia|reflexivity].
Qed.

Lemma select_pred_bound f s : forall k pos p,
  select_pred f s k pos = Some p -> pos <= p /\ p < pos + len s.
Proof. clear dig_lt dig a.
  induction s as [|x s IH]; intros k pos p; cbn [select_pred]; [discriminate|].
  rewrite len_cons. destruct (f x); [destruct (k =? 0)|]; intros H.
  - injection H as <-. lia.
  - apply IH in H. lia.
  - apply IH in H. lia.
Qed.

Lemma select_pred_app f s1 : forall s2 k pos,
  select_pred f (s1 ++ s2) k pos =
  if k <? len (filter f s1) then select_pred f s1 k pos
  else select_pred f s2 (k - len (filter f s1)) (pos + len s1).
Proof. clear dig_lt dig a.
  induction s1 as [|x s1 IH]; intros s2 k pos.
  - cbn [app filter]. rewrite len_nil, N.sub_0_r, N.add_0_r.
    destruct (N.ltb_spec k 0); [lia|reflexivity].
  - cbn [app filter select_pred]. rewrite len_cons. destruct (f x).
    + rewrite len_cons. destruct (N.eqb_spec k 0) as [->|Hk].
      * destruct (N.ltb_spec 0 (len (filter f s1) + 1)); [reflexivity|lia].
      * rewrite IH.
        destruct (N.ltb_spec (N.pred k) (len (filter f s1))), (N.ltb_spec k (len (filter f s1) + 1));
          try lia; [reflexivity|]. f_equal; lia.
    + rewrite IH. destruct (k <? len (filter f s1)); [reflexivity|]. f_equal; lia.
Qed.

Lemma select_pred_true s : forall k pos,
  select_pred (fun _ => true) s k pos = if k <? len s then Some (pos + k) else None.
Proof. clear dig_lt dig a.
  induction s as [|x s IH]; intros k pos; cbn [select_pred].
  - rewrite len_nil. destruct (N.ltb_spec k 0); [lia|reflexivity].
  - rewrite len_cons. destruct (N.eqb_spec k 0) as [->|Hk].
    + destruct (N.ltb_spec 0 (len s + 1)); [f_equal; lia|lia].
    + rewrite IH. destruct (N.ltb_spec (N.pred k) (len s)), (N.ltb_spec k (len s + 1)); try lia;
        [f_equal; lia|reflexivity].
Qed.

(* selecting through a refinement: the k-th element of Y satisfying f && g is the j'-th element
   satisfying f, where j' is the index of the k-th g-element inside filter f Y *)
Lemma select_pred_compose f g Y : forall k pos,
  select_pred (fun x => f x && g x) Y k pos =
  match select_pred g (filter f Y) k 0 with
  | Some j' => select_pred f Y j' pos
  | None => None
  end.
Proof. clear dig_lt dig a.
  induction Y as [|x Y IH]; intros k pos; cbn [filter select_pred]; [reflexivity|].
  destruct (f x) eqn:Ef; cbn [andb].
  - cbn [select_pred]. destruct (g x) eqn:Eg.
    + destruct (N.eqb_spec k 0) as [->|Hk]; [reflexivity|].
      rewrite IH, (select_pred_shift g (filter f Y) (N.pred k) (0 + 1)).
      destruct (select_pred g (filter f Y) (N.pred k) 0) as [j|]; cbn [option_map]; [|reflexivity].
      destruct (N.eqb_spec (0 + 1 + j) 0); [lia|]. f_equal. lia.
    + rewrite IH, (select_pred_shift g (filter f Y) k (0 + 1)).
      destruct (select_pred g (filter f Y) k 0) as [j|]; cbn [option_map]; [|reflexivity].
      destruct (N.eqb_spec (0 + 1 + j) 0); [lia|]. f_equal. lia.
  - apply IH.
Qed.

Lemma select_from_pred l Y d : forall k pos,
  select_from (map (dig l) Y) d k pos = select_pred (fun x => dig l x =? d) Y k pos.
Proof.
  induction Y as [|x Y IH]; intros k pos; cbn [map select_from select_pred]; [reflexivity|].
  now rewrite !IH.
Qed.

(* the upward step at a level whose block is X ++ Y ++ Z: the answer counted from the start of Y *)
Lemma up_step_block l X Y Z d j :
  up_step (map (dig l) (X ++ Y ++ Z)) d (len X) (lrank (map (dig l) (X ++ Y ++ Z)) d (len X)) j =
  if j <? len (filter (fun x => dig l x =? d) Y) then select_pred (fun x => dig l x =? d) Y j 0
  else option_map (fun q => len Y + q)
         (select_pred (fun x => dig l x =? d) Z (j - len (filter (fun x => dig l x =? d) Y)) 0).
Proof. clear dig_lt a.
  unfold up_step, select_spec. rewrite lrank_exact, select_from_pred, select_pred_app.
  destruct (N.ltb_spec (len (filter (fun x => dig l x =? d) X) + j) (len (filter (fun x => dig l x =? d) X)));
    [lia|].
  replace (len (filter (fun x => dig l x =? d) X) + j - len (filter (fun x => dig l x =? d) X)) with j by lia.
  rewrite select_pred_app, N.add_0_l.
  destruct (j <? len (filter (fun x => dig l x =? d) Y)); rewrite select_pred_shift;
    (destruct (select_pred _ _ _ 0) as [q|]; cbn [option_map]; [|reflexivity]).
  - destruct (N.ltb_spec (len X + q) (len X)); [lia|]. f_equal. lia.
  - destruct (N.ltb_spec (len X + len Y + q) (len X)); [lia|]. f_equal. lia.
Qed.

(* The walks only need to know how one block of one level moves to the next.  [V l] is the list
   of symbols that level l holds and [Lv l0 n] the digit lists stored for levels l0 .. l0+n-1:
   [lev] with [wm_levels] here, the Huffman-shaped levels in HuffWM.v. *)
Section Tracked.
Variable V : nat -> list A.
Variable Lv : nat -> nat -> list (list N).
Hypothesis Lv_0 : forall l0, Lv l0 0 = [].
Hypothesis Lv_S : forall l0 n, Lv l0 (S n) = map (dig l0) (V l0) :: Lv (S l0) n.
Variable c : A.

(* Y is the block at offset b of level l0 and, through n - 1 further levels, the part of Y that
   agrees with c on the digits read so far is the block at the offset the walks compute *)
Fixpoint tracks (l0 n : nat) (b : N) (Y : list A) : Prop :=
  match n with
  | O => True
  | S n' => (exists X Z, V l0 = X ++ Y ++ Z /\ len X = b) /\
            tracks (S l0) n' (loccs_smaller (map (dig l0) (V l0)) (dig l0 c) +
                              lrank (map (dig l0) (V l0)) (dig l0 c) b)
                   (filter (fun x => dig l0 x =? dig l0 c) Y)
  end.

(* rank: after n levels the two ends of the block are the two ends of its c-part, which is
   still tracked through the levels that remain *)
Lemma rank_walk_tracks n : forall m l0 b Y, tracks l0 (n + m) b Y ->
  exists p, rank_walk (Lv l0 n) (digits_of l0 n c) b (b + len Y) =
              (p, p + len (filter (prer l0 n c) Y)) /\
            tracks (l0 + n) m p (filter (prer l0 n c) Y).
Proof using Lv_0 Lv_S.
  induction n as [|n IH]; intros m l0 b Y H.
  - exists b. rewrite Lv_0, Nat.add_0_r, filter_all by reflexivity. split; [reflexivity|exact H].
  - destruct H as ((X & Z & E & <-) & H).
    destruct (IH m (S l0) _ _ H) as (p & HR & HT). rewrite filter_filter in HR, HT.
    exists p. rewrite Nat.add_succ_r. split; [|exact HT].
    rewrite Lv_S, digits_of_S. cbn [rank_walk].
    rewrite E in HR |- *. rewrite lrank_block, N.add_assoc. exact HR.
Qed.

(* a rank query follows the block of the first i symbols *)
Lemma rank_walk_prefix n m i : i <= len (V 0%nat) -> tracks 0 (n + m) 0 (firstnN i (V 0%nat)) ->
  exists p, rank_walk (Lv 0 n) (digits_of 0 n c) 0 i =
              (p, p + len (filter (pre n c) (firstnN i (V 0%nat)))) /\
            tracks n m p (filter (pre n c) (firstnN i (V 0%nat))).
Proof using Lv_0 Lv_S.
  intros Hi H. destruct (rank_walk_tracks n m 0%nat 0 _ H) as (p & HR & HT).
  rewrite N.add_0_l, (len_firstnN_le _ i Hi) in HR.
  rewrite (filter_ext _ _ (pre_prer0 n c)). exists p. split; assumption.
Qed.

Lemma rank_walk_le B : (forall l, len (V l) <= B) -> forall n l0 ds p i, i <= B ->
  snd (rank_walk (Lv l0 n) ds p i) <= B.
Proof using Lv_0 Lv_S. clear dig_lt c.
  intros HV. induction n as [|n IH]; intros l0 ds p i Hi.
  - rewrite Lv_0. exact Hi.
  - rewrite Lv_S. destruct ds as [|d ds]; [exact Hi|]. cbn [rank_walk]. apply IH.
    pose proof (occs_rank_le_len (map (dig l0) (V l0)) d i) as H. rewrite len_map in H.
    specialize (HV l0). lia.
Qed.

(* get: the tracked block is the single symbol c *)
Lemma tracks_get l0 n b : tracks l0 (S n) b [c] ->
  nthN (map (dig l0) (V l0)) b = Some (dig l0 c) /\ b < len (V l0) /\
  tracks (S l0) n (loccs_smaller (map (dig l0) (V l0)) (dig l0 c) +
                   lrank (map (dig l0) (V l0)) (dig l0 c) b) [c].
Proof. clear dig_lt a Lv Lv_0 Lv_S.
  intros ((X & Z & E & <-) & H). cbn [filter] in H. rewrite N.eqb_refl in H.
  split; [|split; [|exact H]]; rewrite E.
  - rewrite nthN_map, nthN_app2, N.sub_diag by lia. reflexivity.
  - lens. lia.
Qed.

Lemma get_walk_tracks n : forall l0 b, tracks l0 n b [c] ->
  get_walk (Lv l0 n) b = digits_of l0 n c /\
  Forall2 (fun j l => j < len (V l)) (get_walk_pos (Lv l0 n) b) (seq l0 n).
Proof using Lv_0 Lv_S.
  induction n as [|n IH]; intros l0 b H; [rewrite Lv_0; split; [reflexivity|constructor]|].
  apply tracks_get in H as (Hn & Hb & H). destruct (IH _ _ H) as (G1 & G2).
  rewrite Lv_S, digits_of_S. cbn [get_walk get_walk_pos seq]. rewrite Hn, G1.
  split; [reflexivity|]. constructor; assumption.
Qed.

Lemma select_walk n : forall l0 b Y k, tracks l0 n b Y ->
  match select_pred (prer l0 n c) Y k 0 with
  | Some j => select_up (rev (wpath (Lv l0 n) (digits_of l0 n c) b)) k = Some j
  | None => select_up (rev (wpath (Lv l0 n) (digits_of l0 n c) b)) k = None \/
            exists j, select_up (rev (wpath (Lv l0 n) (digits_of l0 n c) b)) k = Some j /\ len Y <= j
  end.
Proof using Lv_0 Lv_S. clear dig_lt a.
  induction n as [|n IH]; intros l0 b Y k H.
  - cbn [prer]. rewrite select_pred_true, Lv_0. cbn [wpath combine rev select_up].
    destruct (N.ltb_spec k (len Y)); [f_equal; lia|]. right. exists k. split; [reflexivity|assumption].
  - destruct H as ((X & Z & E & <-) & H). specialize (IH (S l0) _ _ k H).
    rewrite Lv_S, digits_of_S, select_up_rev_cons, (N.add_comm (lrank _ _ _)).
    assert (EP : select_pred (prer l0 (S n) c) Y k 0 =
                 select_pred (fun x => (dig l0 x =? dig l0 c) && prer (S l0) n c x) Y k 0).
    { apply select_pred_ext. intros x. reflexivity. }
    rewrite EP, select_pred_compose. clear EP.
    rewrite E in IH |- *.
    destruct (select_pred (prer (S l0) n c) (filter (fun x => dig l0 x =? dig l0 c) Y) k 0) as [j'|] eqn:Ej'.
    + rewrite IH, up_step_block. apply select_pred_bound in Ej'.
      destruct (N.ltb_spec j' (len (filter (fun x => dig l0 x =? dig l0 c) Y))); [|lia].
      destruct (select_pred (fun x => dig l0 x =? dig l0 c) Y j' 0); [reflexivity|now left].
    + destruct IH as [IH|(j' & IH & Hj')]; rewrite IH; [now left|]. rewrite up_step_block.
      destruct (N.ltb_spec j' (len (filter (fun x => dig l0 x =? dig l0 c) Y))); [lia|].
      destruct (select_pred _ Z _ 0) as [q|]; cbn [option_map]; [right|now left].
      exists (len Y + q). split; [reflexivity|lia].
Qed.

(* when the block is a whole level, no answer lies beyond it *)
Lemma select_walk_whole n l0 k : (0 < n)%nat -> tracks l0 n 0 (V l0) ->
  select_up (rev (wpath (Lv l0 n) (digits_of l0 n c) 0)) k = select_pred (prer l0 n c) (V l0) k 0.
Proof using Lv_0 Lv_S. clear dig_lt a.
  intros Hn H. pose proof (select_walk n l0 0 (V l0) k H) as HW.
  destruct (select_pred (prer l0 n c) (V l0) k 0) as [j|]; [exact HW|].
  destruct HW as [HW|(j & HW & Hj)]; [exact HW|]. exfalso.
  destruct n as [|n]; [lia|].
  rewrite Lv_S, digits_of_S, select_up_rev_cons in HW.
  destruct (select_up _ k) as [j'|]; [|discriminate].
  apply up_step_lt in HW. rewrite len_map in HW. lia.
Qed.

Lemma select_down_tracks n : forall l0 b Y, tracks l0 n b Y ->
  Forall2 (fun '(b, rb) l => b <= len (V l) /\ rb <= b)
    (select_down (Lv l0 n) (digits_of l0 n c) b) (seq l0 n).
Proof using Lv_0 Lv_S. clear dig_lt a.
  induction n as [|n IH]; intros l0 b Y H; [rewrite Lv_0; constructor|].
  destruct H as ((X & Z & E & <-) & H).
  rewrite Lv_S, digits_of_S. cbn [select_down seq]. constructor.
  - split; [|apply lrank_le]. rewrite E. lens. lia.
  - rewrite (N.add_comm (lrank _ _ _)). exact (IH _ _ _ H).
Qed.

End Tracked.

Lemma lev_tracks s c n : forall l0 X Y Z, lev l0 s = X ++ Y ++ Z ->
  tracks (fun l => lev l s) c l0 n (len X) Y.
Proof using dig_lt.
  induction n as [|n IH]; intros l0 X Y Z E; [exact I|]. split; [now exists X, Z|].
  destruct (block_step l0 s X Y Z (dig l0 c) E (dig_lt l0 c)) as (X' & Z' & E' & <-).
  exact (IH (S l0) X' _ Z' E').
Qed.

Local Notation levs s := (fun l => lev l s).
Local Notation wmls s := (fun l0 n => wm_levels l0 n s).

Theorem wm_rank_correct : forall L s c i, i <= len s ->
  let r := rank_walk (wm_levels 0 L s) (digits_of 0 L c) 0 i in
  fst r <= snd r /\ snd r <= len s /\ snd r - fst r = len (filter (pre L c) (firstnN i s)).
Proof using dig_lt.
  intros L s c i Hi. cbv zeta.
  destruct (rank_walk_prefix (levs s) (wmls s) (fun _ => eq_refl) (fun _ _ => eq_refl) c L 0%nat i Hi
              (lev_tracks s c (L + 0) 0%nat [] _ _ (eq_sym (firstnN_skipnN s i)))) as (p & HR & _).
  pose proof (rank_walk_le (levs s) (wmls s) (fun _ => eq_refl) (fun _ _ => eq_refl) (len s)
                (fun l => N.eq_le_incl _ _ (lev_length l s)) L 0%nat (digits_of 0 L c) 0 i Hi) as HB.
  cbn [lev] in HR, HB. rewrite HR in HB |- *. cbn [fst snd] in HB |- *. repeat split; lia.
Qed.

Theorem wm_rank_prefix : forall L n s c i, (n <= L)%nat -> i <= len s ->
  let r := rank_walk (wm_levels 0 n s) (digits_of 0 n c) 0 i in
  fst r <= snd r /\ snd r <= len s /\ snd r - fst r = len (filter (pre n c) (firstnN i s)).
Proof using dig_lt. intros L n s c i _ Hi. exact (wm_rank_correct n s c i Hi). Qed.

Theorem wm_get_correct : forall L s i x, nthN s i = Some x ->
  get_walk (wm_levels 0 L s) i = digits_of 0 L x.
Proof using dig_lt.
  intros L s i x H. destruct (nthN_split s i x H) as (X & Z & E & <-).
  exact (proj1 (get_walk_tracks (levs s) (wmls s) (fun _ => eq_refl) (fun _ _ => eq_refl) x L 0%nat _
                  (lev_tracks s x L 0%nat X [x] Z E))).
Qed.

Lemma get_walk_pos_length levels : forall i,
  length (get_walk_pos levels i) = length (get_walk levels i).
Proof.
  induction levels as [|D levels IH]; intros i; cbn [get_walk get_walk_pos]; [reflexivity|].
  destruct (nthN D i); cbn [length]; [now rewrite IH|reflexivity].
Qed.

Theorem get_walk_positions : forall L s i, i < len s ->
  length (get_walk_pos (wm_levels 0 L s) i) = L /\
  Forall (fun j => j < len s) (get_walk_pos (wm_levels 0 L s) i).
Proof using dig_lt.
  intros L s i Hi. destruct (nthN_lt_some s i Hi) as (x & H).
  destruct (nthN_split s i x H) as (X & Z & E & <-).
  destruct (get_walk_tracks (levs s) (wmls s) (fun _ => eq_refl) (fun _ _ => eq_refl) x L 0%nat _
              (lev_tracks s x L 0%nat X [x] Z E)) as (G1 & G2).
  split.
  - rewrite get_walk_pos_length, G1. apply digits_of_length.
  - eapply Forall2_Forall_l; [|exact G2]. intros j l Hj. cbv beta in Hj. now rewrite lev_length in Hj.
Qed.

Theorem wm_select_correct : forall L s c k, (0 < L)%nat ->
  wm_select (wm_levels 0 L s) (digits_of 0 L c) k = select_pred (pre L c) s k 0.
Proof using dig_lt.
  intros L s c k HL. rewrite (select_pred_ext (pre L c) (prer 0 L c) s (pre_prer0 L c)).
  exact (select_walk_whole (levs s) (wmls s) (fun _ => eq_refl) (fun _ _ => eq_refl) c L 0%nat k HL
           (lev_tracks s c L 0%nat [] s [] (eq_sym (app_nil_r s)))).
Qed.

(* with no level at all the walk is the identity, the specification is k < len s *)
Theorem wm_select_correct_0 : forall s c k, k < len s ->
  wm_select (wm_levels 0 0 s) (digits_of 0 0 c) k = select_pred (pre 0 c) s k 0.
Proof. clear dig_lt.
  intros s c k Hk. cbn [pre]. rewrite select_pred_true.
  destruct (N.ltb_spec k (len s)); [reflexivity|lia].
Qed.

Theorem select_down_bounds : forall L s c, Forall (fun '(b, rb) => b <= len s /\ rb <= b)
  (select_down (wm_levels 0 L s) (digits_of 0 L c) 0).
Proof using dig_lt.
  intros L s c.
  eapply Forall2_Forall_l; [|exact (select_down_tracks (levs s) (wmls s) (fun _ => eq_refl) (fun _ _ => eq_refl)
                                      c L 0%nat _ _ (lev_tracks s c L 0%nat [] s [] (eq_sym (app_nil_r s))))].
  intros [b rb] l [H1 H2]. rewrite lev_length in H1. now split.
Qed.

End WM.

(* a concrete instance: the statements are not vacuous *)
Definition ex_dig (l : nat) (x : N) : N := (x / 4 ^ N.of_nat (1 - l)) mod 4.
Lemma ex_dig_lt : forall l x, ex_dig l x < N.of_nat 4.
Proof. intros l x. unfold ex_dig. change (N.of_nat 4) with 4. apply N.mod_lt. lia. Qed.
Definition ex_s : list N := [5; 3; 9; 0; 15; 5; 6; 12; 5; 10].
Definition ex_levels := wm_levels N 4 ex_dig 0 2 ex_s.
Example ex_levels_val :
  ex_levels = [[1; 0; 2; 0; 3; 1; 1; 3; 1; 2]; [3; 0; 1; 1; 2; 1; 1; 2; 3; 0]].
Proof. vm_compute. reflexivity. Qed.
Example ex_rank :
  rank_walk ex_levels (digits_of N ex_dig 0 2 5) 0 9 = (2, 5) /\
  len (filter (pre N ex_dig 2 5) (firstnN 9 ex_s)) = 3.
Proof. vm_compute. split; reflexivity. Qed.
Example ex_get :
  get_walk ex_levels 4 = [3; 3] /\ get_walk_pos ex_levels 4 = [4; 8] /\
  digits_of N ex_dig 0 2 15 = [3; 3].
Proof. vm_compute. repeat split; reflexivity. Qed.
Example ex_select :
  map (wm_select ex_levels (digits_of N ex_dig 0 2 5)) [0; 1; 2; 3; 4] =
    [Some 0; Some 5; Some 8; None; None] /\
  map (fun k => select_pred N (pre N ex_dig 2 5) ex_s k 0) [0; 1; 2; 3; 4] =
    [Some 0; Some 5; Some 8; None; None] /\
  select_down ex_levels (digits_of N ex_dig 0 2 5) 0 = [(0, 0); (2, 0)].
Proof. vm_compute. repeat split; reflexivity. Qed.
Example ex_rank_thm : forall c i, i <= len ex_s ->
  let r := rank_walk ex_levels (digits_of N ex_dig 0 2 c) 0 i in
  fst r <= snd r /\ snd r <= len ex_s /\
  snd r - fst r = len (filter (pre N ex_dig 2 c) (firstnN i ex_s)).
Proof. exact (wm_rank_correct N 4 ex_dig ex_dig_lt 2 ex_s). Qed.
Example ex_select_thm : forall c k,
  wm_select ex_levels (digits_of N ex_dig 0 2 c) k = select_pred N (pre N ex_dig 2 c) ex_s k 0.
Proof. intros c k. apply (wm_select_correct N 4 ex_dig ex_dig_lt 2 ex_s c k). lia. Qed.

Print Assumptions lev_length.
Print Assumptions wm_rank_correct.
Print Assumptions wm_rank_prefix.
Print Assumptions wm_get_correct.
Print Assumptions get_walk_positions.
Print Assumptions get_walk_pos_length.
Print Assumptions wm_select_correct.
Print Assumptions wm_select_correct_0.
Print Assumptions select_down_bounds.
Print Assumptions block_step.
Print Assumptions ex_levels_val.
Print Assumptions ex_rank.
Print Assumptions ex_get.
Print Assumptions ex_select.
Print Assumptions ex_rank_thm.
Print Assumptions ex_select_thm.
