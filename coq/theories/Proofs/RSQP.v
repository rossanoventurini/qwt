(* C05: the rank/select quad vector (Model/RSQ.v) answers every query exactly like the list
   specification (Spec/Seq.v), for every input of fewer than RSQ_MAXN symbols and both block
   sizes, and no Fault occurs. *)
From Coq Require Import ZArith Lia ZifyBool ZifyN ZifyNat.
From QwtModel Require Import ListX Seq Consts QVec RSQ ListXP SeqP ConstsOk QVecP.
From QwtModel Require Import RSQBits RSQWord RSQList RSQBuild RSQRank RSQSelect.

Lemma RSQ_MAXN_def : RSQ_MAXN = MAX_LEN - 4096. Proof. reflexivity. Qed.

Definition rsq_spec (bsize : N) (r : rsq) (s : list N) : Prop :=
  rsq_len r = len s /\
  rsq_is_empty r = (len s =? 0) /\
  (forall i, rsq_get r i = Val (nthN s i)) /\
  (forall c i, rsq_rank bsize r c i =
     Val (if (c <=? 3) && (i <=? len s) then Some (rank_spec s c i) else None)) /\
  (forall c k, k < 2 ^ 64 -> rsq_select bsize r c k = Val (if c <=? 3 then select_spec s c k else None)) /\
  (forall c, rsq_occs r c = Val (if c <=? 3 then Some (countN c s) else None)) /\
  (forall c, rsq_occs_smaller_q r c = Val (if c <=? 3 then Some (count_lt c s) else None)) /\
  (* unchecked variants under their preconditions (C10) *)
  (forall c i, c <= 3 -> i <= len s -> rsq_rank_unchecked bsize r c i = Val (rank_spec s c i)) /\
  (forall i x, nthN s i = Some x -> rsq_get_unchecked r i = Val x) /\
  (forall c k p, c <= 3 -> select_spec s c k = Some p -> rsq_select_unchecked bsize r c k = Val p) /\
  (forall c, c <= 3 -> rsq_occs_unchecked r c = Val (countN c s)) /\
  (forall c, c <= 3 -> rsq_occs_smaller_unchecked r c = Val (count_lt c s)) /\
  (* what the wavelet-tree prefetch estimation reads: the block directory alone *)
  (forall c i, c <= 3 -> i <= len s ->
     exists v, rss_rank_block bsize (rsq_rs r) c i = Val v /\ v <= rank_spec s c i).

Lemma rsq_spec_intro bsize q s rs : bsz bsize -> qvb_inv q s -> len s < RSQ_MAXN ->
  dir_ok bsize s rs -> rsq_spec bsize (mk_rsq q rs (occs_smaller_of s)) s.
Proof.
  intros Hb Hq Hn Hd. unfold rsq_spec.
  split; [|split; [|split; [|split; [|split; [|split; [|split; [|split; [|split; [|split; [|split; [|split]]]]]]]]]]].
  - unfold rsq_len. cbn [rsq_qv]. now apply qv_len_inv.
  - unfold rsq_is_empty. cbn [rsq_qv]. now rewrite (qv_len_inv q s Hq).
  - intros i. unfold rsq_get. cbn [rsq_qv]. now apply qv_get_inv.
  - intros c i. now apply rsq_rank_ok.
  - intros c k Hk. now apply rsq_select_ok.
  - intros c. apply rsq_occs_ok.
  - intros c. apply rsq_occs_smaller_ok.
  - intros c i Hc Hi. rewrite rank_spec_rk. now apply rsq_rank_unchecked_ok.
  - intros i x Hx. unfold rsq_get_unchecked. cbn [rsq_qv]. now apply (qv_get_unchecked_inv q s).
  - intros c k p Hc Hsel. unfold rsq_select_unchecked.
    replace (c <=? 3) with true by lia. cbn [odebug_assert bind].
    rewrite rsq_occs_ok. replace (c <=? 3) with true by lia. cbn [bind].
    pose proof (proj1 (select_spec_some_lt s c k p Hsel)) as Hk.
    replace (k <? countN c s) with true by lia. cbn [odebug_assert bind].
    pose proof (countN_le_len c s) as Hcl. pose proof (maxn_lt_64 _ Hn) as H64.
    rewrite (rsq_select_ok bsize q s rs c k Hb Hn Hq Hd) by lia.
    replace (c <=? 3) with true by lia. cbn [bind]. rewrite Hsel. reflexivity.
  - intros c Hc. now apply rsq_occs_unchecked_ok.
  - intros c Hc. now apply rsq_occs_smaller_unchecked_ok.
  - intros c i Hc Hi. cbn [rsq_rs]. eexists. split; [now apply (rss_rank_block_ok bsize s)|].
    rewrite rank_spec_rk. apply rk_mono, div_mul_le.
Qed.

Theorem rsq_from_qv_correct : forall bsize q s,
  (bsize = 256 \/ bsize = 512) -> qvb_inv q s -> Forall (fun x => x < 4) s -> len s < RSQ_MAXN ->
  exists r, rsq_from_qv bsize q = Val r /\ rsq_spec bsize r s.
Proof.
  intros bsize q s Hb Hq HF Hn. unfold rsq_from_qv.
  rewrite (qv_symbols_inv q s Hq). cbn [bind].
  destruct (rss_new_ok bsize s Hb Hn HF) as (rs & E & Hd). rewrite E. cbn [bind].
  eexists. split; [reflexivity|]. now apply rsq_spec_intro.
Qed.

Theorem rsq_new_correct : forall bsize vs, (bsize = 256 \/ bsize = 512) -> len vs < RSQ_MAXN ->
  exists r, rsq_new bsize vs = Val r /\ rsq_spec bsize r (map sym4 vs).
Proof.
  intros bsize vs Hb Hn. unfold rsq_new.
  destruct (qvb_push_all_inv (map (fun v => v mod 256) vs) qvb_new [] qvb_inv_new) as (q & E & Hq).
  rewrite E. cbn [bind app] in *.
  assert (Es : map sym4 (map (fun v => v mod 256) vs) = map sym4 vs).
  { rewrite map_map. apply map_ext. intros v. unfold sym4. lia. }
  rewrite Es in Hq. apply rsq_from_qv_correct; try assumption.
  - apply Forall_sym4.
  - now rewrite len_map.
Qed.

Theorem rsq_default_correct : forall bsize, (bsize = 256 \/ bsize = 512) ->
  exists r, rsq_default bsize = Val r /\ rsq_spec bsize r [].
Proof.
  intros bsize Hb. unfold rsq_default. apply rsq_from_qv_correct.
  - exact Hb.
  - exact qvb_inv_new.
  - constructor.
  - reflexivity.
Qed.

(* non-vacuity: the model evaluated on a concrete input, for both block sizes *)
Definition rsq_example_input : list N := map (fun i => (i * i / 7 + i / 3) mod 256) (seqN 0 600).

Definition rsq_example_checks (bsize : N) : Prop :=
  match rsq_new bsize rsq_example_input with
  | Val r =>
      rsq_len r = 600 /\ rsq_get r 599 = Val (Some 0) /\
      rsq_rank bsize r 2 300 = Val (Some 87) /\ rsq_rank bsize r 0 600 = Val (Some 173) /\
      rsq_rank bsize r 1 601 = Val None /\
      rsq_select bsize r 1 100 = Val (Some 460) /\ rsq_select bsize r 3 0 = Val (Some 4) /\
      rsq_select bsize r 2 149 = Val (Some 528) /\ rsq_select bsize r 2 1000 = Val None /\
      rsq_occs r 3 = Val (Some 129) /\ rsq_occs_smaller_q r 2 = Val (Some 301) /\
      rsq_select_unchecked bsize r 2 149 = Val 528 /\ rsq_rank_unchecked bsize r 2 300 = Val 87
  | Fault _ => False
  end.

Example rsq_example_256 : rsq_example_checks 256.
Proof. vm_compute. repeat split; reflexivity. Qed.
Example rsq_example_512 : rsq_example_checks 512.
Proof. vm_compute. repeat split; reflexivity. Qed.
(* the same values from the specification side *)
Example rsq_example_spec :
  let s := map sym4 rsq_example_input in
  len s = 600 /\ nthN s 599 = Some 0 /\ rank_spec s 2 300 = 87 /\ rank_spec s 0 600 = 173 /\
  select_spec s 1 100 = Some 460 /\ select_spec s 3 0 = Some 4 /\ select_spec s 2 149 = Some 528 /\
  select_spec s 2 1000 = None /\ countN 3 s = 129 /\ count_lt 2 s = 301.
Proof. vm_compute. repeat split; reflexivity. Qed.

Print Assumptions rsq_from_qv_correct.
Print Assumptions rsq_new_correct.
Print Assumptions rsq_default_correct.
Print Assumptions rsq_example_256.
Print Assumptions rsq_example_512.
