(* RSQVector::new regenerated (Gen/FnsRsq.v) = QVector::from_iter then From<QVector>, both regenerated and proved: the public
   constructor followed by the regenerated queries is the list specification. *)
From Coq Require Import ZArith Lia.
From QwtModel Require Import Seq QWT QVecP RSQBuild RSQP.
From QwtModel Require Import FnsQvb FnsRsq FnsQvbOk FnsRssOk FnsRsqOk FnsRsqFromOk.
Open Scope N_scope.
(* RSQVector::new(v) = Self::from(v.iter().copied().collect::<QVector>()): the collected quad vector is the one
   the builder pushes (each value truncated to u8, two bits kept) *)
Lemma g_qv_from_iter_new bsize wT vs r : len vs < RSQ_MAXN -> rsq_new bsize vs = Val r ->
  g_qv_from_iter wT vs = Val (rsq_wdata r, rsq_pos r).
Proof.
  intros Hn Hr. destruct (rsq_new_inv bsize vs r Hr) as (Eq & _).
  rewrite g_qv_from_iter_ok by (assert (RSQ_MAXN < 2 ^ 63) by reflexivity; lia).
  unfold qv_from_iter, qvb_build. rewrite qvb_extend_of_N, Eq. reflexivity.
Qed.

(* the regenerated PUBLIC constructor followed by the regenerated queries is the list specification on the stored
   symbols map sym4 vs (sym4 v = v mod 4): no hand-model function in the statement *)
Theorem g_rsq256_new_correct : forall wT vs, len vs < RSQ_MAXN ->
  exists d p sbs samples occs,
    g_rsq256_new wT vs = Val (d, p, sbs, samples, occs) /\
    g_rsq256_len p = Val (len vs) /\ g_rsq256_is_empty p = Val (len vs =? 0) /\
    (forall i, g_rsq256_get d p i = Val (nthN (map sym4 vs) i)) /\
    (forall i x, nthN (map sym4 vs) i = Some x -> g_rsq256_get_unchecked d p i = Val x) /\
    (forall c i, g_rsq256_rank d p sbs c i
       = Val (if (c <=? 3) && (i <=? len vs) then Some (rank_spec (map sym4 vs) c i) else None)) /\
    (forall c k fuel, k < 2 ^ 64 -> (S (S (N.to_nat (len vs / (8 * 256)))) <= fuel)%nat ->
       g_rsq256_select fuel d sbs samples occs c k
       = Val (if c <=? 3 then select_spec (map sym4 vs) c k else None)) /\
    (forall c i, c <= 3 -> i <= len vs ->
       g_rsq256_rank_unchecked d sbs c i = Val (rank_spec (map sym4 vs) c i)) /\
    (forall c k pos fuel, c <= 3 -> select_spec (map sym4 vs) c k = Some pos ->
       (S (S (N.to_nat (len vs / (8 * 256)))) <= fuel)%nat ->
       g_rsq256_select_unchecked fuel d sbs samples occs c k = Val pos) /\
    (forall c i, c <= 3 -> i <= len vs ->
       exists v, g_rsq256_rank_block_unchecked sbs c i = Val v /\ v <= rank_spec (map sym4 vs) c i) /\
    (forall c, g_rsq256_occs occs c = Val (if c <=? 3 then Some (countN c (map sym4 vs)) else None)) /\
    (forall c, g_rsq256_occs_smaller occs c = Val (if c <=? 3 then Some (count_lt c (map sym4 vs)) else None)) /\
    (forall c, c <= 3 -> g_rsq256_occs_unchecked occs c = Val (countN c (map sym4 vs))) /\
    (forall c, c <= 3 -> g_rsq256_occs_smaller_unchecked occs c = Val (count_lt c (map sym4 vs))).
Proof.
  intros wT vs Hn. pose proof bsz256 as Hb. destruct (rsq_new_correct 256 vs Hb Hn) as (r & Hr & _).
  exists (rsq_wdata r), (rsq_pos r), (rs_superblocks (rsq_rs r)), (rs_samples (rsq_rs r)), (rsq_occs_smaller r).
  split.
  { unfold g_rsq256_new. rewrite (g_qv_from_iter_new 256 wT vs r Hn Hr). exact (g_rsq256_from_e2e vs r Hr). }
  split; [exact (proj1 (g_rsq_len_new 256 vs r Hb Hn Hr))|].
  split; [exact (proj1 (g_rsq_is_empty_new 256 vs r Hb Hn Hr))|].
  split; [intros i; exact (proj1 (g_rsq_get_new 256 vs r Hb Hn Hr i))|].
  split; [intros i x Hx; exact (proj1 (g_rsq_get_unchecked_new 256 vs r Hb Hn Hr i x Hx))|].
  split; [exact (g_rsq256_rank_new vs r Hn Hr)|].
  split; [exact (g_rsq256_select_new vs r Hn Hr)|].
  split; [exact (G_rank_unchecked_new 256 Hb vs r Hn Hr)|].
  split; [exact (g_rsq256_select_unchecked_new vs r Hn Hr)|].
  split; [exact (G_rank_block_new 256 Hb vs r Hn Hr)|].
  split; [intros c; exact (proj1 (g_rsq_occs_new 256 vs r Hb Hn Hr c))|].
  split; [intros c; exact (proj1 (g_rsq_occs_smaller_new 256 vs r Hb Hn Hr c))|].
  split; [intros c Hc; exact (proj1 (g_rsq_occs_unchecked_new 256 vs r Hb Hn Hr c Hc))|].
  intros c Hc; exact (proj1 (g_rsq_occs_smaller_unchecked_new 256 vs r Hb Hn Hr c Hc)).
Qed.

Theorem g_rsq512_new_correct : forall wT vs, len vs < RSQ_MAXN ->
  exists d p sbs samples occs,
    g_rsq512_new wT vs = Val (d, p, sbs, samples, occs) /\
    g_rsq512_len p = Val (len vs) /\ g_rsq512_is_empty p = Val (len vs =? 0) /\
    (forall i, g_rsq512_get d p i = Val (nthN (map sym4 vs) i)) /\
    (forall i x, nthN (map sym4 vs) i = Some x -> g_rsq512_get_unchecked d p i = Val x) /\
    (forall c i, g_rsq512_rank d p sbs c i
       = Val (if (c <=? 3) && (i <=? len vs) then Some (rank_spec (map sym4 vs) c i) else None)) /\
    (forall c k fuel, k < 2 ^ 64 -> (S (S (N.to_nat (len vs / (8 * 512)))) <= fuel)%nat ->
       g_rsq512_select fuel d sbs samples occs c k
       = Val (if c <=? 3 then select_spec (map sym4 vs) c k else None)) /\
    (forall c i, c <= 3 -> i <= len vs ->
       g_rsq512_rank_unchecked d sbs c i = Val (rank_spec (map sym4 vs) c i)) /\
    (forall c k pos fuel, c <= 3 -> select_spec (map sym4 vs) c k = Some pos ->
       (S (S (N.to_nat (len vs / (8 * 512)))) <= fuel)%nat ->
       g_rsq512_select_unchecked fuel d sbs samples occs c k = Val pos) /\
    (forall c i, c <= 3 -> i <= len vs ->
       exists v, g_rsq512_rank_block_unchecked sbs c i = Val v /\ v <= rank_spec (map sym4 vs) c i) /\
    (forall c, g_rsq512_occs occs c = Val (if c <=? 3 then Some (countN c (map sym4 vs)) else None)) /\
    (forall c, g_rsq512_occs_smaller occs c = Val (if c <=? 3 then Some (count_lt c (map sym4 vs)) else None)) /\
    (forall c, c <= 3 -> g_rsq512_occs_unchecked occs c = Val (countN c (map sym4 vs))) /\
    (forall c, c <= 3 -> g_rsq512_occs_smaller_unchecked occs c = Val (count_lt c (map sym4 vs))).
Proof.
  intros wT vs Hn. pose proof bsz512 as Hb. destruct (rsq_new_correct 512 vs Hb Hn) as (r & Hr & _).
  exists (rsq_wdata r), (rsq_pos r), (rs_superblocks (rsq_rs r)), (rs_samples (rsq_rs r)), (rsq_occs_smaller r).
  split.
  { unfold g_rsq512_new. rewrite (g_qv_from_iter_new 512 wT vs r Hn Hr). exact (g_rsq512_from_e2e vs r Hr). }
  split; [exact (proj2 (g_rsq_len_new 512 vs r Hb Hn Hr))|].
  split; [exact (proj2 (g_rsq_is_empty_new 512 vs r Hb Hn Hr))|].
  split; [intros i; exact (proj2 (g_rsq_get_new 512 vs r Hb Hn Hr i))|].
  split; [intros i x Hx; exact (proj2 (g_rsq_get_unchecked_new 512 vs r Hb Hn Hr i x Hx))|].
  split; [exact (g_rsq512_rank_new vs r Hn Hr)|].
  split; [exact (g_rsq512_select_new vs r Hn Hr)|].
  split; [exact (G_rank_unchecked_new 512 Hb vs r Hn Hr)|].
  split; [exact (g_rsq512_select_unchecked_new vs r Hn Hr)|].
  split; [exact (G_rank_block_new 512 Hb vs r Hn Hr)|].
  split; [intros c; exact (proj2 (g_rsq_occs_new 512 vs r Hb Hn Hr c))|].
  split; [intros c; exact (proj2 (g_rsq_occs_smaller_new 512 vs r Hb Hn Hr c))|].
  split; [intros c Hc; exact (proj2 (g_rsq_occs_unchecked_new 512 vs r Hb Hn Hr c Hc))|].
  intros c Hc; exact (proj2 (g_rsq_occs_smaller_unchecked_new 512 vs r Hb Hn Hr c Hc)).
Qed.

Print Assumptions g_rsq256_new_correct.
Print Assumptions g_rsq512_new_correct.
