(* C03 helper: the binary wavelet tree, part 2: every walk of the model (wt_rank_walk, wt_get_walk,
   wt_select_down / wt_select_up of Model/Huff.v) computes, inside the outcome monad, the generic
   wavelet-matrix walk of Theory/WaveletMatrix.v over the 0/1 digit lists [Ds l] stored at the
   levels; no Fault occurs under the bounds the theory provides.  Both flavours (plain and
   compressed) share these lemmas: the flavour only decides how the bit of the queried symbol at a
   level is obtained ([BIT]). *)
From Coq Require Import ZArith Lia ZifyBool ZifyN ZifyNat.
From QwtModel Require Import ListX QWT RSBin Huff ListXP.
From QwtModel Require Import WaveletMatrix HQWTWalks BinWTBase.

Lemma sb_digit d : d < 2 -> (if d =? 1 then 1 else 0) = d.
Proof. intros H. destruct (N.eqb_spec d 1); lia. Qed.

Lemma Forall_Forall2_seq {A} (P : A -> Prop) (Q : A -> nat -> Prop) l : forall l0,
  Forall P l -> (forall x j, P x -> Q x j) -> Forall2 Q l (seq l0 (length l)).
Proof.
  induction l as [|x l IH]; intros l0 HF HPQ; cbn [length seq]; [constructor|].
  inversion HF; subst. constructor; [now apply HPQ|now apply IH].
Qed.

Section Walks.
Variables (w : N) (bvs : list rswide) (Ds : nat -> list N) (M : nat).
Hypothesis LOK : forall l, (l < M)%nat -> exists r, nthN bvs (N.of_nat l) = Some r /\ lvl_spec r (Ds l).

Notation LVs l n := (map Ds (seq l n)).

Section GetC.
Variable lens : list N.
Hypothesis LENS : forall l, (l < M)%nat -> nthN lens (N.of_nat l) = Some (len (Ds l)).

Lemma wt_get_walk_true t : w_bvs t = bvs -> w_lens t = lens ->
  forall n l cur res rt sh, (l + n <= M)%nat ->
  wt_get_walk true t cur res rt sh (N.of_nat l) w n =
  Val (fold_left (acc_step 1) (get_walk (LVs l n) cur) res, rt, sh + len (get_walk (LVs l n) cur)).
Proof.
  intros Eq El. induction n as [|n IH]; intros l cur res rt sh HM.
  - cbn [wt_get_walk seq map get_walk fold_left]. lens. do 2 f_equal. lia.
  - cbn [wt_get_walk seq map get_walk]. rewrite El, Eq. unfold idx at 1.
    rewrite (LENS l) by lia. cbn [bind].
    destruct (LOK l ltac:(lia)) as (r & Er & Hr).
    destruct (N.leb_spec (len (Ds l)) cur) as [Hle|Hlt].
    + rewrite nthN_none by exact Hle. cbn [fold_left]. lens. do 2 f_equal. lia.
    + destruct (nthN_lt_some (Ds l) cur Hlt) as (d & Ed).
      rewrite Ed. unfold idx at 1. rewrite Er. cbn [bind].
      rewrite (lv_get r _ Hr _ _ Ed). cbn [bind].
      pose proof (bin_nth _ _ _ (lv_bin r _ Hr) Ed) as Hd.
      rewrite (lv_rank1_u r _ Hr cur) by lia. cbn [bind].
      rewrite (lv_map r _ Hr d cur Hd) by lia. cbn [bind].
      replace (N.of_nat l + 1) with (N.of_nat (S l)) by lia.
      rewrite IH by lia. cbn [fold_left]. rewrite len_cons, (sb_digit d Hd). fold (acc_step 1 res d).
      do 2 f_equal. lia.
Qed.
End GetC.

Lemma wt_get_walk_false t : w_bvs t = bvs ->
  forall n l cur res rt sh, (l + n <= M)%nat -> length (get_walk (LVs l n) cur) = n ->
  wt_get_walk false t cur res rt sh (N.of_nat l) w n =
  Val (res, fold_left (accw w) (get_walk (LVs l n) cur) rt, sh + N.of_nat n).
Proof.
  intros Eq. induction n as [|n IH]; intros l cur res rt sh HM HL.
  - cbn [wt_get_walk seq map get_walk fold_left]. do 2 f_equal. lia.
  - cbn [seq map get_walk] in HL |- *. cbn [wt_get_walk bind]. rewrite Eq.
    destruct (LOK l ltac:(lia)) as (r & Er & Hr).
    destruct (nthN (Ds l) cur) as [d|] eqn:Ed; [|discriminate HL].
    cbn [length] in HL. injection HL as HL.
    pose proof (nthN_some_lt _ _ _ Ed) as Hlt.
    unfold idx at 1. rewrite Er. cbn [bind].
    rewrite (lv_get r _ Hr _ _ Ed). cbn [bind].
    pose proof (bin_nth _ _ _ (lv_bin r _ Hr) Ed) as Hd.
    rewrite (lv_rank1_u r _ Hr cur) by lia. cbn [bind].
    rewrite (lv_map r _ Hr d cur Hd) by lia. cbn [bind].
    replace (N.of_nat l + 1) with (N.of_nat (S l)) by lia.
    rewrite IH by (try lia; exact HL). cbn [fold_left]. rewrite (sb_digit d Hd). fold (accw w rt d).
    do 2 f_equal. lia.
Qed.

Section Sym.
Variables (compressed : bool) (symbol repr symbol_len : N) (dg : nat -> N) (K : nat).
Hypothesis HK : (K <= M)%nat.
Hypothesis BIT : forall l, (l < K)%nat ->
  wt_bit_at w compressed symbol repr symbol_len (N.of_nat l) = Val (dg l =? 1) /\ dg l < 2.

Notation DGs l n := (map dg (seq l n)).

Lemma wt_rank_walk_ok : forall n l p i, (l + n <= K)%nat ->
  (forall m, (m < n)%nat -> fst (rank_walk (LVs l m) (DGs l m) p i) <= len (Ds (l + m)%nat) /\
                            snd (rank_walk (LVs l m) (DGs l m) p i) <= len (Ds (l + m)%nat)) ->
  wt_rank_walk w compressed bvs symbol repr symbol_len p i (N.of_nat l) n =
  Val (rank_walk (LVs l n) (DGs l n) p i).
Proof.
  induction n as [|n IH]; intros l p i HM HB; [reflexivity|].
  cbn [wt_rank_walk]. destruct (BIT l ltac:(lia)) as [Hb Hd]. rewrite Hb. cbn [bind].
  destruct (LOK l ltac:(lia)) as (r & Er & Hr). unfold idx at 1. rewrite Er. cbn [bind].
  pose proof (HB 0%nat ltac:(lia)) as B0. cbn [seq map rank_walk fst snd] in B0.
  rewrite Nat.add_0_r in B0.
  rewrite !(lv_rank1_u r _ Hr) by lia. cbn [bind].
  rewrite !(lv_map r _ Hr (dg l) _ Hd) by lia. cbn [bind].
  replace (N.of_nat l + 1) with (N.of_nat (S l)) by lia.
  cbn [seq map rank_walk].
  apply IH; [lia|]. intros m Hm. specialize (HB (S m) ltac:(lia)).
  cbn [seq map rank_walk] in HB. rewrite Nat.add_succ_r in HB. exact HB.
Qed.

Lemma wt_select_down_ok : forall n l b, (l + n <= K)%nat ->
  Forall2 (fun '(b, rb) l => b <= len (Ds l) /\ rb <= b)
          (select_down (LVs l n) (DGs l n) b) (seq l n) ->
  wt_select_down w compressed bvs symbol repr symbol_len b (N.of_nat l) n =
  Val (Some (select_down (LVs l n) (DGs l n) b)).
Proof.
  induction n as [|n IH]; intros l b HM HB; [reflexivity|].
  cbn [seq map select_down] in HB |- *.
  inversion HB as [|? ? ? ? HB0 HB']; subst. cbv beta iota in HB0. destruct HB0 as [B1 B2].
  cbn [wt_select_down]. destruct (BIT l ltac:(lia)) as [Hb Hd]. rewrite Hb. cbn [bind].
  destruct (LOK l ltac:(lia)) as (r & Er & Hr). unfold idx at 1. rewrite Er. cbn [bind].
  rewrite (lv_rank r _ Hr (dg l) b Hd).
  destruct (N.leb_spec b (len (Ds l))); [|lia]. cbn [bind].
  rewrite (lv_offset r _ Hr (dg l) Hd).
  replace (N.of_nat l + 1) with (N.of_nat (S l)) by lia.
  rewrite (IH (S l)) by (try lia; exact HB'). cbn [bind]. reflexivity.
Qed.

Lemma wt_select_up_app : forall P1 P2 res,
  wt_select_up w compressed bvs symbol repr symbol_len res (P1 ++ P2) =
  bind (wt_select_up w compressed bvs symbol repr symbol_len res P1)
       (fun r => match r with
                 | None => Val None
                 | Some r' => wt_select_up w compressed bvs symbol repr symbol_len r' P2
                 end).
Proof.
  induction P1 as [|[[lv b] rb] P1 IH]; intros P2 res.
  - cbn [app wt_select_up bind]. reflexivity.
  - cbn [app wt_select_up].
    destruct (wt_bit_at w compressed symbol repr symbol_len lv) as [bit|f]; cbn [bind]; [|reflexivity].
    destruct (idx bvs lv) as [bv|f]; cbn [bind]; [|reflexivity].
    destruct (2 ^ 64 <=? rb + res); [reflexivity|].
    destruct (if bit then rsw_select1 bv (rb + res) else rsw_select0 bv (rb + res)) as [[p|]|f];
      cbn [bind]; try reflexivity.
    destruct (osub p b) as [r'|f]; cbn [bind]; [|reflexivity].
    apply IH.
Qed.

Lemma wt_select_up_ok : forall n l b k, (l + n <= K)%nat ->
  Forall2 (fun '(b, rb) l => b <= len (Ds l) /\ rb <= b)
          (select_down (LVs l n) (DGs l n) b) (seq l n) ->
  wt_select_up w compressed bvs symbol repr symbol_len k
    (rev (numb (N.of_nat l) (select_down (LVs l n) (DGs l n) b))) =
  Val (select_up (rev (combine (combine (LVs l n) (DGs l n)) (select_down (LVs l n) (DGs l n) b))) k).
Proof.
  induction n as [|n IH]; intros l b k Hl HB; [reflexivity|].
  cbn [seq map select_down combine] in HB |- *.
  inversion HB as [|? ? ? ? HB0 HB']; subst. cbv beta iota in HB0. destruct HB0 as [B1 B2].
  rewrite numb_cons. cbn [rev]. rewrite wt_select_up_app, select_up_app.
  replace (N.of_nat l + 1) with (N.of_nat (S l)) by lia.
  rewrite (IH (S l)) by (try lia; exact HB'). cbn [bind].
  destruct (select_up _ k) as [j|]; [|reflexivity].
  cbn [wt_select_up].
  destruct (BIT l ltac:(lia)) as [Hb Hd]. rewrite Hb. cbn [bind].
  destruct (LOK l ltac:(lia)) as (r & Er & Hr). unfold idx at 1. rewrite Er. cbn [bind].
  change (select_up [_] j) with (up_step (Ds l) (dg l) b (lrank (Ds l) (dg l) b) j).
  destruct (N.leb_spec (2 ^ 64) (lrank (Ds l) (dg l) b + j)) as [Hbig|Hsmall].
  - rewrite up_step_big; [reflexivity|exact (lv_small r _ Hr)|exact Hbig].
  - rewrite (lv_select r _ Hr (dg l) _ Hd Hsmall). cbn [bind]. apply up_step_osub.
Qed.

Lemma wt_select_walks_ok k :
  Forall2 (fun '(b, rb) l => b <= len (Ds l) /\ rb <= b)
          (select_down (LVs 0 K) (DGs 0 K) 0) (seq 0 K) ->
  (let! down := wt_select_down w compressed bvs symbol repr symbol_len 0 0 K in
   match down with
   | None => Val None
   | Some path =>
       let numbered := map (fun '(lv, (b, rb)) => (lv, b, rb)) (number_levels path 0) in
       wt_select_up w compressed bvs symbol repr symbol_len k (rev numbered)
   end) = Val (wm_select (LVs 0 K) (DGs 0 K) k).
Proof.
  intros HB. pose proof (wt_select_down_ok K 0%nat 0 ltac:(lia) HB) as D.
  change (N.of_nat 0) with 0 in D. rewrite D. cbn [bind].
  pose proof (wt_select_up_ok K 0%nat 0 k ltac:(lia) HB) as U.
  change (N.of_nat 0) with 0 in U. unfold numb in U. rewrite U. reflexivity.
Qed.

End Sym.
End Walks.
