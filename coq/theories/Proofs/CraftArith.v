(* Arithmetic for craft_wm_codes (Model/Huff.v): rev_frags reverses the base-2^frag digits of a scratch entry
   ([revd]); the unassigned part of the scratch array is a strictly decreasing bounded list ([dec_lt]). *)
From Coq Require Import ZArith Lia ZifyBool ZifyN ZifyNat Sorted.
From QwtModel Require Import ListX ListXP NBits Huff.
Arguments N.land : simpl never.
Arguments N.lor : simpl never.
Arguments N.shiftr : simpl never.
Arguments N.shiftl : simpl never.
Arguments N.div : simpl never.
Arguments N.modulo : simpl never.
Arguments N.pow : simpl never.

Lemma mod_add_mul x k P M : M <> 0 -> (x + k * (M * P)) mod M = x mod M.
Proof.
  intros HM. replace (x + k * (M * P)) with (x + (k * P) * M) by lia. apply N.mod_add. exact HM.
Qed.

Lemma frag_next frag l b : frag = 1 \/ frag = 2 -> l mod frag = 0 -> b mod frag = 0 -> l < b ->
  (l + frag) mod frag = 0 /\ l + frag <= b.
Proof. intros [-> | ->] Hl Hb Hlt; lia. Qed.

Lemma frag_32 frag : frag = 1 \/ frag = 2 -> 32 mod frag = 0.
Proof. intros [-> | ->]; reflexivity. Qed.

(* the k base-a digits of x, least significant first, written most significant first *)
Fixpoint revd (a x : N) (k : nat) : N :=
  match k with O => 0 | S k' => (x mod a) * a ^ N.of_nat k' + revd a (x / a) k' end.

Lemma revd_lt a : 0 < a -> forall k x, revd a x k < a ^ N.of_nat k.
Proof.
  intros Ha. induction k as [|k IH]; intros x; cbn [revd].
  - change (N.of_nat 0) with 0. rewrite N.pow_0_r. lia.
  - rewrite Nnat.Nat2N.inj_succ, N.pow_succ_r'. specialize (IH (x / a)).
    assert (Hm : x mod a < a) by (apply N.mod_lt; lia).
    assert (H : (x mod a + 1) * a ^ N.of_nat k <= a * a ^ N.of_nat k) by (apply N.mul_le_mono_r; lia).
    lia.
Qed.

Lemma revd_digit a : 1 < a -> forall k x s, (s < k)%nat ->
  (revd a x k / a ^ N.of_nat (k - 1 - s)) mod a = (x / a ^ N.of_nat s) mod a.
Proof.
  intros Ha. induction k as [|k IH]; intros x s Hs; [lia|]. cbn [revd].
  assert (Hp : forall n, a ^ n <> 0) by (intros n; apply N.pow_nonzero; lia).
  destruct s as [|s].
  - replace (S k - 1 - 0)%nat with k by lia. change (N.of_nat 0) with 0. rewrite N.pow_0_r, N.div_1_r.
    rewrite N.div_add_l by apply Hp. rewrite (N.div_small (revd a (x / a) k)) by (apply revd_lt; lia).
    rewrite N.add_0_r. apply N.mod_mod. lia.
  - replace (S k - 1 - S s)%nat with (k - 1 - s)%nat by lia.
    assert (E : a ^ N.of_nat k = a ^ N.of_nat s * a * a ^ N.of_nat (k - 1 - s)).
    { replace (N.of_nat k) with (N.of_nat s + 1 + N.of_nat (k - 1 - s)) by lia.
      rewrite !N.pow_add_r, N.pow_1_r. reflexivity. }
    rewrite E. rewrite N.mul_assoc, N.div_add_l by apply Hp.
    replace (x mod a * (a ^ N.of_nat s * a) + revd a (x / a) k / a ^ N.of_nat (k - 1 - s))
      with (revd a (x / a) k / a ^ N.of_nat (k - 1 - s) + (x mod a * a ^ N.of_nat s) * a) by lia.
    rewrite N.mod_add by lia. rewrite IH by lia.
    rewrite N.div_div by (try apply Hp; lia).
    rewrite Nnat.Nat2N.inj_succ, N.pow_succ_r'. reflexivity.
Qed.

Lemma rev_frags_revd frag x l : 0 < frag -> forall k t fuel,
  l = t + frag * N.of_nat k -> (k < fuel)%nat ->
  rev_frags frag x l t fuel = revd (2 ^ frag) (x / 2 ^ t) k.
Proof.
  intros Hf. induction k as [|k IH]; intros t fuel Hl Hk; (destruct fuel as [|fuel]; [lia|]); cbn [rev_frags revd].
  - destruct (N.ltb_spec t l); [exfalso; lia|reflexivity].
  - rewrite Nnat.Nat2N.inj_succ, N.mul_succ_r in Hl.
    (* [exfalso]: otherwise lia takes the goal, an equation between large terms of N, apart *)
    destruct (N.ltb_spec t l); [|exfalso; lia].
    rewrite (IH (t + frag) fuel) by lia.
    replace (l - t - frag) with (frag * N.of_nat k) by lia.
    rewrite N.pow_add_r, <- N.div_div by apply pow2_nz.
    rewrite lor_shiftl_add.
    + rewrite land_pred_pow2, N.shiftr_div_pow2, N.pow_mul_r. reflexivity.
    + rewrite N.pow_mul_r. apply revd_lt. apply pow2_pos.
Qed.

Lemma rev_frags_spec frag x l : 0 < frag -> l mod frag = 0 -> l <= 32 ->
  rev_frags frag x l 0 40 = revd (2 ^ frag) x (N.to_nat (l / frag)).
Proof.
  intros Hf Hm Hl.
  assert (Hd : l / frag <= 32).
  { apply N.div_le_upper_bound; [lia|]. assert (1 * 32 <= frag * 32) by (apply N.mul_le_mono_r; lia). lia. }
  rewrite (rev_frags_revd frag x l Hf (N.to_nat (l / frag)) 0 40).
  - change (2 ^ 0) with 1. now rewrite N.div_1_r.
  - rewrite Nnat.N2Nat.id. pose proof (N.div_mod l frag ltac:(lia)). lia.
  - lia.
Qed.

Lemma mod_pow_succ a x n : 0 < a ->
  x mod a ^ N.of_nat (S n) = x mod a ^ N.of_nat n + (x / a ^ N.of_nat n) mod a * a ^ N.of_nat n.
Proof.
  intros Ha. rewrite Nnat.Nat2N.inj_succ, N.pow_succ_r', (N.mul_comm a).
  rewrite N.mod_mul_r; [lia| apply N.pow_nonzero; lia | lia].
Qed.

Definition dec_lt (B : N) (L : list N) : Prop :=
  StronglySorted (fun x y => y < x) L /\ Forall (fun x => x < B) L.

Lemma dec_lt_nil B : dec_lt B [].
Proof. split; constructor. Qed.

Lemma dec_lt_block P k act R : dec_lt P act -> dec_lt (k * P) R ->
  dec_lt ((k + 1) * P) (map (fun x => x + k * P) act ++ R).
Proof.
  intros [Hs Hb] [HsR HbR]. rewrite Forall_forall in Hb, HbR. split.
  - induction act as [|x act IH]; cbn [map app]; [exact HsR|].
    inversion Hs as [|? ? Hs' Hx]; subst. constructor.
    + apply IH; [exact Hs'|]. intros y Hy. apply Hb. now right.
    + rewrite Forall_forall in Hx. apply Forall_forall. intros y Hy. apply in_app_or in Hy as [Hy|Hy].
      * apply in_map_iff in Hy as (z & <- & Hz). specialize (Hx z Hz). lia.
      * specialize (HbR y Hy). lia.
  - apply Forall_forall. intros y Hy. apply in_app_or in Hy as [Hy|Hy].
    + apply in_map_iff in Hy as (z & <- & Hz). specialize (Hb z Hz). lia.
    + specialize (HbR y Hy). lia.
Qed.

Lemma Forall_mod_block (M P k e : N) act R : M <> 0 ->
  Forall (fun v => v mod M < e) act -> Forall (fun v => v mod M < e) R ->
  Forall (fun v => v mod M < e) (map (fun x => x + k * (M * P)) act ++ R).
Proof.
  intros HM Ha HR. apply Forall_app. split; [|exact HR].
  apply Forall_forall. intros y Hy. apply in_map_iff in Hy as (z & <- & Hz).
  rewrite mod_add_mul by exact HM. rewrite Forall_forall in Ha. exact (Ha z Hz).
Qed.

Lemma SS_pair {B} (R : B -> B -> Prop) l x y : StronglySorted R l -> In x l -> In y l ->
  x = y \/ R x y \/ R y x.
Proof.
  induction 1 as [|z l Hs IH Hz]; intros Hx Hy; [contradiction|]. rewrite Forall_forall in Hz.
  destruct Hx as [->|Hx], Hy as [->|Hy]; auto.
Qed.
