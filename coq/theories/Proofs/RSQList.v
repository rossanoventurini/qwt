(* List-level lemmas for the rank/select proofs: prefix counts [rk], the bridge to
   rank_spec / select_spec, counting through uniform lines, select inside a line. *)
From Coq Require Import ZArith Lia ZifyBool ZifyN ZifyNat.
From QwtModel Require Import ListX Seq Consts QVec RSQ ListXP SeqP ConstsOk QVecP.

Definition rk (s : list N) (c i : N) : N := countN c (firstnN i s).

Lemma rk_0 s c : rk s c 0 = 0.
Proof. unfold rk. now rewrite firstnN_0. Qed.
Lemma rk_nil c i : rk [] c i = 0.
Proof. reflexivity. Qed.
Lemma rk_cons x s c i : rk (x :: s) c (i + 1) = (if x =? c then 1 else 0) + rk s c i.
Proof. unfold rk. rewrite firstnN_succ. reflexivity. Qed.
Lemma rk_app s z c i : rk (s ++ z) c i = rk s c i + rk z c (i - len s).
Proof. unfold rk. now rewrite firstnN_app, countN_app. Qed.
Lemma rk_all s c i : len s <= i -> rk s c i = countN c s.
Proof. intros H. unfold rk. now rewrite firstnN_all. Qed.
Lemma rk_app_le s z c i : i <= len s -> rk (s ++ z) c i = rk s c i.
Proof. intros H. rewrite rk_app. replace (i - len s) with 0 by lia. rewrite rk_0. lia. Qed.

Lemma rank_spec_rk s c : forall i, rank_spec s c i = rk s c i.
Proof. apply rank_spec_count. Qed.

Lemma rk_mono s c : forall a b, a <= b -> rk s c a <= rk s c b.
Proof. intros a b. rewrite <- !rank_spec_rk. apply rank_spec_mono. Qed.
Lemma rk_lip s c : forall a d, rk s c (a + d) <= rk s c a + d.
Proof. intros a d. rewrite <- !rank_spec_rk. apply rank_spec_add. Qed.
Lemma rk_le s c a : rk s c a <= a.
Proof. rewrite <- rank_spec_rk. apply rank_spec_le. Qed.
Lemma rk_le_count s c a : rk s c a <= countN c s.
Proof.
  destruct (N.le_ge_cases (len s) a) as [H|H]; [rewrite rk_all by assumption; lia|].
  rewrite <- (rk_all s c (len s)) by lia. now apply rk_mono.
Qed.
Lemma rk_le_len s c a : rk s c a <= len s.
Proof. pose proof (rk_le_count s c a). pose proof (countN_le_len c s). lia. Qed.
Lemma rk_succ s c : forall i x, nthN s i = Some x -> rk s c (i + 1) = rk s c i + (if x =? c then 1 else 0).
Proof. intros i x. rewrite <- !rank_spec_rk. apply rank_spec_succ. Qed.

Lemma rk_line c (data : list (list N)) : Forall (fun l => len l = 256) data ->
  forall j x, x <= 256 ->
  rk (concat data) c (256 * j + x) =
  rk (concat data) c (256 * j) + match nthN data j with Some d => rk d c x | None => 0 end.
Proof.
  induction 1 as [|d rest Hd HF IH]; intros j x Hx.
  - cbn [concat nthN]. rewrite !rk_nil. reflexivity.
  - cbn [concat]. rewrite !rk_app, Hd. destruct (N.eq_dec j 0) as [->|Hj].
    + rewrite nthN_0. replace (256 * 0 + x) with x by lia. replace (x - 256) with 0 by lia.
      replace (256 * 0) with 0 by lia. change (0 - 256) with 0. rewrite !rk_0. lia.
    + replace j with (N.pred j + 1) at 5 by lia. rewrite nthN_succ.
      rewrite !(rk_all d) by lia.
      replace (256 * j + x - 256) with (256 * N.pred j + x) by lia.
      replace (256 * j - 256) with (256 * N.pred j) by lia.
      rewrite (IH (N.pred j) x Hx). lia.
Qed.

Lemma qv_iter_all_inv q s : qvb_inv q s -> forall fuel i, len s <= i + N.of_nat fuel ->
  qv_iter_all q i fuel = Val (skipnN i s).
Proof.
  intros Hq. induction fuel as [|fuel IH]; intros i H; cbn [qv_iter_all].
  - now rewrite skipnN_all by lia.
  - rewrite (qv_get_inv q s i Hq). cbn [bind]. destruct (nthN s i) as [x|] eqn:E.
    + rewrite (IH (i + 1)) by lia. cbn [bind]. now rewrite (skipnN_nth s i x E).
    + destruct (N.lt_ge_cases i (len s)) as [L|L].
      * destruct (nthN_lt_some s i L) as (a & Ea). congruence.
      * now rewrite skipnN_all.
Qed.
Lemma qv_symbols_inv q s : qvb_inv q s -> qv_symbols q = Val s.
Proof.
  intros Hq. unfold qv_symbols. rewrite (qv_iter_all_inv q s Hq), skipnN_0; [reflexivity|].
  destruct Hq as (_ & _ & Hlen & _). rewrite LINE_SYMS_nat_val. unfold len in *. lia.
Qed.

(* prefix counts of the stored lines and of s agree up to len s; beyond it the padding may add to the former *)
Lemma qvb_rk q s c x : qvb_inv q s -> x <= len s -> rk (concat (qv_data q)) c x = rk s c x.
Proof. intros (_ & _ & _ & pad & Hcat) Hx. rewrite Hcat. now apply rk_app_le. Qed.
Lemma qvb_rk_le q s c x : qvb_inv q s -> rk s c x <= rk (concat (qv_data q)) c x.
Proof. intros (_ & _ & _ & pad & Hcat). rewrite Hcat, rk_app. lia. Qed.

Lemma qvb_rk_line q s c j x : qvb_inv q s -> x <= 256 -> 256 * j + x <= len s ->
  rk s c (256 * j + x) = rk s c (256 * j) + match nthN (qv_data q) j with Some d => rk d c x | None => 0 end.
Proof.
  intros H Hx Hl. rewrite <- !(qvb_rk q s c) by (assumption || lia). apply rk_line; [apply H|exact Hx].
Qed.

Lemma find_kth_select_from c : forall l k pos, find_kth c l k pos = select_from l c k pos.
Proof. induction l as [|x l IH]; intros k pos; cbn [find_kth select_from]; [reflexivity|]. now rewrite !IH. Qed.

Lemma half_select_spec c l k : k < countN c l ->
  exists q, half_select c l k = q /\ q < len l /\ nthN l q = Some c /\ rk l c q = k.
Proof.
  intros H. unfold half_select. rewrite find_kth_select_from. fold (select_spec l c k).
  destruct (select_spec l c k) as [q|] eqn:E; [|apply select_spec_none_iff in E; lia].
  exists q. split; [reflexivity|]. split; [apply (select_spec_some_lt _ _ _ _ E)|].
  apply select_spec_some_iff in E. now rewrite rank_spec_rk in E.
Qed.

Lemma sel_line_found c d t res : len d = 256 -> t < countN c d ->
  exists q a b, sel_line c d t res = (Some (res + q), a, b) /\ q < 256 /\ nthN d q = Some c /\ rk d c q = t.
Proof.
  intros Hd Ht. unfold sel_line.
  assert (Ed : d = firstn 128 d ++ skipn 128 d) by (symmetry; apply firstn_skipn).
  assert (L0 : len (firstn 128 d) = 128). { unfold len in *. rewrite firstn_length. lia. }
  set (w0 := firstn 128 d) in *. set (w1 := skipn 128 d) in *.
  assert (L1 : len w1 = 128). { rewrite Ed, len_app in Hd. lia. }
  rewrite Ed, countN_app in Ht.
  destruct (N.ltb_spec t (countN c w0)) as [H0|H0].
  - destruct (half_select_spec c w0 t H0) as (q & E & Hq & Hn & Hr). rewrite E.
    exists q. do 2 eexists. split; [reflexivity|]. split; [lia|]. rewrite Ed. split.
    + now rewrite nthN_app1 by lia.
    + now rewrite rk_app_le by lia.
  - destruct (N.ltb_spec (t - countN c w0) (countN c w1)) as [H1|H1]; [|lia].
    destruct (half_select_spec c w1 _ H1) as (q & E & Hq & Hn & Hr). rewrite E.
    exists (128 + q). do 2 eexists. split; [f_equal; f_equal; f_equal; lia|]. split; [lia|]. rewrite Ed. split.
    + rewrite nthN_app2 by lia. rewrite L0. now replace (128 + q - 128) with q by lia.
    + rewrite rk_app, L0. rewrite rk_all by lia. replace (128 + q - 128) with q by lia. lia.
Qed.

Lemma sel_line_notfound c d t res : len d = 256 -> countN c d <= t ->
  sel_line c d t res = (None, t - countN c d, res + 256).
Proof.
  intros Hd Ht. unfold sel_line.
  assert (Ed : d = firstn 128 d ++ skipn 128 d) by (symmetry; apply firstn_skipn).
  set (w0 := firstn 128 d) in *. set (w1 := skipn 128 d) in *.
  assert (Ec : countN c d = countN c w0 + countN c w1) by (rewrite Ed at 1; apply countN_app).
  rewrite Ec in *.
  destruct (N.ltb_spec t (countN c w0)) as [H0|H0]; [lia|].
  destruct (N.ltb_spec (t - countN c w0) (countN c w1)) as [H1|H1]; [lia|].
  f_equal; [f_equal|]; lia.
Qed.
