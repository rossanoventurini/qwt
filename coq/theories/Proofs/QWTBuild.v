(* C01 helper: the constructor of the quad wavelet tree stores, at level l, a rank/select quad
   vector over the level-l digits of the l-th stable reordering of the sequence
   (Theory/WaveletMatrix.v: [wm_levels]). *)
From Coq Require Import ZArith Lia ZifyBool ZifyN ZifyNat.
From QwtModel Require Import ListX Seq Consts QVec RSQ QWT ListXP QVecP RSQBuild RSQP.
From QwtModel Require Import WaveletMatrix QWTArith.

(* the l-th reordering and the digit list stored at level l, for a tree of L levels *)
Definition qlev (L l : nat) (s : list N) : list N := lev N 4 (qdig L) l s.
Definition qD (L l : nat) (s : list N) : list N := map (qdig L l) (qlev L l s).

Lemma qlev_len L l s : len (qlev L l s) = len s.
Proof. apply (lev_length N 4 (qdig L) (qdig_lt L)). Qed.
Lemma qD_len L l s : len (qD L l s) = len s.
Proof. unfold qD. now rewrite len_map, qlev_len. Qed.
Lemma qlev_S L l s : qlev L (S l) s = parts N (qdig L) l 4 (qlev L l s).
Proof. reflexivity. Qed.

Definition tree_ok (bsize : N) (L : nat) (s : list N) (qvs : list rsq) : Prop :=
  forall l, (l < L)%nat ->
    exists r, nthN qvs (N.of_nat l) = Some r /\ rsq_spec bsize r (qD L l s).

Lemma map_sym4_id l : Forall (fun x => x < 4) l -> map sym4 l = l.
Proof.
  induction 1 as [|x l Hx HF IH]; cbn [map]; [reflexivity|].
  rewrite IH. f_equal. unfold sym4. lia.
Qed.

Lemma qD_lt4 L l s : Forall (fun x => x < 4) (qD L l s).
Proof.
  unfold qD. apply Forall_forall. intros d Hd. apply in_map_iff in Hd.
  destruct Hd as (x & <- & _). exact (qdig_lt L l x).
Qed.

Lemma qwt_levels_ok w bsize L s : (bsize = 256 \/ bsize = 512) -> len s < RSQ_MAXN ->
  2 * N.of_nat (L - 1) < w ->
  forall n l0 shift, (l0 + n = L)%nat -> ((0 < n)%nat -> shift = 2 * N.of_nat (L - 1 - l0)) ->
  exists rs, qwt_levels w bsize (qlev L l0 s) shift n = Val rs /\
    Forall2 (rsq_spec bsize) rs (wm_levels N 4 (qdig L) l0 n s) /\
    forall j, (j < n)%nat ->
      exists r, nthN rs (N.of_nat j) = Some r /\ rsq_spec bsize r (qD L (l0 + j) s).
Proof.
  intros Hb Hn Hw. induction n as [|n IH]; intros l0 shift Hl Hs.
  - exists []. split; [reflexivity|]. split; [constructor|]. intros j Hj. lia.
  - rewrite (Hs ltac:(lia)). clear Hs shift. cbn [qwt_levels].
    assert (Hsh : 2 * N.of_nat (L - 1 - l0) < w) by lia.
    rewrite (mapo_val _ (qdig L l0)) by (intros x _; now apply two_bits_qdig).
    cbn [bind]. fold (qD L l0 s).
    destruct (qvb_push_all_inv (qD L l0 s) qvb_new [] qvb_inv_new) as (q & Eq & Hq).
    rewrite Eq. cbn [bind]. cbn [app] in Hq. rewrite (map_sym4_id _ (qD_lt4 L l0 s)) in Hq.
    destruct (rsq_from_qv_correct bsize q (qD L l0 s) Hb Hq (qD_lt4 L l0 s)) as (r & Er & Hr).
    { now rewrite qD_len. }
    rewrite Er. cbn [bind].
    rewrite (stable_partition_parts w L l0 _ Hsh). cbn [bind]. rewrite <- qlev_S.
    destruct (IH (S l0) (if 2 <=? 2 * N.of_nat (L - 1 - l0) then 2 * N.of_nat (L - 1 - l0) - 2
                         else 2 * N.of_nat (L - 1 - l0))) as (rest & Erest & HF2 & Hrest); [lia| |].
    { intros Hn0. replace (2 <=? 2 * N.of_nat (L - 1 - l0)) with true by lia. lia. }
    rewrite Erest. cbn [bind]. exists (r :: rest). split; [reflexivity|].
    split; [cbn [wm_levels]; constructor; [exact Hr|exact HF2]|].
    intros j Hj. destruct j as [|j].
    + exists r. rewrite Nat.add_0_r. split; [reflexivity|exact Hr].
    + destruct (Hrest j ltac:(lia)) as (r' & En & Hr'). exists r'.
      replace (N.of_nat (S j)) with (N.of_nat j + 1) by lia. rewrite nthN_succ.
      replace (l0 + S j)%nat with (S l0 + j)%nat by lia. split; assumption.
Qed.

Lemma qwt_levels_tree w bsize L s : (bsize = 256 \/ bsize = 512) -> len s < RSQ_MAXN ->
  (0 < L)%nat -> 2 * N.of_nat (L - 1) < w ->
  exists qvs, qwt_levels w bsize s (2 * N.of_nat (L - 1)) L = Val qvs /\ tree_ok bsize L s qvs /\
    Forall2 (rsq_spec bsize) qvs (wm_levels N 4 (qdig L) 0 L s).
Proof.
  intros Hb Hn HL Hw.
  destruct (qwt_levels_ok w bsize L s Hb Hn Hw L 0%nat (2 * N.of_nat (L - 1))) as (qvs & E & HF2 & H);
    [lia|intros _; f_equal; f_equal; lia|].
  exists qvs. split; [exact E|]. split; [|exact HF2]. intros l Hl. exact (H l Hl).
Qed.
