(* C02 end to end: HuffQWaveletTree::new = craft_wm_codes followed by the level construction.
   Combines CraftP (the code builder) and HQWTP (the tree over any admissible table).  The piece that
   neither file states is that two distinct symbols of the request never receive the same table
   entry ([craft_codes_distinct]); it follows from the builder invariant [craft_assign_inv]: the
   scratch entries of the assigned symbols are pairwise ordered by [Rasn], hence distinct among
   symbols of equal length, and the table entry (digit reversal) is injective on them. *)
From Coq Require Import ZArith Lia ZifyBool ZifyN ZifyNat Sorted.
From QwtModel Require Import ListX ListXP NBits Huff Codes HuffWM CraftArith CraftP.
From QwtModel Require Import RSQBuild HQWTP.

Lemma digits_eq_mod a x y : 0 < a -> forall n,
  (forall s, (s < n)%nat -> (x / a ^ N.of_nat s) mod a = (y / a ^ N.of_nat s) mod a) ->
  x mod a ^ N.of_nat n = y mod a ^ N.of_nat n.
Proof.
  intros Ha. induction n as [|n IH]; intros H.
  - change (N.of_nat 0) with 0. now rewrite N.pow_0_r, !N.mod_1_r.
  - rewrite !(mod_pow_succ a _ n Ha). rewrite IH by (intros s Hs; apply H; lia).
    rewrite (H n) by lia. reflexivity.
Qed.

Lemma revd_inj a k x y : 1 < a -> x < a ^ N.of_nat k -> y < a ^ N.of_nat k ->
  revd a x k = revd a y k -> x = y.
Proof.
  intros Ha Hx Hy E.
  rewrite <- (N.mod_small x (a ^ N.of_nat k)) by exact Hx.
  rewrite <- (N.mod_small y (a ^ N.of_nat k)) by exact Hy.
  apply digits_eq_mod; [lia|]. intros s Hs.
  rewrite <- (revd_digit a Ha k x s Hs), <- (revd_digit a Ha k y s Hs). now rewrite E.
Qed.

Lemma asn_code_inj frag x y : frag = 1 \/ frag = 2 -> asn_wf frag x -> asn_wf frag y ->
  asn_code frag x = asn_code frag y -> a_len x = a_len y /\ a_e x = a_e y.
Proof.
  intros Hf (X1 & X2 & X3 & X4) (Y1 & Y2 & Y3 & Y4) E.
  assert (Hfp : 0 < frag) by (destruct Hf as [-> | ->]; lia).
  pose proof (f_equal pc_content E) as Ec. pose proof (f_equal pc_len E) as El.
  unfold asn_code in Ec, El. cbn [pc_content pc_len] in Ec, El. clear E. split; [exact El|].
  rewrite !rev_frags_spec in Ec by assumption. rewrite <- El in Ec.
  set (k := N.to_nat (a_len x / frag)) in *.
  assert (Ek : a_len x = frag * N.of_nat k).
  { unfold k. rewrite Nnat.N2Nat.id. symmetry. apply mul_div_exact; assumption. }
  apply (revd_inj (2 ^ frag) k).
  - apply pow2_gt_1. exact Hfp.
  - rewrite <- N.pow_mul_r, <- Ek. exact X4.
  - rewrite <- N.pow_mul_r, <- Ek, El. exact Y4.
  - exact Ec.
Qed.

Theorem craft_codes_distinct : forall frag f sigma scratch tab,
  craft_input_ok frag f sigma -> craft_wm_codes frag f sigma scratch = Val tab ->
  forall x y c, In x (map fst f) -> In y (map fst f) ->
  nthN tab x = Some c -> nthN tab y = Some c -> x = y.
Proof.
  intros frag f sigma scratch tab Hi H x y c Hx Hy Ex Ey.
  pose proof Hi as (Hf & _).
  destruct (craft_assignments frag f sigma scratch tab Hi H) as (asg & A1 & A2 & (T1 & T2 & T3) & A4).
  rewrite Forall_forall in A2.
  apply (asg_syms asg f x A4), in_map_iff in Hx as (ax & <- & Hax).
  apply (asg_syms asg f y A4), in_map_iff in Hy as (ay & <- & Hay).
  rewrite (T2 ax Hax) in Ex. rewrite (T2 ay Hay) in Ey.
  assert (Ecode : asn_code frag ax = asn_code frag ay) by congruence.
  destruct (asn_code_inj frag ax ay Hf (A2 ax Hax) (A2 ay Hay) Ecode) as (El & Ee).
  destruct (A2 ax Hax) as (_ & _ & _ & Bx). destruct (A2 ay Hay) as (_ & _ & _ & By).
  destruct (SS_pair Rasn asg ax ay A1 Hax Hay) as [E|[[_ R]|[_ R]]].
  - now subst.
  - rewrite <- El, N.mod_small in R by exact Bx. lia.
  - rewrite El, N.mod_small in R by exact By. lia.
Qed.

(* f lists exactly the distinct symbols of seq with their code lengths (in bits), in the order the
   builder sorted them *)
Definition lengths_for (seq : list N) (f : list (N * N)) : Prop :=
  (forall x, In x seq <-> In x (map fst f)) /\ craft_input_ok 2 f (maxN seq).

Lemma sym_index_max seq : maxN seq < 2 ^ 64 - 1 -> sym_index (maxN seq) = maxN seq.
Proof. intros H. unfold sym_index. apply N.mod_small. change (2 ^ 64) with 18446744073709551616 in *. lia. Qed.

(* NOTE: [maxN seq < 2 ^ 64 - 1] (not merely < 2 ^ 64): the table has maxN seq + 1 entries and
   table_ok asks for len tab < 2 ^ 64 (the Rust code computes sigma + 1 in usize). *)
Theorem craft_table_ok_seq : forall seq f tab, seq <> [] -> maxN seq < 2 ^ 64 - 1 -> lengths_for seq f ->
  craft4 f (sym_index (maxN seq)) = Val tab -> table_ok seq tab.
Proof.
  intros seq f tab Hne Hmax (Hin & Hi) H. unfold craft4 in H. rewrite (sym_index_max seq Hmax) in H.
  destruct (craft_table_ok 2 f (maxN seq) _ tab Hi H) as (T1 & T2 & T3 & T4).
  unfold table_ok. split; [|split; [|split; [|split]]].
  - rewrite T1. change (2 ^ 64) with 18446744073709551616 in *. lia.
  - intros x Hx. apply Hin in Hx. apply in_map_iff in Hx as ([s l] & <- & Hp). cbn [fst].
    destruct (T2 s l Hp) as (c & Hc & _ & Hw). exists c. split; assumption.
  - intros x c Hc Hl.
    destruct (in_dec N.eq_dec x (map fst f)) as [Hxin|Hxout]; [now apply Hin|].
    exfalso. apply nthN_some_lt in Hc as Hlt. rewrite T1 in Hlt.
    rewrite (T3 x Hxout ltac:(lia)) in Hc. injection Hc as <-. apply Hl. reflexivity.
  - intros syms Hsub. unfold code_wm_ok in *.
    apply (wm_ok_sub _ _ _ (map fst f) syms T4). intros x Hx. apply Hin, Hsub, Hx.
  - intros x y c Hx Hy Ex Ey.
    apply (craft_codes_distinct 2 f (maxN seq) _ tab Hi H x y c); try assumption; now apply Hin.
Qed.

Theorem hq_new_correct : forall w bsize seq f, width_ok w -> (bsize = 256 \/ bsize = 512) ->
  Forall (fun x => x < 2 ^ w) seq -> len seq < RSQ_MAXN -> seq <> [] -> maxN seq < 2 ^ 64 - 1 ->
  lengths_for seq f ->
  forall tab, craft4 f (sym_index (maxN seq)) = Val tab ->   (* the builder did not fault: see craft_total *)
  exists t, hq_new bsize seq f = Val t /\ hq_spec w bsize t seq.
Proof.
  intros w bsize seq f Hw Hb HF Hn Hne Hmax Hlf tab Hc.
  pose proof (craft_table_ok_seq seq f tab Hne Hmax Hlf Hc) as HT.
  destruct (hq_build_correct w bsize seq tab Hw Hb HF Hn HT) as (t & E & HS).
  exists t. split; [|exact HS].
  unfold hq_new. destruct seq as [|x0 seq']; [congruence|]. rewrite Hc. cbn [bind]. exact E.
Qed.

(* with the explicit sufficient condition for the code builder to return (CraftP.craft_total) *)
Corollary hq_new_total : forall w bsize seq f, width_ok w -> (bsize = 256 \/ bsize = 512) ->
  Forall (fun x => x < 2 ^ w) seq -> len seq < RSQ_MAXN -> seq <> [] -> maxN seq < 2 ^ 64 - 1 ->
  lengths_for seq f -> Forall (fun p => snd p <= 32) f -> craft_fits 2 f (len f * 4) = true ->
  exists t, hq_new bsize seq f = Val t /\ hq_spec w bsize t seq.
Proof.
  intros w bsize seq f Hw Hb HF Hn Hne Hmax Hlf H32 Hfit.
  destruct (craft_total 2 f (maxN seq) (len f * 4) (proj2 Hlf) H32 Hfit) as (tab & Ht).
  apply (hq_new_correct w bsize seq f Hw Hb HF Hn Hne Hmax Hlf tab).
  unfold craft4. rewrite (sym_index_max seq Hmax). exact Ht.
Qed.

(* for the narrow element types the bound on the maximum is implied *)
Corollary hq_new_correct_narrow : forall w bsize seq f, w = 8 \/ w = 16 \/ w = 32 ->
  (bsize = 256 \/ bsize = 512) ->
  Forall (fun x => x < 2 ^ w) seq -> len seq < RSQ_MAXN -> seq <> [] -> lengths_for seq f ->
  forall tab, craft4 f (sym_index (maxN seq)) = Val tab ->
  exists t, hq_new bsize seq f = Val t /\ hq_spec w bsize t seq.
Proof.
  intros w bsize seq f Hw Hb HF Hn Hne Hlf tab Hc.
  apply (hq_new_correct w bsize seq f) with (tab := tab); try assumption.
  - unfold width_ok. lia.
  - assert (Hm : forall s : list N, s <> [] -> Forall (fun x => x < 2 ^ w) s -> maxN s < 2 ^ w).
    { induction s as [|x s IH]; intros Hs HFs; [congruence|]. inversion HFs as [|? ? Hx HFs']; subst.
      cbn [maxN]. destruct s as [|y s]; [cbn [maxN]; lia|].
      specialize (IH ltac:(discriminate) HFs'). lia. }
    specialize (Hm seq Hne HF).
    assert (2 ^ w <= 2 ^ 32) by (apply N.pow_le_mono_r; lia).
    change (2 ^ 32) with 4294967296 in *. change (2 ^ 64) with 18446744073709551616. lia.
Qed.

Definition hqn_seq : list N := [5; 9; 7; 5; 3; 9; 1; 5; 9; 9; 7; 5].
Definition hqn_f : list (N * N) := [(5,2);(9,2);(7,4);(3,4);(1,4)].

Example hqn_lengths_for : lengths_for hqn_seq hqn_f.
Proof.
  split.
  - intros x. unfold hqn_seq, hqn_f. cbn [map fst In]. split; intros H;
      repeat (destruct H as [<-|H]; [tauto|]); contradiction.
  - split; [now right|]. split; [|split; [|split]].
    + unfold hqn_f. cbn [map fst]. repeat (constructor; [cbn [In]; lia|]). constructor.
    + unfold hqn_f, hqn_seq. repeat (constructor; [cbn [fst snd]; vm_compute; repeat split; discriminate|]). constructor.
    + unfold hqn_f. repeat (constructor; [|repeat (constructor; [cbn [snd]; lia|]); constructor]). constructor.
    + vm_compute. reflexivity.
Qed.

Example hqn_thm : forall bsize, (bsize = 256 \/ bsize = 512) ->
  exists t, hq_new bsize hqn_seq hqn_f = Val t /\ hq_spec 8 bsize t hqn_seq.
Proof.
  intros bsize Hb.
  apply (hq_new_correct_narrow 8 bsize hqn_seq hqn_f ltac:(lia) Hb) with
    (tab := [pc_zero; mk_pc 6 4; pc_zero; mk_pc 3 4; pc_zero; mk_pc 3 2; pc_zero; mk_pc 7 4; pc_zero; mk_pc 2 2]).
  - unfold hqn_seq. repeat (constructor; [change (2 ^ 8) with 256; lia|]). constructor.
  - reflexivity.
  - discriminate.
  - exact hqn_lengths_for.
  - vm_compute. reflexivity.
Qed.

Print Assumptions revd_inj.
Print Assumptions craft_assignments.
Print Assumptions craft_codes_distinct.
Print Assumptions craft_table_ok_seq.
Print Assumptions hq_new_correct.
Print Assumptions hq_new_total.
Print Assumptions hq_new_correct_narrow.
Print Assumptions hqn_lengths_for.
Print Assumptions hqn_thm.
