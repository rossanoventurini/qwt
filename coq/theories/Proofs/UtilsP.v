(* C17: the utility functions of src/utils: the stable partitions (property-level contract:
   permutation, grouped by increasing key, stable), text_remap (the order-preserving dense
   remapping, for EVERY iteration order of the hash set), and select_in_word in the words of
   its documentation.  Every statement is for ALL inputs. *)
From Coq Require Import ZArith Lia ZifyBool ZifyN ZifyNat Permutation Sorted.
From QwtModel Require Import ListX Seq Words Remap QWT Huff ListXP NBits BitsLib SeqP WordsP QWTP BinWTP.
From QwtModel Require HuffWM.

Lemma filter_split_perm {A} (q r : A -> bool) l : (forall x, In x l -> q x && r x = false) ->
  Permutation (filter (fun x => q x || r x) l) (filter q l ++ filter r l).
Proof.
  induction l as [|x l IH]; intros H; cbn [filter app]; [constructor|].
  assert (Hx := H x (or_introl eq_refl)).
  assert (IH' := IH (fun y Hy => H y (or_intror Hy))).
  destruct (q x), (r x); cbn [orb andb app] in *; try discriminate.
  - now constructor.
  - now apply Permutation_cons_app.
  - exact IH'.
Qed.

(* the elements with key s, then those with key s + 1, ... up to key s + k - 1, each group in input order *)
Definition group_by {A} (key : A -> N) (s : N) (k : nat) (l : list A) : list A :=
  concat (map (fun d => filter (fun x => key x =? d) l) (seqN s k)).

Lemma group_by_S {A} (key : A -> N) s k l :
  group_by key s (S k) l = filter (fun x => key x =? s) l ++ group_by key (s + 1) k l.
Proof. reflexivity. Qed.

Lemma group_by_snoc {A} (key : A -> N) k l : forall s,
  group_by key s (S k) l = group_by key s k l ++ filter (fun x => key x =? s + N.of_nat k) l.
Proof.
  induction k as [|k IH]; intros s.
  - unfold group_by. cbn [seqN map concat app]. now rewrite app_nil_r, N.add_0_r.
  - rewrite group_by_S, IH, (group_by_S key s k), app_assoc.
    now replace (s + 1 + N.of_nat k) with (s + N.of_nat (S k)) by lia.
Qed.

Lemma in_group_by {A} (key : A -> N) k l x : forall s,
  In x (group_by key s k l) <-> In x l /\ s <= key x < s + N.of_nat k.
Proof.
  induction k as [|k IH]; intros s.
  - unfold group_by; cbn [seqN map concat In]. split; [intros []|intros [_ H]; lia].
  - rewrite group_by_S, in_app_iff, filter_In, IH, N.eqb_eq, Nat2N.inj_succ. clear IH.
    split.
    + intros [[H1 H2]|[H1 H2]]; (split; [assumption|lia]).
    + intros [H1 H2]. destruct (N.eq_dec (key x) s); [left|right]; (split; [assumption|lia]).
Qed.

Lemma group_by_filter_perm {A} (key : A -> N) k l : forall s,
  Permutation (filter (fun x => (s <=? key x) && (key x <? s + N.of_nat k)) l) (group_by key s k l).
Proof.
  induction k as [|k IH]; intros s.
  - unfold group_by; cbn [seqN map concat]. rewrite filter_none; [constructor|].
    intros x _. lia.
  - rewrite group_by_S. eapply Permutation_trans; [|apply Permutation_app_head, IH].
    rewrite (filter_ext _ (fun x => (key x =? s) ||
                                    ((s + 1 <=? key x) && (key x <? s + 1 + N.of_nat k)))).
    + apply filter_split_perm. intros x _. lia.
    + intros x. lia.
Qed.

Theorem group_by_perm : forall A (key : A -> N) s k l,
  (forall x, In x l -> s <= key x < s + N.of_nat k) -> Permutation l (group_by key s k l).
Proof.
  intros A key s k l H. eapply Permutation_trans; [|apply group_by_filter_perm].
  rewrite filter_all; [apply Permutation_refl|].
  intros x Hx. specialize (H x Hx). lia.
Qed.

Theorem group_by_grouped : forall A (key : A -> N) k l s,
  StronglySorted (fun x y => key x <= key y) (group_by key s k l).
Proof.
  intros A key k l. induction k as [|k IH]; intros s.
  - constructor.
  - rewrite group_by_S. apply HuffWM.SS_app.
    + apply HuffWM.SS_all. intros x y Hx Hy.
      apply filter_In in Hx as [_ Hx]. apply filter_In in Hy as [_ Hy].
      apply N.eqb_eq in Hx, Hy. lia.
    + apply IH.
    + intros x y Hx Hy. apply filter_In in Hx as [_ Hx]. apply N.eqb_eq in Hx.
      apply in_group_by in Hy. lia.
Qed.

Lemma filter_filter_key {A} (key : A -> N) d s l :
  filter (fun x => key x =? d) (filter (fun x => key x =? s) l) =
  if d =? s then filter (fun x => key x =? d) l else [].
Proof.
  destruct (N.eqb_spec d s) as [->|Hn].
  - induction l as [|a l IH]; cbn [filter]; [reflexivity|].
    destruct (key a =? s) eqn:E; cbn [filter]; rewrite ?E; congruence.
  - apply filter_none. intros x Hx. apply filter_In in Hx as [_ Hx].
    apply N.eqb_eq in Hx. apply N.eqb_neq. congruence.
Qed.

(* stability: the subsequence of the elements with key d is unchanged *)
Theorem group_by_stable : forall A (key : A -> N) k l d s,
  filter (fun x => key x =? d) (group_by key s k l) =
  if (s <=? d) && (d <? s + N.of_nat k) then filter (fun x => key x =? d) l else [].
Proof.
  intros A key k l d. induction k as [|k IH]; intros s.
  - unfold group_by; cbn [seqN map concat filter].
    destruct ((s <=? d) && (d <? s + N.of_nat 0)) eqn:E; [exfalso; lia|reflexivity].
  - rewrite group_by_S, filter_app, filter_filter_key, IH.
    destruct (d =? s) eqn:E1, ((s + 1 <=? d) && (d <? s + 1 + N.of_nat k)) eqn:E2,
             ((s <=? d) && (d <? s + N.of_nat (S k))) eqn:E3;
      try (exfalso; lia); rewrite ?app_nil_r; reflexivity.
Qed.

Lemma group_by_contract {A} (key : A -> N) k l : (forall x, key x < N.of_nat k) ->
  Permutation l (group_by key 0 k l) /\
  StronglySorted (fun x y => key x <= key y) (group_by key 0 k l) /\
  forall d, filter (fun x => key x =? d) (group_by key 0 k l) = filter (fun x => key x =? d) l.
Proof.
  intros H. split; [apply group_by_perm; intros x _; specialize (H x); lia|].
  split; [apply group_by_grouped|].
  intros d. rewrite group_by_stable.
  destruct (N.leb_spec 0 d); [|lia]. destruct (N.ltb_spec d (0 + N.of_nat k)); [reflexivity|].
  symmetry. apply filter_none. intros x _. apply N.eqb_neq. specialize (H x). lia.
Qed.

Theorem partition4_contract : forall w seq shift, QWTP.width_ok w -> shift < w ->
  Forall (fun x => x < 2 ^ w) seq ->
  exists out, stable_partition_of_4 w seq shift = Val out /\ Permutation seq out /\
    StronglySorted (fun x y => (x / 2 ^ shift) mod 4 <= (y / 2 ^ shift) mod 4) out /\
    forall d, filter (fun x => (x / 2 ^ shift) mod 4 =? d) out =
              filter (fun x => (x / 2 ^ shift) mod 4 =? d) seq.
Proof.
  intros w seq shift Hw Hs HF.
  exists (group_by (fun x => (x / 2 ^ shift) mod 4) 0 4 seq).
  split; [rewrite QWTP.stable_partition_of_4_correct by assumption; reflexivity|].
  apply (group_by_contract (fun x => (x / 2 ^ shift) mod 4) 4 seq).
  intros x. change (N.of_nat 4) with 4. apply N.mod_lt. discriminate.
Qed.

Theorem partition2_contract : forall w seq shift, BinWTP.width_ok w -> shift < w ->
  Forall (fun x => x < 2 ^ w) seq ->
  exists out, stable_partition_of_2 w seq shift = Val out /\ Permutation seq out /\
    StronglySorted (fun x y => (x / 2 ^ shift) mod 2 <= (y / 2 ^ shift) mod 2) out /\
    forall d, filter (fun x => (x / 2 ^ shift) mod 2 =? d) out =
              filter (fun x => (x / 2 ^ shift) mod 2 =? d) seq.
Proof.
  intros w seq shift Hw Hs HF.
  exists (group_by (fun x => (x / 2 ^ shift) mod 2) 0 2 seq).
  split.
  - rewrite BinWTP.stable_partition_of_2_correct by assumption. f_equal.
    unfold group_by. cbn [seqN map concat]. rewrite app_nil_r. reflexivity.
  - apply (group_by_contract (fun x => (x / 2 ^ shift) mod 2) 2 seq).
    intros x. change (N.of_nat 2) with 2. apply N.mod_lt. discriminate.
Qed.

Definition distinct_sorted (input : list N) : list N := sort_asc (nodup N.eq_dec input).

Lemma insert_asc_in x l y : In y (insert_asc x l) <-> y = x \/ In y l.
Proof.
  induction l as [|a l IH]; cbn [insert_asc In]; [intuition congruence|].
  destruct (x <=? a); cbn [In]; [|rewrite IH]; intuition congruence.
Qed.

Lemma insert_asc_sorted x l :
  StronglySorted N.lt l -> ~ In x l -> StronglySorted N.lt (insert_asc x l).
Proof.
  induction l as [|a l IH]; intros Hs Hn; cbn [insert_asc].
  - repeat constructor.
  - apply StronglySorted_inv in Hs as [Hs Ha].
    destruct (N.leb_spec x a) as [Hle|Hlt].
    + assert (x < a).
      { assert (x <> a) by (intros ->; apply Hn; now left). lia. }
      constructor; [constructor; assumption|]. constructor; [assumption|].
      eapply Forall_impl; [|exact Ha]. cbv beta. intros; lia.
    + constructor.
      * apply IH; [assumption|]. intros Hi; apply Hn; now right.
      * apply Forall_forall. intros y Hy. apply insert_asc_in in Hy as [->|Hy]; [assumption|].
        rewrite Forall_forall in Ha. now apply Ha.
Qed.

Lemma sort_fold l : forall acc, StronglySorted N.lt acc -> NoDup l ->
  (forall x, In x l -> ~ In x acc) ->
  StronglySorted N.lt (fold_left (fun acc x => insert_asc x acc) l acc) /\
  (forall y, In y (fold_left (fun acc x => insert_asc x acc) l acc) <-> In y l \/ In y acc).
Proof.
  induction l as [|a l IH]; intros acc Hs Hnd Hd; cbn [fold_left].
  - split; [assumption|]. cbn [In]. tauto.
  - inversion Hnd as [|? ? Hna Hnd']; subst.
    destruct (IH (insert_asc a acc)) as [H1 H2].
    + apply insert_asc_sorted; [assumption|]. apply Hd. now left.
    + assumption.
    + intros x Hx Hi. apply insert_asc_in in Hi as [->|Hi]; [contradiction|].
      eapply Hd; [right; eassumption|assumption].
    + split; [assumption|]. intros y. rewrite H2, insert_asc_in. cbn [In]. intuition congruence.
Qed.

Lemma sort_asc_sorted l : NoDup l -> StronglySorted N.lt (sort_asc l).
Proof. intros H. apply (sort_fold l []); [constructor|assumption|intros x _ []]. Qed.
Lemma sort_asc_in l y : NoDup l -> In y (sort_asc l) <-> In y l.
Proof.
  intros H. unfold sort_asc.
  rewrite (proj2 (sort_fold l [] (SSorted_nil _) H (fun x _ F => F))). cbn [In]. tauto.
Qed.

Lemma sorted_lt_unique l1 : forall l2, StronglySorted N.lt l1 -> StronglySorted N.lt l2 ->
  (forall x, In x l1 <-> In x l2) -> l1 = l2.
Proof.
  induction l1 as [|a l1 IH]; intros [|b l2] H1 H2 H.
  - reflexivity.
  - exfalso. destruct (proj2 (H b) (or_introl eq_refl)).
  - exfalso. destruct (proj1 (H a) (or_introl eq_refl)).
  - apply StronglySorted_inv in H1 as [H1 Ha]. apply StronglySorted_inv in H2 as [H2 Hb].
    rewrite Forall_forall in Ha, Hb.
    assert (a = b).
    { destruct (proj1 (H a) (or_introl eq_refl)) as [E|Hi]; [congruence|].
      destruct (proj2 (H b) (or_introl eq_refl)) as [E|Hj]; [congruence|].
      apply Hb in Hi. apply Ha in Hj. lia. }
    subst b. f_equal. apply IH; try assumption.
    intros x. split; intros Hx.
    + destruct (proj1 (H x) (or_intror Hx)) as [E|Hi]; [|assumption].
      subst x. apply Ha in Hx. lia.
    + destruct (proj2 (H x) (or_intror Hx)) as [E|Hi]; [|assumption].
      subst x. apply Hb in Hx. lia.
Qed.

Lemma SSorted_lt_NoDup l : StronglySorted N.lt l -> NoDup l.
Proof.
  induction 1 as [|a l Hs IH Ha]; constructor; [|assumption].
  intros Hi. rewrite Forall_forall in Ha. apply Ha in Hi. lia.
Qed.

Lemma distinct_sorted_sorted input : StronglySorted N.lt (distinct_sorted input).
Proof. apply sort_asc_sorted, NoDup_nodup. Qed.
Lemma distinct_sorted_in input x : In x (distinct_sorted input) <-> In x input.
Proof. unfold distinct_sorted. rewrite sort_asc_in by apply NoDup_nodup. apply nodup_In. Qed.

(* whatever the order the set yields its elements, sorting gives the same list *)
Lemma sort_asc_canon uniq input : NoDup uniq -> (forall x, In x uniq <-> In x input) ->
  sort_asc uniq = distinct_sorted input.
Proof.
  intros Hnd Hin. apply sorted_lt_unique.
  - now apply sort_asc_sorted.
  - apply distinct_sorted_sorted.
  - intros x. rewrite sort_asc_in, distinct_sorted_in by assumption. apply Hin.
Qed.

Lemma NoDup_len_le n l : NoDup l -> (forall x, In x l -> x < N.of_nat n) -> len l <= N.of_nat n.
Proof.
  intros Hnd H.
  assert (Hl : (length l <= length (seqN 0 n))%nat).
  { apply NoDup_incl_length; [assumption|]. intros x Hx. apply in_seqN. specialize (H x Hx). lia. }
  rewrite seqN_length in Hl. unfold len. lia.
Qed.

Definition rank_in (D : list N) (x : N) : N := len (filter (fun y => y <? x) D).

Lemma rank_in_cons a D x : rank_in (a :: D) x = (if a <? x then 1 else 0) + rank_in D x.
Proof.
  unfold rank_in. cbn [filter]. destruct (a <? x); [rewrite len_cons|]; lia.
Qed.
Lemma rank_in_le_len D x : rank_in D x <= len D.
Proof.
  induction D as [|a D IH]; [unfold rank_in; cbn [filter]; lia|].
  rewrite rank_in_cons, len_cons. destruct (a <? x); lia.
Qed.
Lemma rank_in_lt_len D x : In x D -> rank_in D x < len D.
Proof.
  induction D as [|a D IH]; intros H; [destruct H|].
  rewrite rank_in_cons, len_cons. destruct H as [->|H].
  - pose proof (rank_in_le_len D x). destruct (N.ltb_spec x x); lia.
  - specialize (IH H). destruct (a <? x); lia.
Qed.
Lemma rank_in_le D x y : x <= y -> rank_in D x <= rank_in D y.
Proof.
  intros H. induction D as [|a D IH]; [unfold rank_in; cbn [filter]; lia|].
  rewrite !rank_in_cons. destruct (N.ltb_spec a x), (N.ltb_spec a y); lia.
Qed.
Lemma rank_in_lt D x y : x < y -> In x D -> rank_in D x < rank_in D y.
Proof.
  intros H. induction D as [|a D IH]; intros Hi; [destruct Hi|].
  rewrite !rank_in_cons. destruct Hi as [->|Hi].
  - pose proof (rank_in_le D x y). destruct (N.ltb_spec x x), (N.ltb_spec x y); lia.
  - specialize (IH Hi). destruct (N.ltb_spec a x), (N.ltb_spec a y); lia.
Qed.

Lemma index_of_sorted l : forall i x, StronglySorted N.lt l -> In x l ->
  index_of x l i = Some (i + rank_in l x).
Proof.
  induction l as [|a l IH]; intros i x Hs Hi; [destruct Hi|].
  apply StronglySorted_inv in Hs as [Hs Ha]. rewrite Forall_forall in Ha.
  cbn [index_of]. rewrite rank_in_cons. destruct (N.eqb_spec a x) as [->|Hne].
  - destruct (N.ltb_spec x x); [lia|].
    unfold rank_in. rewrite filter_none.
    + rewrite (@len_nil N). f_equal. lia.
    + intros y Hy. apply Ha in Hy. lia.
  - destruct Hi as [E|Hi]; [contradiction|].
    pose proof (Ha x Hi). destruct (N.ltb_spec a x); [|lia].
    rewrite IH by assumption. f_equal. lia.
Qed.

Lemma index_of_nth l : forall i a x, NoDup l -> nthN l a = Some x -> index_of x l i = Some (i + a).
Proof.
  induction l as [|y l IH]; intros i a x Hnd H; cbn [nthN index_of] in *; [discriminate|].
  inversion Hnd as [|? ? Hny Hnd']; subst.
  destruct (N.eqb_spec a 0) as [->|Hn].
  - injection H as ->. rewrite N.eqb_refl. f_equal. lia.
  - destruct (N.eqb_spec y x) as [->|Hne].
    + exfalso. apply Hny. eapply nthN_In; eassumption.
    + rewrite (IH (i + 1) (N.pred a) x Hnd' H). f_equal. lia.
Qed.

Fixpoint remap_go (U : list N) (l : list N) : outcome (list N * N) :=
  match l with
  | [] => Val ([], len U)
  | c :: r => match index_of c U 0 with
              | None => Fault Panic
              | Some i => let! (rest, d) := remap_go U r in Val (i mod 256 :: rest, d)
              end
  end.
Lemma text_remap_go uniq input : text_remap uniq input = remap_go (sort_asc uniq) input.
Proof.
  unfold text_remap. cbv zeta. induction input as [|c r IH]; [reflexivity|].
  cbn [remap_go]. rewrite <- IH. reflexivity.
Qed.

(* the [as u8] cast is harmless: every index is below 256 *)
Lemma remap_go_val U (f : N -> N) input :
  (forall x, In x input -> index_of x U 0 = Some (f x) /\ f x < 256) ->
  remap_go U input = Val (map f input, len U).
Proof.
  induction input as [|c r IH]; intros H; cbn [remap_go map]; [reflexivity|].
  destruct (H c (or_introl eq_refl)) as (Ei & Hi).
  rewrite Ei, IH by (intros; apply H; now right).
  cbn [bind]. rewrite N.mod_small by assumption. reflexivity.
Qed.

Theorem text_remap_correct : forall uniq input, NoDup uniq ->
  (forall x, In x uniq <-> In x input) -> Forall (fun x => x < 256) input ->
  exists out d, text_remap uniq input = Val (out, d) /\
    d = len (distinct_sorted input) /\ d <= 256 /\ len out = len input /\
    (* every output symbol is the rank of the input symbol among the distinct values: *)
    (forall i x, nthN input i = Some x ->
       nthN out i = Some (len (filter (fun y => y <? x) (distinct_sorted input)))) /\
    (* hence: onto 0..d, order preserving, injective on symbols *)
    (forall i j x y a b, nthN input i = Some x -> nthN input j = Some y ->
       nthN out i = Some a -> nthN out j = Some b -> (x < y <-> a < b) /\ (x = y <-> a = b)) /\
    (forall a, a < d -> exists i, nthN out i = Some a).
Proof.
  intros uniq input Hnd Hin HF. rewrite Forall_forall in HF.
  pose (D := distinct_sorted input).
  assert (HU : sort_asc uniq = D) by (apply sort_asc_canon; assumption).
  assert (HDs : StronglySorted N.lt D) by apply distinct_sorted_sorted.
  assert (HDin : forall x, In x D <-> In x input) by (intros x; apply distinct_sorted_in).
  assert (HDnd : NoDup D) by (apply SSorted_lt_NoDup; assumption).
  assert (HDlen : len D <= 256).
  { apply (NoDup_len_le 256); [assumption|]. intros x Hx. apply HF. now apply HDin. }
  assert (Hidx : forall x, In x input -> index_of x D 0 = Some (rank_in D x)).
  { intros x Hx. rewrite index_of_sorted by (assumption || now apply HDin). f_equal; lia. }
  assert (Hrk : forall x, In x input -> rank_in D x < len D).
  { intros x Hx. apply rank_in_lt_len. now apply HDin. }
  exists (map (rank_in D) input), (len D).
  split.
  { rewrite text_remap_go, HU. apply remap_go_val. intros x Hx.
    split; [now apply Hidx|]. specialize (Hrk x Hx). lia. }
  split; [reflexivity|]. split; [assumption|].
  split; [apply len_map|].
  assert (Hout : forall i x, nthN input i = Some x ->
                 nthN (map (rank_in D) input) i = Some (rank_in D x)).
  { intros i x E. rewrite nthN_map, E. reflexivity. }
  split; [exact Hout|]. split.
  - intros i j x y a b Ex Ey Ea Eb.
    rewrite (Hout _ _ Ex) in Ea. rewrite (Hout _ _ Ey) in Eb.
    injection Ea as <-. injection Eb as <-.
    assert (Hx : In x D) by (apply HDin; eapply nthN_In; eassumption).
    assert (Hy : In y D) by (apply HDin; eapply nthN_In; eassumption).
    split; split; intros H.
    + now apply rank_in_lt.
    + destruct (N.lt_ge_cases x y) as [|Hge]; [assumption|].
      pose proof (rank_in_le D y x Hge). lia.
    + now subst.
    + destruct (N.lt_trichotomy x y) as [Hlt|[Heq|Hgt]]; [|assumption|].
      * pose proof (rank_in_lt D x y Hlt Hx). lia.
      * pose proof (rank_in_lt D y x Hgt Hy). lia.
  - intros a Ha. destruct (nthN_lt_some D a Ha) as (x & Ex).
    assert (Hx : In x input) by (apply HDin; eapply nthN_In; eassumption).
    destruct (In_nthN input x Hx) as (i & Ei). exists i.
    rewrite (Hout _ _ Ei). f_equal.
    pose proof (index_of_nth D 0 a x HDnd Ex) as E1. rewrite (Hidx x Hx) in E1.
    injection E1 as E1. lia.
Qed.

Theorem text_remap_order_irrelevant : forall u1 u2 input, NoDup u1 -> NoDup u2 ->
  (forall x, In x u1 <-> In x input) -> (forall x, In x u2 <-> In x input) ->
  text_remap u1 input = text_remap u2 input.
Proof.
  intros u1 u2 input H1 H2 I1 I2. rewrite !text_remap_go.
  rewrite (sort_asc_canon u1 input H1 I1), (sort_asc_canon u2 input H2 I2). reflexivity.
Qed.

Lemma select_spec_sound l c k p : select_spec l c k = Some p ->
  nthN l p = Some c /\ countN c (firstnN p l) = k /\ k < countN c l.
Proof.
  intros H. pose proof (select_spec_some_lt _ _ _ _ H) as [Hk _].
  apply select_spec_some_iff in H as [Hn Hr]. rewrite rank_spec_count in Hr. tauto.
Qed.

Lemma bits_of_firstnN n w p : p <= N.of_nat n ->
  firstnN p (bits_of n w) = bits_of (N.to_nat p) (w mod 2 ^ p).
Proof.
  intros Hp. replace n with (N.to_nat p + (n - N.to_nat p))%nat by lia.
  rewrite bits_of_app, N2Nat.id. set (B := bits_of (N.to_nat p) (w mod 2 ^ p)).
  replace p with (len B) at 1 by (unfold B; rewrite len_bits_of; lia). apply firstnN_app_exact.
Qed.

(* position of the (k+1)-th set bit: the bit is set and exactly k set bits lie below it;
   64 when there is none *)
Theorem select_in_word_property : forall w k, w < 2 ^ 64 -> k < 64 ->
  exists p, select_in_word w k = Val p /\
    (k < popcount w -> p < 64 /\ N.testbit w p = true /\ popcount (w mod 2 ^ p) = k) /\
    (popcount w <= k -> p = 64).
Proof.
  intros w k Hw Hk. rewrite select_in_word_correct by (assumption || lia).
  rewrite (popcount_correct 64 w Hw).
  destruct (select_spec (bits_of 64 w) 1 k) as [p|] eqn:E.
  - exists p. split; [reflexivity|].
    pose proof (select_spec_bounds _ _ _ _ E) as Hb. rewrite len_bits_of in Hb.
    change (N.of_nat 64) with 64 in Hb.
    apply select_spec_sound in E as (E1 & E2 & E3). split; [|intros; lia].
    intros _. split; [assumption|]. split.
    + rewrite nthN_bits_of_lt in E1 by (change (N.of_nat 64) with 64; lia).
      injection E1 as E1. destruct (N.testbit w p); [reflexivity|discriminate].
    + rewrite bits_of_firstnN in E2 by (change (N.of_nat 64) with 64; lia).
      rewrite (popcount_correct (N.to_nat p)); [exact E2|].
      rewrite N2Nat.id. apply N.mod_lt, pow2_nz.
  - exists 64. split; [reflexivity|]. split; [|reflexivity].
    intros Hlt. destruct (select_spec_lt _ _ _ Hlt) as (p & Ep). congruence.
Qed.

Print Assumptions group_by_perm.
Print Assumptions group_by_grouped.
Print Assumptions group_by_stable.
Print Assumptions partition4_contract.
Print Assumptions partition2_contract.
Print Assumptions text_remap_correct.
Print Assumptions text_remap_order_irrelevant.
Print Assumptions select_in_word_property.
