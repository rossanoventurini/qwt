(* The bit vector (src/bitvector/mod.rs, model Model/BitVec.v) refines [list bool]:
   after any history of operations every reader is a function of the abstract list. *)
From Coq Require Import ZArith Lia ZifyBool ZifyN ZifyNat Sorted.
From QwtModel Require Import ListX Consts Words BitVec ListXP NBits OutcomeP BitsLib BitVecW BitVecIter.

Definition bv_inv (b : bitvec) : Prop :=
  len (bv_words b) = 8 * ((bv_nbits b + 511) / 512) /\
  Forall (fun w => w < 2 ^ 64) (bv_words b) /\
  (* padding bits are zero *)
  (forall j, bv_nbits b <= j -> j < 64 * len (bv_words b) ->
             nthN (concat (map (bits_of 64) (bv_words b))) j = Some 0) /\
  bv_nones b = countb (bv_abs b) /\
  bv_nbits b < 2 ^ 63.

Definition nthb (l : list bool) (j : N) : bool := match nthN l j with Some x => x | None => false end.

Lemma nthb_out l j : len l <= j -> nthb l j = false.
Proof. intros H. unfold nthb. now rewrite nthN_none. Qed.
Lemma nthN_nthb l j : j < len l -> nthN l j = Some (nthb l j).
Proof. intros H. unfold nthb. destruct (nthN_lt_some l j H) as (a & ->). reflexivity. Qed.
Lemma nthb_app_last l x j : nthb (l ++ [x]) j = if j =? len l then x else nthb l j.
Proof.
  unfold nthb. rewrite nthN_app. destruct (N.ltb_spec j (len l)) as [H|H].
  - destruct (N.eqb_spec j (len l)); [lia|reflexivity].
  - destruct (N.eqb_spec j (len l)) as [->|Hne].
    + now rewrite N.sub_diag.
    + now rewrite !nthN_none by (lens; lia).
Qed.
Lemma nthb_app_false l n j : nthb (l ++ repeat false n) j = nthb l j.
Proof.
  unfold nthb. rewrite nthN_app. destruct (N.ltb_spec j (len l)) as [H|H]; [reflexivity|].
  rewrite (nthN_none l) by assumption. rewrite nthN_repeat_gen. now destruct (_ <? _).
Qed.
Lemma nthb_setN l i v j : nthb (setN l i v) j = if (j =? i) && (i <? len l) then v else nthb l j.
Proof. unfold nthb. rewrite nthN_setN. now destruct ((j =? i) && (i <? len l)). Qed.
Lemma nthb_ext l1 l2 : len l1 = len l2 -> (forall j, nthb l1 j = nthb l2 j) -> l1 = l2.
Proof.
  intros Hl H. apply nthN_ext. intros j. destruct (N.ltb_spec j (len l1)) as [Hj|Hj].
  - rewrite !nthN_nthb by lia. now rewrite H.
  - rewrite !nthN_none by lia. reflexivity.
Qed.

Lemma inv_words_len b : bv_inv b -> len (bv_words b) = 8 * ((bv_nbits b + 511) / 512).
Proof. now intros (H & _). Qed.
Lemma inv_words_ok b : bv_inv b -> words_ok (bv_words b).
Proof. now intros (_ & H & _). Qed.
Lemma inv_small b : bv_inv b -> bv_nbits b < 2 ^ 63.
Proof. now intros (_ & _ & _ & _ & H). Qed.
Lemma inv_nones b : bv_inv b -> bv_nones b = countb (bv_abs b).
Proof. now intros (_ & _ & _ & H & _). Qed.
Lemma inv_cap b : bv_inv b -> bv_nbits b <= 64 * len (bv_words b).
Proof. intros H. rewrite (inv_words_len b H). lia. Qed.
Lemma inv_len b : bv_inv b -> len (bv_abs b) = bv_nbits b.
Proof. intros H. apply len_bv_abs, inv_cap, H. Qed.
Lemma inv_wbit b : bv_inv b -> forall j, wbit (bv_words b) j = nthb (bv_abs b) j.
Proof.
  intros H j. pose proof (inv_cap b H) as Hc. unfold nthb. rewrite nthN_bv_abs by assumption.
  destruct (N.ltb_spec j (bv_nbits b)) as [Hj|Hj]; [reflexivity|].
  destruct (N.ltb_spec j (64 * len (bv_words b))) as [Hj2|Hj2]; [|now apply wbit_out].
  destruct H as (_ & _ & Hpad & _). specialize (Hpad j Hj Hj2).
  rewrite nthN_flat in Hpad. destruct (_ <? _); [|discriminate].
  injection Hpad as Hpad. now destruct (wbit (bv_words b) j).
Qed.

Lemma build_state ws nbits nones l :
  len ws = 8 * ((nbits + 511) / 512) -> words_ok ws -> nbits < 2 ^ 63 -> len l = nbits ->
  (forall j, wbit ws j = nthb l j) -> nones = countb l ->
  bv_inv (mk_bv ws nbits nones) /\ bv_abs (mk_bv ws nbits nones) = l.
Proof.
  intros Hlen Hok Hsm Hl Hb Hn.
  assert (Hc : bv_nbits (mk_bv ws nbits nones) <= 64 * len (bv_words (mk_bv ws nbits nones))).
  { cbn [bv_words bv_nbits]. lia. }
  assert (Habs : bv_abs (mk_bv ws nbits nones) = l).
  { apply nthb_ext.
    - rewrite (len_bv_abs _ Hc). cbn [bv_nbits]. lia.
    - intros j. unfold nthb at 1. rewrite (nthN_bv_abs _ _ Hc). cbn [bv_words bv_nbits].
      destruct (N.ltb_spec j nbits); [apply Hb|]. symmetry. apply nthb_out. lia. }
  split; [|exact Habs].
  unfold bv_inv. rewrite Habs. cbn [bv_words bv_nbits bv_nones].
  split; [exact Hlen|]. split; [exact Hok|]. split; [|split; assumption].
  intros j Hj Hj2. rewrite nthN_flat.
  destruct (N.ltb_spec j (64 * len ws)); [|lia]. rewrite Hb, nthb_out by lia. reflexivity.
Qed.

Theorem bv_inv_empty : bv_inv bv_empty /\ bv_abs bv_empty = [].
Proof.
  unfold bv_empty. apply build_state; try reflexivity. constructor.
Qed.

Lemma bvm_push_spec b bit : bv_inv b -> bv_nbits b + 1 < 2 ^ 63 ->
  exists b', bvm_push b bit = Val b' /\ bv_inv b' /\ bv_abs b' = bv_abs b ++ [bit].
Proof.
  intros Hinv Hsm.
  pose proof (inv_words_len b Hinv) as Hlen. pose proof (inv_words_ok b Hinv) as Hok.
  pose proof (inv_wbit b Hinv) as Hb. pose proof (inv_len b Hinv) as Hl.
  unfold bvm_push. rewrite BV_PUSH_MOD_val.
  set (nb := bv_nbits b) in *. set (ws := bv_words b) in *.
  (* a new line of zeros when the last one is full *)
  set (ws1 := if nb mod 512 =? 0 then ws ++ repeat 0 8 else ws).
  assert (Hlen1 : len ws1 = 8 * (nb / 512 + 1)).
  { subst ws1. destruct (N.eqb_spec (nb mod 512) 0); [rewrite len_app, len_repeat|]; lia. }
  assert (Hok1 : words_ok ws1).
  { subst ws1. destruct (nb mod 512 =? 0); [|exact Hok].
    apply Forall_app. split; [exact Hok|]. apply Forall_repeat, word_ok_0. }
  assert (Hb1 : forall j, wbit ws1 j = wbit ws j).
  { intros j. subst ws1. destruct (nb mod 512 =? 0); [apply wbit_app_zeros|reflexivity]. }
  clearbody ws1.
  (* position nb is in the last line *)
  assert (Hws2 : exists ws2,
            (if bit then if len ws1 =? 0 then Val ws1 else bvl_set_symbol ws1 (len ws1 / 8 - 1) 1 (nb mod 512)
             else Val ws1) = Val ws2 /\ len ws2 = len ws1 /\ words_ok ws2 /\
            forall j, wbit ws2 j = if j =? nb then bit else wbit ws j).
  { destruct bit.
    - destruct (N.eqb_spec (len ws1) 0); [lia|]. replace (len ws1 / 8 - 1) with (nb / 512) by lia.
      destruct (bvl_set_symbol_spec ws1 nb 1 Hok1) as (ws2 & E2 & Hl2 & Hok2 & Hb2); [lia|].
      exists ws2. split; [exact E2|]. split; [exact Hl2|]. split; [exact Hok2|].
      intros j. rewrite Hb2, Hb1. reflexivity.
    - exists ws1. split; [reflexivity|]. split; [reflexivity|]. split; [exact Hok1|].
      intros j. rewrite Hb1. destruct (N.eqb_spec j nb) as [->|]; [|reflexivity].
      rewrite Hb. apply nthb_out. lia. }
  destruct Hws2 as (ws2 & -> & Hlen2 & Hok2 & Hb2). cbn [bind].
  rewrite oadd_ok by lia. cbn [bind].
  eexists; split; [reflexivity|]. apply build_state.
  - lia.
  - assumption.
  - assumption.
  - rewrite len_app, len_cons, len_nil. lia.
  - intros j. rewrite Hb2, nthb_app_last, Hb, Hl. reflexivity.
  - rewrite countb_app, (inv_nones b Hinv). cbn [countb]. destruct bit; lia.
Qed.

Lemma resize_words_ge ws n : len ws <= n -> resize_words ws n = ws ++ repeat 0 (N.to_nat (n - len ws)).
Proof.
  intros H. unfold resize_words. destruct (N.leb_spec n (len ws)) as [Hle|Hgt]; [|reflexivity].
  rewrite firstnN_all by assumption. replace (n - len ws) with 0 by lia. cbn [N.to_nat repeat].
  now rewrite app_nil_r.
Qed.

Lemma bvm_extend_with_zeros_spec b n : bv_inv b -> bv_nbits b + n < 2 ^ 63 ->
  exists b', bvm_extend_with_zeros b n = Val b' /\ bv_inv b' /\
             bv_abs b' = bv_abs b ++ repeat false (N.to_nat n).
Proof.
  intros Hinv Hsm.
  pose proof (inv_words_len b Hinv) as Hlen. pose proof (inv_words_ok b Hinv) as Hok.
  pose proof (inv_wbit b Hinv) as Hb. pose proof (inv_len b Hinv) as Hl.
  unfold bvm_extend_with_zeros. rewrite BV_EXT_ROUND_val, BV_EXT_DIV_val.
  rewrite oadd_ok by lia. cbn [bind]. rewrite oadd_ok by lia. cbn [bind]. rewrite resize_words_ge by lia.
  eexists; split; [reflexivity|]. apply build_state.
  - rewrite len_app, len_repeat. lia.
  - apply Forall_app. split; [exact Hok|]. apply Forall_repeat, word_ok_0.
  - assumption.
  - rewrite len_app, len_repeat. lia.
  - intros j. rewrite wbit_app_zeros, nthb_app_false. apply Hb.
  - rewrite countb_app, countb_repeat_false. rewrite (inv_nones b Hinv). lia.
Qed.

Lemma get_bit_abs b i : bv_inv b -> i < bv_nbits b ->
  bv_get_bit_slice (bv_words b) i = Val (nthb (bv_abs b) i).
Proof.
  intros H Hi. pose proof (inv_cap b H). rewrite bv_get_bit_slice_spec by lia. now rewrite (inv_wbit b H).
Qed.

Lemma bvm_set_spec b i bit : bv_inv b -> i < bv_nbits b ->
  exists b', bvm_set b i bit = Val b' /\ bv_inv b' /\ bv_abs b' = setN (bv_abs b) i bit.
Proof.
  intros Hinv Hi.
  pose proof (inv_words_len b Hinv) as Hlen. pose proof (inv_words_ok b Hinv) as Hok.
  pose proof (inv_wbit b Hinv) as Hb. pose proof (inv_len b Hinv) as Hl.
  pose proof (inv_small b Hinv) as Hsm. pose proof (inv_nones b Hinv) as Hn.
  assert (Hcur : nthN (bv_abs b) i = Some (nthb (bv_abs b) i)) by (apply nthN_nthb; lia).
  pose proof (countb_setN _ _ bit _ Hcur) as Hcnt.
  unfold bvm_set. destruct (N.ltb_spec i (bv_nbits b)); [|lia]. cbn [oassert bind].
  unfold bv_get_unchecked. rewrite get_bit_abs by assumption. cbn [bind].
  rewrite BV_SET_SHIFT_val, BV_SET_MASK_val, shiftr9, land511.
  assert (Hones : exists ones,
     (if bit && negb (nthb (bv_abs b) i) then Val (bv_nones b + 1)
      else if negb bit && nthb (bv_abs b) i then osub (bv_nones b) 1 else Val (bv_nones b)) = Val ones /\
     ones = countb (setN (bv_abs b) i bit)).
  { destruct bit, (nthb (bv_abs b) i) eqn:Ec; cbn [andb negb N.b2n] in *.
    - eexists; split; [reflexivity|]. lia.
    - eexists; split; [reflexivity|]. lia.
    - pose proof (countb_nth_pos _ _ Hcur). rewrite osub_ok by lia. eexists; split; [reflexivity|]. lia.
    - eexists; split; [reflexivity|]. lia. }
  destruct Hones as (ones & -> & Hones). cbn [bind].
  destruct (N.ltb_spec (i / 512 * 8) (len (bv_words b))); [|lia]. cbn [bind].
  destruct (bvl_set_symbol_spec (bv_words b) i (if bit then 1 else 0) Hok)
    as (ws2 & E2 & Hl2 & Hok2 & Hb2); [lia|].
  rewrite E2. cbn [bind].
  eexists; split; [reflexivity|]. apply build_state.
  - lia.
  - assumption.
  - assumption.
  - rewrite setN_len. exact Hl.
  - intros j. rewrite Hb2, nthb_setN, Hb, Hl.
    destruct (N.ltb_spec i (bv_nbits b)); [|lia]. rewrite andb_true_r. now destruct bit.
  - exact Hones.
Qed.

Lemma bvm_extend_bools_spec : forall bs b, bv_inv b -> bv_nbits b + len bs < 2 ^ 63 ->
  exists b', bvm_extend_bools b bs = Val b' /\ bv_inv b' /\ bv_abs b' = bv_abs b ++ bs.
Proof.
  induction bs as [|x bs IH]; intros b Hinv Hsm; cbn [bvm_extend_bools].
  - exists b. rewrite app_nil_r. auto.
  - rewrite len_cons in Hsm.
    destruct (bvm_push_spec b x Hinv) as (b1 & E1 & Hinv1 & Habs1); [lia|]. rewrite E1. cbn [bind].
    pose proof (inv_len b Hinv) as Hl. pose proof (inv_len b1 Hinv1) as Hl1.
    rewrite Habs1, len_app, len_cons, len_nil in Hl1.
    destruct (IH b1 Hinv1) as (b2 & E2 & Hinv2 & Habs2); [lia|].
    exists b2. split; [exact E2|]. split; [exact Hinv2|]. rewrite Habs2, Habs1, <- app_assoc. reflexivity.
Qed.

Lemma bvm_append_loop_bools bits : forall fuel b i,
  bvm_append_loop b bits i fuel = bvm_extend_bools b (map (N.testbit bits) (seqN i fuel)).
Proof.
  induction fuel as [|fuel IH]; intros b i; cbn [bvm_append_loop seqN map bvm_extend_bools]; [reflexivity|].
  rewrite land1_shiftr_testbit. destruct (bvm_push b (N.testbit bits i)); cbn [bind]; [apply IH|reflexivity].
Qed.

(* the assertion `len == 64 || bits >> len == 0` followed by `len <= 64` *)
Lemma bits_assert_ok n bits : n <= 64 -> bits < 2 ^ n ->
  (n =? 64) || ((if n <? 64 then N.shiftr bits n else 1) =? 0) = true.
Proof.
  intros Hn Hb. destruct (N.eqb_spec n 64); [reflexivity|]. cbn [orb].
  destruct (N.ltb_spec n 64); [|lia]. rewrite N.shiftr_div_pow2, N.div_small by assumption. reflexivity.
Qed.
Lemma bits_assert_fail n bits : bits < 2 ^ 64 -> (n <=? 64) && (bits <? 2 ^ n) = false ->
  (n =? 64) || ((if n <? 64 then N.shiftr bits n else 1) =? 0) = false.
Proof.
  intros Ht H. destruct (N.eqb_spec n 64) as [->|Hne].
  - destruct (N.ltb_spec bits (2 ^ 64)); [discriminate H|lia].
  - cbn [orb]. destruct (N.ltb_spec n 64) as [Hlt|Hge].
    + destruct (N.leb_spec n 64); [|lia]. cbn [andb] in H.
      destruct (N.ltb_spec bits (2 ^ n)) as [|Hge]; [discriminate H|].
      rewrite N.shiftr_div_pow2. pose proof (pow2_pos n).
      assert (1 <= bits / 2 ^ n). { apply N.div_le_lower_bound; lia. }
      destruct (N.eqb_spec (bits / 2 ^ n) 0); [lia|reflexivity].
    + reflexivity.
Qed.

Lemma bvm_append_bits_spec b bits n : bv_inv b -> n <= 64 -> bits < 2 ^ n -> bv_nbits b + n < 2 ^ 63 ->
  exists b', bvm_append_bits b bits n = Val b' /\ bv_inv b' /\ bv_abs b' = bv_abs b ++ bools_of n bits.
Proof.
  intros Hinv Hn Hb Hsm. unfold bvm_append_bits. rewrite bits_assert_ok by assumption.
  cbn [oassert bind]. destruct (N.leb_spec n 64); [|lia]. cbn [bind].
  destruct (N.eqb_spec n 0) as [->|Hn0].
  - exists b. unfold bools_of. cbn [N.to_nat seqN map]. rewrite app_nil_r. auto.
  - rewrite bvm_append_loop_bools. apply bvm_extend_bools_spec; [assumption|].
    rewrite len_bools_of. lia.
Qed.

Definition set_bits_list (l : list bool) (i n bits : N) : list bool :=
  firstnN i l ++ bools_of n bits ++ skipnN (i + n) l.

Lemma len_set_bits_list l i n bits : i + n <= len l -> len (set_bits_list l i n bits) = len l.
Proof.
  intros H. unfold set_bits_list. rewrite !len_app, firstnN_len, len_bools_of, len_skipnN. lia.
Qed.
Lemma nthb_set_bits_list l i n bits j : i + n <= len l ->
  nthb (set_bits_list l i n bits) j = if (i <=? j) && (j <? i + n) then N.testbit bits (j - i) else nthb l j.
Proof.
  intros H. unfold nthb, set_bits_list. rewrite !nthN_app, firstnN_len, len_bools_of.
  replace (N.min i (len l)) with i by lia.
  destruct (N.ltb_spec j i) as [Hji|Hji].
  - rewrite nthN_firstnN. destruct (N.ltb_spec j i); [|lia].
    destruct (N.leb_spec i j); [lia|reflexivity].
  - destruct (N.leb_spec i j); [|lia]. cbn [andb].
    destruct (N.ltb_spec (j - i) n), (N.ltb_spec j (i + n)); try lia.
    + rewrite nthN_bools_of. destruct (N.ltb_spec (j - i) n); [reflexivity|lia].
    + rewrite nthN_skipnN. replace (i + n + (j - i - n)) with j by lia. reflexivity.
Qed.

Lemma countb_split l i n : i + n <= len l ->
  countb l = countb (firstnN i l) + countb (firstnN n (skipnN i l)) + countb (skipnN (i + n) l).
Proof.
  intros H. rewrite <- (firstnN_skipnN l i) at 1. rewrite countb_app.
  rewrite <- (firstnN_skipnN (skipnN i l) n) at 1. rewrite countb_app, skipnN_skipnN. lia.
Qed.

Lemma bv_get_bits_slice_abs b i n : bv_inv b -> 1 <= n -> n <= 64 -> i + n <= bv_nbits b ->
  bv_get_bits_slice (bv_words b) i n = Val (bits_value (firstnN n (skipnN i (bv_abs b)))).
Proof.
  intros Hinv H1 H64 Hr. pose proof (inv_cap b Hinv) as Hc. pose proof (inv_len b Hinv) as Hl.
  destruct (bv_get_bits_slice_spec (bv_words b) i n (inv_words_ok b Hinv) H1 H64) as (v & E & Hv & Hb); [lia|].
  rewrite E. f_equal. apply N.bits_inj. intros j.
  rewrite testbit_bits_value, nthN_firstnN, nthN_skipnN.
  destruct (N.ltb_spec j n) as [Hj|Hj].
  - rewrite Hb by assumption. rewrite (inv_wbit b Hinv). reflexivity.
  - now apply (lt_pow2_bits v n).
Qed.

Lemma bvm_set_bits_spec b i n bits : bv_inv b -> i + n <= bv_nbits b -> n <= 64 -> bits < 2 ^ n ->
  exists b', bvm_set_bits b i n bits = Val b' /\ bv_inv b' /\ bv_abs b' = set_bits_list (bv_abs b) i n bits.
Proof.
  intros Hinv Hr Hn Hbits.
  pose proof (inv_words_len b Hinv) as Hlen. pose proof (inv_words_ok b Hinv) as Hok.
  pose proof (inv_wbit b Hinv) as Hb. pose proof (inv_len b Hinv) as Hl.
  pose proof (inv_small b Hinv) as Hsm. pose proof (inv_nones b Hinv) as Hnn.
  unfold bvm_set_bits. rewrite oadd_ok by lia. cbn [bind].
  destruct (N.leb_spec (i + n) (bv_nbits b)); [|lia]. cbn [oassert bind].
  rewrite bits_assert_ok by assumption. cbn [oassert bind].
  destruct (N.leb_spec n 64); [|lia]. cbn [bind].
  destruct (N.eqb_spec n 0) as [->|Hn0].
  - exists b. split; [reflexivity|]. split; [assumption|].
    unfold set_bits_list, bools_of. cbn [N.to_nat seqN map app]. rewrite N.add_0_r.
    now rewrite firstnN_skipnN.
  - rewrite bv_get_bits_slice_abs by (try assumption; lia). cbn [bind].
    rewrite popcount_bits_value.
    assert (Hsplit := countb_split (bv_abs b) i n ltac:(lia)).
    rewrite osub_ok by lia. cbn [bind].
    destruct (bvm_set_bits_loop_spec i bits (N.to_nat n) (bv_words b) 0)
      as (ws2 & E2 & Hl2 & Hok2 & Hb2); [assumption|lia|lia|].
    rewrite E2. cbn [bind]. eexists; split; [reflexivity|]. apply build_state.
    + lia.
    + assumption.
    + assumption.
    + rewrite len_set_bits_list by lia. exact Hl.
    + intros j. rewrite Hb2, nthb_set_bits_list by lia. rewrite Hb.
      rewrite N.add_0_r, Nnat.N2Nat.id. reflexivity.
    + unfold set_bits_list. rewrite !countb_app. rewrite (popcount_bools_of n bits) by assumption. lia.
Qed.

Definition ext_pos_step (l : list bool) (p : N) : list bool :=
  setN (if len l <=? p then l ++ repeat false (N.to_nat (p + 1 - len l)) else l) p true.

Lemma bvm_extend_positions_spec : forall ps b, bv_inv b -> Forall (fun p => p < 2 ^ 63 - 1) ps ->
  exists b', bvm_extend_positions b ps = Val b' /\ bv_inv b' /\ bv_abs b' = fold_left ext_pos_step ps (bv_abs b).
Proof.
  induction ps as [|p ps IH]; intros b Hinv HF; cbn [bvm_extend_positions fold_left].
  - exists b. auto.
  - inversion HF as [|? ? Hp HF']; subst.
    pose proof (inv_len b Hinv) as Hl. pose proof (inv_small b Hinv) as Hsm.
    assert (H1 : exists b1,
      (if bv_nbits b <=? p
       then (let! p1 := oadd 64 p 1 in let! d := osub p1 (bv_nbits b) in bvm_extend_with_zeros b d)
       else Val b) = Val b1 /\ bv_inv b1 /\
      bv_abs b1 = (if len (bv_abs b) <=? p then bv_abs b ++ repeat false (N.to_nat (p + 1 - len (bv_abs b))) else bv_abs b)
      /\ p < bv_nbits b1).
    { rewrite Hl. destruct (N.leb_spec (bv_nbits b) p) as [Hle|Hgt].
      - rewrite oadd_ok by lia. cbn [bind]. rewrite osub_ok by lia. cbn [bind].
        destruct (bvm_extend_with_zeros_spec b (p + 1 - bv_nbits b) Hinv) as (b1 & E1 & Hinv1 & Habs1); [lia|].
        exists b1. split; [exact E1|]. split; [exact Hinv1|]. split; [exact Habs1|].
        rewrite <- (inv_len b1 Hinv1), Habs1, len_app, len_repeat. lia.
      - exists b. auto. }
    destruct H1 as (b1 & -> & Hinv1 & Habs1 & Hp1). cbn [bind].
    destruct (bvm_set_spec b1 p true Hinv1 Hp1) as (b2 & E2 & Hinv2 & Habs2). rewrite E2. cbn [bind].
    destruct (IH b2 Hinv2 HF') as (b3 & E3 & Hinv3 & Habs3).
    exists b3. split; [exact E3|]. split; [exact Hinv3|].
    rewrite Habs3, Habs2, Habs1. reflexivity.
Qed.

Inductive bvop :=
| OPush (bit : bool) | OAppend (bits len : N) | OZeros (n : N) | OSet (i : N) (bit : bool)
| OSetBits (i len bits : N) | OExtBools (bs : list bool) | OExtPos (ps : list N).

Definition bvstep (b : bitvec) (o : bvop) : outcome bitvec :=
  match o with
  | OPush bit => bvm_push b bit
  | OAppend bits n => bvm_append_bits b bits n
  | OZeros n => bvm_extend_with_zeros b n
  | OSet i bit => bvm_set b i bit
  | OSetBits i n bits => bvm_set_bits b i n bits
  | OExtBools bs => bvm_extend_bools b bs
  | OExtPos ps => bvm_extend_positions b ps
  end.

(* documented preconditions, on the abstract list *)
Definition op_pre (l : list bool) (o : bvop) : bool :=
  match o with
  | OPush _ | OExtBools _ => true
  | OAppend bits n => (n <=? 64) && (bits <? 2 ^ n)
  | OZeros _ => true
  | OSet i _ => i <? len l
  | OSetBits i n bits => (i + n <=? len l) && (n <=? 64) && (bits <? 2 ^ n)
  | OExtPos _ => true
  end.

Definition op_spec (l : list bool) (o : bvop) : list bool :=
  match o with
  | OPush bit => l ++ [bit]
  | OAppend bits n => l ++ bools_of n bits              (* the n low bits, LSB first *)
  | OZeros n => l ++ repeat false (N.to_nat n)
  | OSet i bit => setN l i bit
  | OSetBits i n bits => set_bits_list l i n bits        (* firstnN i l ++ bools_of n bits ++ skipnN (i + n) l *)
  | OExtBools bs => l ++ bs
  | OExtPos ps => fold_left ext_pos_step ps l
  end.

(* size guard: nothing can overflow a usize when the vector stays below 2^63 bits *)
Definition op_small (l : list bool) (o : bvop) : Prop :=
  match o with
  | OExtPos ps => Forall (fun p => p < 2 ^ 63 - 1) ps
  | _ => len (op_spec l o) < 2 ^ 63
  end.

(* the integer arguments `bits` are u64 values *)
Definition op_typed (o : bvop) : Prop :=
  match o with
  | OAppend bits _ | OSetBits _ _ bits => bits < 2 ^ 64
  | _ => True
  end.

Theorem bv_step_correct : forall b o, bv_inv b -> op_pre (bv_abs b) o = true -> op_small (bv_abs b) o ->
  exists b', bvstep b o = Val b' /\ bv_inv b' /\ bv_abs b' = op_spec (bv_abs b) o.
Proof.
  intros b o Hinv Hpre Hsm. pose proof (inv_len b Hinv) as Hl.
  destruct o as [bit|bits n|n|i bit|i n bits|bs|ps]; cbn [bvstep op_spec op_pre op_small] in *.
  - rewrite len_app, len_cons, len_nil in Hsm. apply bvm_push_spec; [assumption|lia].
  - rewrite len_app, len_bools_of in Hsm.
    apply bvm_append_bits_spec; try assumption; lia.
  - rewrite len_app, len_repeat in Hsm. apply bvm_extend_with_zeros_spec; [assumption|lia].
  - apply bvm_set_spec; [assumption|lia].
  - apply bvm_set_bits_spec; try assumption; lia.
  - rewrite len_app in Hsm. apply bvm_extend_bools_spec; [assumption|lia].
  - apply bvm_extend_positions_spec; assumption.
Qed.

(* the documented panics are exactly the violated preconditions *)
Theorem bv_step_panics : forall b o, bv_inv b -> op_typed o -> op_pre (bv_abs b) o = false ->
  exists f, bvstep b o = Fault f.
Proof.
  intros b o Hinv Hty Hpre. pose proof (inv_len b Hinv) as Hl.
  destruct o as [bit|bits n|n|i bit|i n bits|bs|ps]; cbn [bvstep op_pre op_typed] in *; try discriminate Hpre.
  - unfold bvm_append_bits. rewrite bits_assert_fail by assumption. cbn [oassert bind]. eauto.
  - unfold bvm_set. rewrite Hl in Hpre. rewrite Hpre. cbn [oassert bind]. eauto.
  - unfold bvm_set_bits. unfold oadd. destruct (N.ltb_spec (i + n) (2 ^ 64)); cbn [bind]; [|eauto].
    rewrite Hl in Hpre. destruct (N.leb_spec (i + n) (bv_nbits b)); cbn [oassert bind]; [|eauto].
    cbn [andb] in Hpre. rewrite bits_assert_fail by assumption. cbn [oassert bind]. eauto.
Qed.

Fixpoint bvrun (b : bitvec) (h : list bvop) : outcome bitvec :=
  match h with [] => Val b | o :: r => let! b' := bvstep b o in bvrun b' r end.
Fixpoint hist_ok (l : list bool) (h : list bvop) : Prop :=
  match h with [] => True | o :: r => op_pre l o = true /\ op_small l o /\ hist_ok (op_spec l o) r end.

Lemma bv_history_from : forall h b, bv_inv b -> hist_ok (bv_abs b) h ->
  exists b', bvrun b h = Val b' /\ bv_inv b' /\ bv_abs b' = fold_left op_spec h (bv_abs b).
Proof.
  induction h as [|o h IH]; intros b Hinv Hok; cbn [bvrun fold_left].
  - exists b. auto.
  - destruct Hok as (Hpre & Hsm & Hok).
    destruct (bv_step_correct b o Hinv Hpre Hsm) as (b1 & E1 & Hinv1 & Habs1). rewrite E1. cbn [bind].
    rewrite <- Habs1 in Hok |- *. now apply IH.
Qed.

(* every reachable state *)
Theorem bv_history_correct : forall h, hist_ok [] h ->
  exists b, bvrun bv_empty h = Val b /\ bv_inv b /\ bv_abs b = fold_left op_spec h [].
Proof.
  intros h Hok. destruct bv_inv_empty as [Hinv Habs]. rewrite <- Habs in Hok |- *.
  now apply bv_history_from.
Qed.

Theorem bv_len_correct : forall b, bv_inv b -> bv_len b = len (bv_abs b).
Proof. intros b H. unfold bv_len. now rewrite inv_len. Qed.

Theorem bv_is_empty_correct : forall b, bv_inv b -> bv_is_empty b = (len (bv_abs b) =? 0).
Proof. intros b H. unfold bv_is_empty. now rewrite inv_len. Qed.

Theorem bv_count_correct : forall b, bv_inv b ->
  bv_count_ones b = countb (bv_abs b) /\ bv_count_zeros b = Val (len (bv_abs b) - countb (bv_abs b)).
Proof.
  intros b H. unfold bv_count_ones, bv_count_zeros. rewrite (inv_nones b H), <- (inv_len b H).
  split; [reflexivity|]. apply osub_ok, countb_le_len.
Qed.

Theorem bv_get_correct : forall b i, bv_inv b -> bv_get b i = Val (nthN (bv_abs b) i).
Proof.
  intros b i H. pose proof (inv_len b H) as Hl.
  unfold bv_get, bv_get_unchecked. destruct (N.leb_spec (bv_nbits b) i) as [Hi|Hi].
  - now rewrite nthN_none by lia.
  - rewrite get_bit_abs by assumption. cbn [bind]. now rewrite nthN_nthb by lia.
Qed.

(* multi-bit read: value = sum of bit_(i+j) * 2^j.  Immutable vector (strict = false): Some iff
   1 <= n <= 64 and i + n <= length; mutable vector (strict = true), as the code has it:
   Some iff 1 <= n <= 64 and i + n < length.  For all i, n (also those overflowing a usize). *)
Theorem bv_get_bits_correct : forall strict b i n, bv_inv b ->
  bv_get_bits strict b i n =
  Val (if (1 <=? n) && (n <=? 64) && (if strict then i + n <? len (bv_abs b) else i + n <=? len (bv_abs b))
       then Some (bits_value (firstnN n (skipnN i (bv_abs b)))) else None).
Proof.
  intros strict b i n H. pose proof (inv_len b H) as Hl. pose proof (inv_small b H) as Hsm.
  unfold bv_get_bits. rewrite Hl.
  destruct (N.eqb_spec n 0) as [->|Hn0]; cbn [orb].
  { destruct (N.leb_spec 1 0); [lia|reflexivity]. }
  destruct (N.leb_spec 1 n); [|lia]. cbn [andb].
  destruct (N.ltb_spec 64 n) as [H64|H64]; cbn [orb].
  { destruct (N.leb_spec n 64); [lia|reflexivity]. }
  destruct (N.leb_spec n 64); [|lia]. cbn [andb].
  destruct (N.ltb_spec (i + n) (2 ^ 64)) as [Hov|Hov].
  - destruct strict.
    + destruct (N.leb_spec (bv_nbits b) (i + n)), (N.ltb_spec (i + n) (bv_nbits b)); try lia; [reflexivity|].
      rewrite bv_get_bits_slice_abs by (try assumption; lia). reflexivity.
    + destruct (N.ltb_spec (bv_nbits b) (i + n)), (N.leb_spec (i + n) (bv_nbits b)); try lia; [reflexivity|].
      rewrite bv_get_bits_slice_abs by (try assumption; lia). reflexivity.
  - destruct strict.
    + destruct (N.ltb_spec (i + n) (bv_nbits b)); [lia|reflexivity].
    + destruct (N.leb_spec (i + n) (bv_nbits b)); [lia|reflexivity].
Qed.

(* whole-word read with zero padding after the last bit; panics exactly when the word index
   is outside the allocated lines *)
Theorem bv_get_word_correct : forall b w, bv_inv b ->
  bv_get_word b w = if w <? 8 * ((len (bv_abs b) + 511) / 512)
                    then Val (bits_value (firstnN 64 (skipnN (64 * w) (bv_abs b)))) else Fault Panic.
Proof.
  intros b w H. rewrite (inv_len b H), <- (inv_words_len b H). unfold bv_get_word, idx.
  destruct (N.ltb_spec w (len (bv_words b))) as [Hw|Hw].
  - destruct (nthN_lt_some _ _ Hw) as (x & Ex). rewrite Ex. f_equal.
    assert (Hx : word_ok x) by apply (Forall_nthN _ _ _ _ (inv_words_ok b H) Ex).
    apply N.bits_inj. intros j. rewrite testbit_bits_value, nthN_firstnN, nthN_skipnN.
    destruct (N.ltb_spec j 64) as [Hj|Hj].
    + fold (nthb (bv_abs b) (64 * w + j)). rewrite <- (inv_wbit b H). symmetry. now apply wbit_word.
    + now apply (lt_pow2_bits x 64).
  - now rewrite nthN_none.
Qed.

Theorem bvit_correct : forall b i, bv_inv b ->
  bvit_next b i = Val (nthN (bv_abs b) i, if i <? len (bv_abs b) then i + 1 else i) /\
  (i <= len (bv_abs b) -> bvit_len b i = Val (len (bv_abs b) - i)).
Proof.
  intros b i H. pose proof (inv_len b H) as Hl. rewrite Hl. split.
  - unfold bvit_next. destruct (N.ltb_spec i (bv_nbits b)) as [Hi|Hi].
    + rewrite get_bit_abs by assumption. cbn [bind]. now rewrite nthN_nthb by lia.
    + now rewrite nthN_none by lia.
  - apply osub_ok.
Qed.

Theorem bvinto_correct : forall b i, bv_inv b ->
  bvinto_next b i = Val (nthN (bv_abs b) i, if i <? len (bv_abs b) then i + 1 else i).
Proof.
  intros b i H. unfold bvinto_next. rewrite (bv_get_correct b i H). cbn [bind].
  destruct (N.ltb_spec i (len (bv_abs b))) as [Hi|Hi].
  - destruct (nthN_lt_some _ _ Hi) as (x & ->). reflexivity.
  - now rewrite nthN_none.
Qed.

(* extensionality: the derived PartialEq compares the record fields *)
Theorem bv_ext : forall b1 b2, bv_inv b1 -> bv_inv b2 -> bv_abs b1 = bv_abs b2 -> b1 = b2.
Proof.
  intros b1 b2 H1 H2 E.
  assert (En : bv_nbits b1 = bv_nbits b2) by (rewrite <- (inv_len b1 H1), <- (inv_len b2 H2); now rewrite E).
  assert (Ew : bv_words b1 = bv_words b2).
  { apply words_ext; try apply inv_words_ok; try assumption.
    - rewrite (inv_words_len b1 H1), (inv_words_len b2 H2), En. reflexivity.
    - intros j. rewrite (inv_wbit b1 H1), (inv_wbit b2 H2), E. reflexivity. }
  assert (Eo : bv_nones b1 = bv_nones b2) by (rewrite (inv_nones b1 H1), (inv_nones b2 H2); now rewrite E).
  destruct b1 as [w1 n1 o1], b2 as [w2 n2 o2]. cbn [bv_words bv_nbits bv_nones] in *. now subst.
Qed.

Theorem bv_from_bools_correct : forall bs, len bs < 2 ^ 63 ->
  exists b, bv_from_bools bs = Val b /\ bv_inv b /\ bv_abs b = bs.
Proof.
  intros bs H. apply (bvm_extend_bools_spec bs bv_empty (proj1 bv_inv_empty)). exact H.
Qed.

Theorem bv_from_positions_correct : forall ps, Forall (fun p => p < 2 ^ 63 - 1) ps ->
  exists b, bv_from_positions ps = Val b /\ bv_inv b /\ bv_abs b = op_spec [] (OExtPos ps).
Proof.
  intros ps H. exact (bvm_extend_positions_spec ps bv_empty (proj1 bv_inv_empty) H).
Qed.

Theorem bvm_with_zeros_correct : forall n, n < 2 ^ 63 ->
  exists b, bvm_with_zeros n = Val b /\ bv_inv b /\ bv_abs b = repeat false (N.to_nat n).
Proof.
  intros n H. apply (bvm_extend_with_zeros_spec bv_empty n (proj1 bv_inv_empty)). exact H.
Qed.

Definition positions_from (bit : bool) (l : list bool) (pos : N) : list N :=
  filter (fun p => (pos <=? p) && Bool.eqb (nthb l p) bit) (seqN 0 (length l)).

Lemma ebit_abs bit b q : bv_inv b -> q < bv_nbits b ->
  ebit bit (bv_words b) q = Bool.eqb (nthb (bv_abs b) q) bit.
Proof.
  intros H Hq. pose proof (inv_cap b H). rewrite ebit_wbit by apply (inv_words_ok b H).
  destruct (N.ltb_spec q (64 * len (bv_words b))); [|lia]. cbn [andb]. now rewrite (inv_wbit b H).
Qed.

Lemma pi_collect_spec bit b : bv_inv b -> forall fuel st, pi_ok bit (bv_words b) st ->
  bv_nbits b - pi_cur_position st < N.of_nat fuel ->
  pi_collect bit b st fuel = positions_from bit (bv_abs b) (pi_cur_position st).
Proof.
  intros Hinv. pose proof (inv_len b Hinv) as Hl. pose proof (inv_words_ok b Hinv) as Hok.
  induction fuel as [|fuel IH]; intros st Hst Hfuel; [lia|].
  cbn [pi_collect]. pose proof (pi_next_spec bit b st Hok Hst) as Hn.
  destruct (pi_next bit b st) as [[p|] st'].
  - destruct Hn as (H1 & H2 & H3 & H4 & H5 & H6). rewrite IH by (try assumption; lia). rewrite H6.
    unfold positions_from. symmetry. apply filter_seqN_first.
    + lia.
    + fold (len (bv_abs b)). lia.
    + rewrite <- ebit_abs, H3 by assumption. destruct (N.leb_spec (pi_cur_position st) p); [reflexivity|lia].
    + intros q Hq1 Hq2. destruct (N.leb_spec (pi_cur_position st) q); [|reflexivity]. cbn [andb].
      rewrite <- ebit_abs by (try assumption; lia). apply H4; assumption.
    + intros q Hq. destruct (N.leb_spec (p + 1) q), (N.leb_spec (pi_cur_position st) q); try lia. reflexivity.
    + intros q Hq. destruct (N.leb_spec (p + 1) q); [lia|reflexivity].
  - unfold positions_from. symmetry. apply filter_seqN_none. intros q Hq1 Hq2.
    fold (len (bv_abs b)) in Hq2. destruct (N.leb_spec (pi_cur_position st) q); [|reflexivity]. cbn [andb].
    rewrite <- ebit_abs by (try assumption; lia). apply Hn; lia.
Qed.

(* iteration from any position (also past the end), and from the start *)
Theorem pi_collect_correct : forall bit b pos fuel, bv_inv b -> len (bv_abs b) < N.of_nat fuel ->
  pi_collect bit b (pi_with_pos bit b pos) fuel = positions_from bit (bv_abs b) pos /\
  pi_collect bit b pi_new fuel = positions_from bit (bv_abs b) 0.
Proof.
  intros bit b pos fuel H Hf. rewrite (inv_len b H) in Hf. split.
  - rewrite pi_collect_spec; [reflexivity|assumption|apply pi_ok_with_pos, (inv_words_ok b H)|].
    cbn [pi_with_pos pi_cur_position]. lia.
  - rewrite pi_collect_spec; [reflexivity|assumption|apply pi_ok_new|].
    cbn [pi_new pi_cur_position]. lia.
Qed.

(* once pi_next has returned None it returns None forever (from every iterator state) *)
Theorem pi_next_none_forever : forall bit b st st',
  pi_next bit b st = (None, st') -> pi_next bit b st' = (None, st').
Proof. exact pi_next_none_stable. Qed.

(* [positions_from] is what its name says: exactly the positions p >= pos holding [bit], in
   strictly increasing order *)
Lemma positions_from_In bit l pos p :
  In p (positions_from bit l pos) <-> pos <= p /\ nthN l p = Some bit.
Proof.
  unfold positions_from. rewrite filter_In. split.
  - intros (Hin & Hc). apply in_seqN in Hin. fold (len l) in Hin.
    apply andb_true_iff in Hc. destruct Hc as (Hc1 & Hc2). apply N.leb_le in Hc1. split; [assumption|].
    rewrite nthN_nthb by lia. f_equal. now apply Bool.eqb_prop.
  - intros (Hp & Hn). pose proof (nthN_some_lt _ _ _ Hn) as Hlt. split.
    + apply in_seqN. unfold len in Hlt. lia.
    + apply andb_true_iff. split; [now apply N.leb_le|]. unfold nthb. rewrite Hn. apply Bool.eqb_reflx.
Qed.

Lemma filter_seqN_sorted (g : N -> bool) : forall n s, Sorted.StronglySorted N.lt (filter g (seqN s n)).
Proof.
  induction n as [|n IH]; intros s; cbn [seqN filter]; [constructor|].
  destruct (g s); [|apply IH]. constructor; [apply IH|].
  apply Forall_forall. intros a Ha. apply filter_In in Ha. destruct Ha as (Ha & _).
  apply in_seqN in Ha. lia.
Qed.
Lemma positions_from_sorted bit l pos : Sorted.StronglySorted N.lt (positions_from bit l pos).
Proof. apply filter_seqN_sorted. Qed.

(* the unchecked readers, inside their contract *)
Theorem bv_get_unchecked_correct : forall b i, bv_inv b -> i < len (bv_abs b) ->
  bv_get_unchecked b i = Val (nthb (bv_abs b) i).
Proof.
  intros b i H Hi. rewrite (inv_len b H) in Hi. now apply get_bit_abs.
Qed.
Theorem bv_get_bits_unchecked_correct : forall b i n, bv_inv b -> 1 <= n -> n <= 64 -> i + n <= len (bv_abs b) ->
  bv_get_bits_unchecked b i n = Val (bits_value (firstnN n (skipnN i (bv_abs b)))).
Proof.
  intros b i n H H1 H2 H3. rewrite (inv_len b H) in H3. now apply bv_get_bits_slice_abs.
Qed.

(* non-vacuity: a run of 8 operations; the appended byte crosses the word boundary at 64, the extension crosses the
   line boundary at 512, set_bits straddles words 0/1, the last operation allocates a new line *)
Definition ex_hist : list bvop :=
  [OZeros 60; OAppend 171 8; OZeros 440; OExtBools [true; true; false; true; true; true];
   OPush true; OSet 3 true; OSetBits 62 4 9; OExtPos [600; 2]].

Example ex_hist_ok : hist_ok [] ex_hist.
Proof. cbn [ex_hist hist_ok]. repeat split. cbn [op_small]. repeat constructor. Qed.

Example ex_run :
  match bvrun bv_empty ex_hist with
  | Val b =>
      bv_abs b = fold_left op_spec ex_hist [] /\
      bv_len b = 601 /\ bv_count_ones b = 14 /\ bv_count_zeros b = Val 587 /\ len (bv_words b) = 16 /\
      bv_get b 600 = Val (Some true) /\ bv_get b 601 = Val None /\ bv_get b 63 = Val (Some false) /\
      bv_get_bits false b 60 8 = Val (Some 167) /\ bv_get_bits true b 508 7 = Val (Some 123) /\
      bv_get_bits true b 593 8 = Val None /\ bv_get_bits false b 593 8 = Val (Some 128) /\
      bv_get_word b 1 = Val 10 /\ bv_get_word b 9 = Val 16777216 /\ bv_get_word b 16 = Fault Panic /\
      pi_collect true b pi_new 700 = [2; 3; 60; 61; 62; 65; 67; 508; 509; 511; 512; 513; 514; 600] /\
      pi_collect true b (pi_with_pos true b 64) 700 = [65; 67; 508; 509; 511; 512; 513; 514; 600] /\
      firstn 6 (pi_collect false b (pi_with_pos false b 58) 700) = [58; 59; 63; 64; 66; 68] /\
      positions_from true (bv_abs b) 0 = [2; 3; 60; 61; 62; 65; 67; 508; 509; 511; 512; 513; 514; 600]
  | Fault _ => False
  end.
Proof. vm_compute. repeat split. Qed.

Print Assumptions bv_inv_empty.
Print Assumptions bv_step_correct.
Print Assumptions bv_step_panics.
Print Assumptions bv_history_correct.
Print Assumptions bv_len_correct.
Print Assumptions bv_is_empty_correct.
Print Assumptions bv_count_correct.
Print Assumptions bv_get_correct.
Print Assumptions bv_get_bits_correct.
Print Assumptions bv_get_word_correct.
Print Assumptions pi_collect_correct.
Print Assumptions pi_next_none_forever.
Print Assumptions positions_from_In.
Print Assumptions positions_from_sorted.
Print Assumptions bv_get_unchecked_correct.
Print Assumptions bv_get_bits_unchecked_correct.
Print Assumptions bvit_correct.
Print Assumptions bvinto_correct.
Print Assumptions bv_ext.
Print Assumptions bv_from_bools_correct.
Print Assumptions bv_from_positions_correct.
Print Assumptions bvm_with_zeros_correct.
Print Assumptions ex_hist_ok.
Print Assumptions ex_run.
