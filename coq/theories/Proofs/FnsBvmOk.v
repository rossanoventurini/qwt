(* T5 (BitVectorMut, the growable bit vector, and the remaining BitVector accessors): the definitions REGENERATED
   from src/bitvector/mod.rs (Gen/FnsBvm.v, Gen/FnsBv.v, tools/gen_fns.py) agree with the hand model
   (Model/BitVec.v), and, composed with the C08 theorems (Proofs/BitVecP.v), the regenerated operations and
   observers behave as the list specification under every history.

   State correspondence.  A `&mut self` method is translated to a function of the three fields returning their
   new values; the field `data: Vec<DataLine>` is a list of lines of 8 words, the hand model keeps the flat
   word list.  For a hand state b
        fields b = (chunks 8 (bv_words b), bv_nbits b, bv_nones b)
   and b has whole lines when  len (bv_words b) mod 8 = 0  (then concat (chunks 8 ws) = ws and every chunk has
   8 words; conversely a list of 8-word lines is the chunks of its concatenation: [from_chunks], [to_chunks]).
   The observers are proved EQUAL to the hand ones; a `&mut self` operation g_op is SIMULATED:
        hand_op b args = Val b'  ->  g_op applied to the fields of b = Val (fields b'),
   under "whole lines" and the few bounds that keep the checked counters of the generated code from overflowing
   (all of which follow from the invariant bv_inv of Proofs/BitVecP.v). *)
From Coq Require Import ZArith Lia.
From QwtModel Require Import ListX Loops Consts Words BitVec ListXP NBits OutcomeP BitsLib FnsBv FnsBvm LeavesLib BitVecW BitVecP
  FnsBvOk.
Open Scope N_scope.

Definition lines8 (data : list (list N)) : Prop := Forall (fun l => len l = 8) data.
Definition zline : list N := [0; 0; 0; 0; 0; 0; 0; 0].

Lemma chunks_aux_concat : forall (data : list (list N)) fuel, lines8 data ->
  (length (concat data) <= fuel)%nat -> chunks_aux 8 (concat data) fuel = data.
Proof.
  induction data as [|l data IH]; intros fuel HL Hf.
  - destruct fuel; reflexivity.
  - inversion HL as [|? ? Hl HL']; subst. cbn [concat] in *.
    assert (Hl8 : length l = 8%nat) by (unfold len in Hl; lia).
    rewrite app_length in Hf.
    destruct fuel as [|fuel]; [lia|]. cbn [chunks_aux].
    destruct l as [|a l']; [discriminate Hl8|]. cbn [app].
    change (a :: l' ++ concat data) with ((a :: l') ++ concat data).
    rewrite <- (firstnN_firstn _ 8), <- (skipnN_skipn _ 8), <- Hl, firstnN_app_exact, skipnN_app_exact. f_equal.
    apply IH; [assumption|]. lia.
Qed.

Lemma from_chunks ws : len ws mod 8 = 0 -> exists data, chunks 8 ws = data /\ lines8 data /\ ws = concat data.
Proof.
  intros H. exists (chunks 8 ws). split; [reflexivity|]. split; [now apply chunks_lines8|].
  symmetry. apply concat_chunks8.
Qed.

Lemma to_chunks data : lines8 data -> chunks 8 (concat data) = data /\ len (concat data) mod 8 = 0.
Proof.
  intros HL. split; [apply chunks_aux_concat; [assumption|lia]|].
  rewrite (len_concat_uniform 8) by assumption. lia.
Qed.

Lemma nthN_concat8 data line k : lines8 data -> k < 8 ->
  nthN (concat data) (line * 8 + k) = match nthN data line with Some l => nthN l k | None => None end.
Proof.
  intros HL Hk. rewrite (nthN_concat_uniform 8 data) by (try assumption; lia).
  replace ((line * 8 + k) / 8) with line by lia. replace ((line * 8 + k) mod 8) with k by lia. reflexivity.
Qed.

Lemma setN_concat8 : forall data line l k v, lines8 data -> nthN data line = Some l -> k < 8 ->
  setN (concat data) (line * 8 + k) v = concat (setN data line (setN l k v)).
Proof.
  induction data as [|x data IH]; intros line l k v HL El Hk; [discriminate El|].
  inversion HL as [|? ? Hx HL']; subst. cbn [nthN] in El. cbn [setN concat].
  destruct (N.eqb_spec line 0) as [->|Hne].
  - injection El as El. subst l. cbn [concat]. replace (0 * 8 + k) with k by lia.
    apply setN_app1. lia.
  - cbn [concat]. rewrite setN_app2 by lia. f_equal.
    replace (line * 8 + k - len x) with (N.pred line * 8 + k) by lia.
    apply IH; assumption.
Qed.

Lemma setN_setN {A} : forall (l : list A) i x y, setN (setN l i x) i y = setN l i y.
Proof.
  intros l i x y. apply nthN_ext. intros j. rewrite !nthN_setN, setN_len.
  now destruct ((j =? i) && (i <? len l)).
Qed.

Definition fields (b : bitvec) : list (list N) * N * N := (chunks 8 (bv_words b), bv_nbits b, bv_nones b).

Lemma shl_small s k : s <= 1 -> k < 64 -> N.shiftl s k mod 2 ^ 64 = N.shiftl s k.
Proof.
  intros Hs Hk. apply N.mod_small. rewrite N.shiftl_mul_pow2.
  assert (2 ^ k < 2 ^ 64) by (apply N.pow_lt_mono_r; lia). nia.
Qed.

Theorem g_bline_set_symbol_sim : forall data line sym i ws',
  lines8 data -> bvl_set_symbol (concat data) line sym i = Val ws' ->
  exists l l', nthN data line = Some l /\ g_bline_set_symbol l sym i = Val l' /\ len l' = 8 /\
               ws' = concat (setN data line l').
Proof.
  intros data line sym i ws' HL E. unfold bvl_set_symbol in E. rewrite BV_LINE_BITS_val in E.
  destruct (N.ltb_spec i 512) as [Hi|]; [|discriminate E]. cbn [oassert bind] in E.
  assert (Hk : N.shiftr i 6 < 8) by (rewrite shiftr6; lia).
  unfold idx in E. rewrite nthN_concat8 in E by assumption.
  destruct (nthN data line) as [l|] eqn:El; [|discriminate E].
  destruct (nthN l (N.shiftr i 6)) as [w|] eqn:Ew; [|discriminate E].
  cbn [bind] in E. apply Val_inj in E. subst ws'.
  pose proof (Forall_nthN _ _ _ _ HL El) as Hl. cbv beta in Hl.
  eexists l, _. split; [reflexivity|]. split; [|split].
  - unfold g_bline_set_symbol. destruct (N.ltb_spec i 512); [|lia]. cbn [oassert bind].
    rewrite !oshl_ok by lia. cbn [bind].
    unfold idx. rewrite Ew. cbn [bind]. rewrite nthN_setN_same by (rewrite Hl; exact Hk). cbn [bind].
    rewrite setN_setN. reflexivity.
  - rewrite setN_len. exact Hl.
  - rewrite (shl_small 1) by lia.
    rewrite (shl_small (N.land sym 1)) by (try lia; destruct (land1_cases sym) as [-> | ->]; lia).
    apply setN_concat8; assumption.
Qed.

Theorem g_bvm_len_ok : forall b, g_bvm_len (bv_nbits b) = Val (bv_len b).
Proof. reflexivity. Qed.
Theorem g_bvm_is_empty_ok : forall b, g_bvm_is_empty (bv_nbits b) = Val (bv_is_empty b).
Proof. reflexivity. Qed.
Theorem g_bvm_count_ones_ok : forall b, g_bvm_count_ones (bv_nones b) = Val (bv_count_ones b).
Proof. reflexivity. Qed.
Theorem g_bvm_count_zeros_ok : forall b, g_bvm_count_zeros (bv_nbits b) (bv_nones b) = bv_count_zeros b.
Proof. reflexivity. Qed.
Theorem g_bv_count_ones_ok : forall b, g_bv_count_ones (bv_nones b) = Val (bv_count_ones b).
Proof. reflexivity. Qed.
Theorem g_bv_count_zeros_ok : forall b, g_bv_count_zeros (bv_nbits b) (bv_nones b) = bv_count_zeros b.
Proof. reflexivity. Qed.

(* get_unchecked / get of BitVectorMut are those of BitVector word for word *)
Theorem g_bvm_get_unchecked_ok : forall b data index, concat data = bv_words b ->
  g_bvm_get_unchecked data index = bv_get_unchecked b index.
Proof. exact g_bv_get_unchecked_ok. Qed.

Theorem g_bvm_get_ok : forall b data index, concat data = bv_words b ->
  g_bvm_get data (bv_nbits b) index = bv_get b index.
Proof. exact g_bv_get_ok. Qed.

(* get_bits_slice: the generated code checks `shift + len` and `block + 1` at 64 bits *)
Theorem g_get_bits_slice_ok : forall ws index len_, index < 2 ^ 64 -> len_ + 64 <= 2 ^ 64 ->
  g_get_bits_slice ws index len_ = bv_get_bits_slice ws index len_.
Proof.
  intros ws index n Hi Hn. unfold g_get_bits_slice, bv_get_bits_slice. cbv zeta.
  change (2 ^ 64 - 1) with (M64 - 1).
  obind.
  assert (Hs : N.land index 63 < 64) by (rewrite land63; lia).
  rewrite oadd_ok by lia. cbn [bind].
  destruct (N.land index 63 + n <=? 64).
  - obind. rewrite oshr_ok by exact Hs. reflexivity.
  - obind. rewrite oshr_ok by exact Hs. cbn [bind].
    rewrite oadd_ok by (rewrite shiftr6; lia). reflexivity.
Qed.

Theorem g_bv_get_bits_unchecked_ok : forall b data index len_, concat data = bv_words b ->
  index < 2 ^ 64 -> len_ + 64 <= 2 ^ 64 ->
  g_bv_get_bits_unchecked data index len_ = bv_get_bits_unchecked b index len_.
Proof.
  intros b data index n E Hi Hn. unfold g_bv_get_bits_unchecked, bv_get_bits_unchecked. rewrite E.
  now apply g_get_bits_slice_ok.
Qed.
Theorem g_bvm_get_bits_unchecked_ok : forall b data index len_, concat data = bv_words b ->
  index < 2 ^ 64 -> len_ + 64 <= 2 ^ 64 ->
  g_bvm_get_bits_unchecked data index len_ = bv_get_bits_unchecked b index len_.
Proof. exact g_bv_get_bits_unchecked_ok. Qed.

Corollary g_bv_get_bits_unchecked_chunks : forall b index len_, index < 2 ^ 64 -> len_ + 64 <= 2 ^ 64 ->
  g_bv_get_bits_unchecked (chunks 8 (bv_words b)) index len_ = bv_get_bits_unchecked b index len_.
Proof. intros. apply g_bv_get_bits_unchecked_ok; try assumption. apply concat_chunks8. Qed.

(* get_bits: unconditional equalities (the guards put index and len in range before the slice is read).  The two
   impls are one text up to the comparison with n_bits: BitVectorMut has `>=` (strict = true, the known finding
   KF-13), BitVector has `>` *)
Lemma get_bits_ok (strict : bool) b data index len_ : concat data = bv_words b ->
  (if (len_ =? 0) || (64 <? len_) ||
      match checked_add 64 index len_ with
      | None => true
      | Some end_ => if strict then bv_nbits b <=? end_ else bv_nbits b <? end_
      end
   then Val None
   else let! t1 := g_get_bits_slice (concat data) index len_ in Val (Some t1)) = bv_get_bits strict b index len_.
Proof.
  intros E. unfold bv_get_bits, checked_add.
  destruct (N.eqb_spec len_ 0) as [->|Hn0]; cbn [orb]; [reflexivity|].
  destruct (N.ltb_spec 64 len_) as [H64|H64]; cbn [orb]; [reflexivity|].
  destruct (N.ltb_spec (index + len_) (2 ^ 64)) as [Hov|Hov]; [|reflexivity].
  destruct (if strict then bv_nbits b <=? index + len_ else bv_nbits b <? index + len_); [reflexivity|].
  rewrite E, g_get_bits_slice_ok by lia. reflexivity.
Qed.
Theorem g_bvm_get_bits_ok : forall b data index len_, concat data = bv_words b ->
  g_bvm_get_bits data (bv_nbits b) index len_ = bv_get_bits true b index len_.
Proof. exact (get_bits_ok true). Qed.
Theorem g_bv_get_bits_ok : forall b data index len_, concat data = bv_words b ->
  g_bv_get_bits data (bv_nbits b) index len_ = bv_get_bits false b index len_.
Proof. exact (get_bits_ok false). Qed.

(* get_word(i) = self.data[i >> 3].words[i % 8] *)
Theorem g_bvm_get_word_ok : forall b i, g_bvm_get_word (chunks 8 (bv_words b)) i = bv_get_word b i.
Proof. intros b i. apply idx_chunks_word. Qed.
Theorem g_bv_get_word_ok : forall b i, len (bv_words b) mod 8 = 0 ->
  g_bv_get_word (chunks 8 (bv_words b)) i = bv_get_word b i.
Proof. intros b i _. apply idx_chunks_word. Qed.

(* n_lines: the number of DataLines (no counterpart in the hand model: the number of words / 8) *)
Theorem g_bv_n_lines_ok : forall b, len (bv_words b) mod 8 = 0 ->
  g_bv_n_lines (chunks 8 (bv_words b)) = Val (len (bv_words b) / 8).
Proof. intros b Hm. unfold g_bv_n_lines. now rewrite len_chunks. Qed.

(* shrink_to_fit changes no field (capacity is not modelled) *)
Theorem g_bvm_shrink_to_fit_ok : forall data n_bits n_ones,
  g_bvm_shrink_to_fit data n_bits n_ones = Val (data, n_bits, n_ones).
Proof. reflexivity. Qed.

(* From a hand state with whole lines, the generated operation applied to the fields returns the fields of the
   hand result, which again has whole lines.  Each proof forgets that the lines are the chunks of the words
   ([from_chunks]), follows the operation on an arbitrary list of 8-word lines whose concatenation is the word
   list, and comes back with [to_chunks]. *)
Notation gstate := (list (list N) * N * N)%type.

(* `if let Some(last) = self.data.last_mut() { last.set_symbol(..) }` *)
Lemma g_set_last_sim data sym i ws' : lines8 data ->
  (if len (concat data) =? 0 then Val (concat data)
   else bvl_set_symbol (concat data) (len (concat data) / 8 - 1) sym i) = Val ws' ->
  exists data', match last_opt data with
                | Some last_ => let! e_ := g_bline_set_symbol last_ sym i in Val (set_last data e_)
                | None => Val data
                end = Val data' /\ lines8 data' /\ ws' = concat data'.
Proof.
  intros HL E. induction data as [|x d _] using rev_ind.
  - apply Val_inj in E. subst ws'. exists []. auto.
  - rewrite (len_concat_uniform 8), len_app, len_cons, len_nil in E by assumption.
    destruct (N.eqb_spec (8 * (len d + (0 + 1))) 0); [lia|].
    replace (8 * (len d + (0 + 1)) / 8 - 1) with (len d) in E by lia.
    destruct (g_bline_set_symbol_sim _ _ _ _ _ HL E) as (l & l' & El & Eg & Hl' & ->).
    rewrite nthN_app2, N.sub_diag, nthN_0 in El by lia. injection El as <-.
    rewrite last_opt_app, Eg. cbn [bind]. rewrite set_last_app, setN_app2, N.sub_diag by lia.
    exists (d ++ [l']). split; [reflexivity|]. split; [|reflexivity].
    apply Forall_app in HL. apply Forall_app. split; [apply HL|]. now constructor.
Qed.

Theorem g_bvm_push_sim : forall b bit b', len (bv_words b) mod 8 = 0 -> bv_nones b <= bv_nbits b ->
  bvm_push b bit = Val b' ->
  g_bvm_push (chunks 8 (bv_words b)) (bv_nbits b) (bv_nones b) bit
    = Val (fields b') /\
  len (bv_words b') mod 8 = 0 /\ bv_nones b' <= bv_nbits b'.
Proof.
  unfold fields. intros b bit b' H8 Hle E. destruct (from_chunks _ H8) as (data & -> & HL & Hw).
  unfold bvm_push in E. rewrite BV_PUSH_MOD_val, Hw in E. unfold g_bvm_push. fold zline. cbv zeta.
  (* a new line when the last one is full *)
  set (data1 := if bv_nbits b mod 512 =? 0 then data ++ [zline] else data).
  assert (H1 : lines8 data1 /\
               (if bv_nbits b mod 512 =? 0 then concat data ++ repeat 0 8 else concat data) = concat data1 /\
               (if bv_nbits b mod 512 =? 0 then Val (data ++ [zline]) else Val data) = Val data1).
  { subst data1. destruct (bv_nbits b mod 512 =? 0); [|auto]. rewrite concat_app.
    split; [|auto]. apply Forall_app. split; [assumption|]. now constructor. }
  destruct H1 as (HL1 & Ec & ->). rewrite Ec in E. cbn [bind].
  binv E ws2 E2. binv E nb En. apply Val_inj in E. subst b'. cbn [bv_words bv_nbits bv_nones].
  apply oadd_Val_inv in En. destruct En as [-> Hnb].
  destruct bit.
  - destruct (g_set_last_sim _ _ _ _ HL1 E2) as (data2 & -> & HL2 & ->). cbn [bind].
    rewrite !oadd_ok by lia. cbn [bind].
    destruct (to_chunks _ HL2) as [-> H8']. split; [reflexivity|]. split; [assumption|lia].
  - apply Val_inj in E2. subst ws2. cbn [bind]. rewrite oadd_ok by lia. cbn [bind].
    destruct (to_chunks _ HL1) as [-> H8']. split; [reflexivity|]. split; [assumption|lia].
Qed.

(* `assert!(len == 64 || (bits >> len) == 0)`: the generated right operand is a checked shift *)
Lemma g_bits_assert n bits :
  (if N.eqb n 64 then Val true else let! t1 := oshr 64 bits n in Val (N.eqb t1 0)) =
  if n <=? 64 then Val ((n =? 64) || ((if n <? 64 then N.shiftr bits n else 1) =? 0)) else Fault Overflow.
Proof.
  destruct (N.eqb_spec n 64) as [->|Hne]; [reflexivity|]. unfold oshr.
  destruct (N.ltb_spec n 64), (N.leb_spec n 64); try lia; reflexivity.
Qed.

Lemma g_append_loop_sim bits : forall fuel b i b',
  len (bv_words b) mod 8 = 0 -> bv_nones b <= bv_nbits b -> i + N.of_nat fuel <= 64 ->
  bvm_append_loop b bits i fuel = Val b' ->
  for_loop (R := gstate) (fun i '(data, n_bits, n_ones) =>
      let! t3 := oshr 64 bits i in
      let! (data, n_bits, n_ones) := g_bvm_push data n_bits n_ones (N.eqb (N.land t3 1) 1) in
      Val (Next (data, n_bits, n_ones))) i fuel (fields b) = Val (Done (fields b')) /\
  len (bv_words b') mod 8 = 0 /\ bv_nones b' <= bv_nbits b'.
Proof.
  induction fuel as [|fuel IH]; intros b i b' H8 Hle Hi E; cbn [bvm_append_loop for_loop] in *.
  - apply Val_inj in E. subst b'. auto.
  - binv E b1 E1. unfold fields at 1. cbv beta iota. rewrite oshr_ok by lia. cbn [bind].
    destruct (g_bvm_push_sim _ _ _ H8 Hle E1) as (G1 & H81 & Hle1). rewrite G1. cbn [bind].
    apply IH; try assumption. lia.
Qed.

Theorem g_bvm_append_bits_sim : forall b bits n b', len (bv_words b) mod 8 = 0 -> bv_nones b <= bv_nbits b ->
  bvm_append_bits b bits n = Val b' ->
  g_bvm_append_bits (chunks 8 (bv_words b)) (bv_nbits b) (bv_nones b) bits n
    = Val (fields b') /\
  len (bv_words b') mod 8 = 0 /\ bv_nones b' <= bv_nbits b'.
Proof.
  unfold fields. intros b bits n b' H8 Hle E. unfold bvm_append_bits in E.
  binv E u1 A1. apply oassert_Val in A1. binv E u2 A2. apply oassert_Val in A2.
  unfold g_bvm_append_bits. rewrite g_bits_assert, A2, A1. cbn [oassert bind].
  destruct (N.eqb_spec n 0) as [Hn0|Hn0].
  - apply Val_inj in E. subst b'. auto.
  - rewrite N.sub_0_r. apply N.leb_le in A2.
    destruct (g_append_loop_sim bits (N.to_nat n) b 0 b') as (G & H8' & Hle'); try assumption; [lia|].
    unfold fields in G. rewrite G. auto.
Qed.

Lemma lines8_firstnN : forall data n, lines8 data -> lines8 (firstnN n data).
Proof.
  induction data as [|x data IH]; intros n HL; cbn [firstnN]; [constructor|].
  inversion HL; subst. destruct (n =? 0); constructor; auto. now apply IH.
Qed.

Lemma firstnN_concat8 data n : lines8 data -> firstnN (n * 8) (concat data) = concat (firstnN n data).
Proof.
  intros HL. apply nthN_ext. intros j. rewrite nthN_firstnN.
  rewrite (nthN_concat_uniform 8 (firstnN n data)) by (try lia; now apply lines8_firstnN).
  rewrite nthN_firstnN. rewrite (nthN_concat_uniform 8 data) by (try lia; assumption).
  destruct (N.ltb_spec j (n * 8)), (N.ltb_spec (j / 8) n); try lia; reflexivity.
Qed.

Lemma concat_repeat_zline k : concat (repeat zline k) = repeat 0 (k * 8).
Proof. induction k as [|k IH]; [reflexivity|]. cbn [repeat concat Nat.mul Nat.add]. rewrite IH. reflexivity. Qed.

Lemma resize_concat8 data n : lines8 data ->
  resize_words (concat data) (n * 8) = concat (resize_with data n zline) /\ lines8 (resize_with data n zline).
Proof.
  intros HL. unfold resize_words, resize_with. rewrite (len_concat_uniform 8) by assumption.
  destruct (N.leb_spec (n * 8) (8 * len data)), (N.leb_spec n (len data)); try lia.
  - split; [now apply firstnN_concat8|now apply lines8_firstnN].
  - split.
    + rewrite concat_app, concat_repeat_zline. f_equal. f_equal. lia.
    + apply Forall_app. split; [assumption|]. apply Forall_repeat. reflexivity.
Qed.

Theorem g_bvm_extend_with_zeros_sim : forall b n b', len (bv_words b) mod 8 = 0 ->
  bvm_extend_with_zeros b n = Val b' ->
  g_bvm_extend_with_zeros (chunks 8 (bv_words b)) (bv_nbits b) (bv_nones b) n
    = Val (fields b') /\
  len (bv_words b') mod 8 = 0.
Proof.
  unfold fields. intros b n b' H8 E. destruct (from_chunks _ H8) as (data & -> & HL & Hw).
  unfold bvm_extend_with_zeros in E. rewrite Hw in E.
  binv E nb En. binv E t Et. apply Val_inj in E. subst b'. cbn [bv_words bv_nbits bv_nones].
  unfold g_bvm_extend_with_zeros. fold zline. rewrite En. cbn [bind].
  change BV_EXT_ROUND with 511 in Et. rewrite Et. cbn [bind]. cbv zeta. change BV_EXT_DIV with 512.
  destruct (resize_concat8 data (t / 512) HL) as [-> HLr]. destruct (to_chunks _ HLr) as [-> H8']. auto.
Qed.

Theorem g_bvm_set_sim : forall b index bit b', len (bv_words b) mod 8 = 0 -> bv_nones b + 1 < 2 ^ 64 ->
  bvm_set b index bit = Val b' ->
  g_bvm_set (chunks 8 (bv_words b)) (bv_nbits b) (bv_nones b) index bit
    = Val (fields b') /\
  len (bv_words b') mod 8 = 0.
Proof.
  unfold fields. intros b index bit b' H8 Hno E. destruct (from_chunks _ H8) as (data & -> & HL & Hw).
  unfold bvm_set in E. cbv zeta in E.
  binv E u1 A1. apply oassert_Val in A1. binv E cur Ecur. binv E ones Eones. binv E u2 Hchk. binv E ws2 Es.
  apply Val_inj in E. subst b'. cbn [bv_words bv_nbits bv_nones].
  change BV_SET_SHIFT with 9 in *. change BV_SET_MASK with 511 in *. rewrite Hw in Es.
  destruct (g_bline_set_symbol_sim _ _ _ _ _ HL Es) as (l & l' & El & Eg & Hl' & ->).
  destruct (to_chunks (setN data (N.shiftr index 9) l')) as [-> H8']; [now apply Forall_setN|].
  split; [|assumption].
  unfold g_bvm_set. rewrite A1. cbn [oassert bind].
  rewrite !(g_bvm_get_unchecked_ok b data index (eq_sym Hw)), Ecur.
  (* the write, whatever the new count *)
  assert (Hw' : forall no : N, (let! t4 := idx data (N.shiftr index 9) in
                            let! t5 := g_bline_set_symbol t4 (if bit then 1 else 0) (N.land index 511) in
                            Val (setN data (N.shiftr index 9) t5, bv_nbits b, no))
                           = Val (setN data (N.shiftr index 9) l', bv_nbits b, no)).
  { intros no. unfold idx. rewrite El. cbn [bind]. rewrite Eg. reflexivity. }
  (* the count: +1 when a 0 becomes 1, -1 when a 1 becomes 0 *)
  destruct bit, cur; cbn [andb negb bind] in *.
  - apply Val_inj in Eones. subst ones. apply Hw'.
  - rewrite oadd_ok by lia. cbn [bind]. apply Val_inj in Eones. subst ones. apply Hw'.
  - rewrite Eones. cbn [bind]. apply Hw'.
  - apply Val_inj in Eones. subst ones. apply Hw'.
Qed.

Lemma g_set_bits_loop_sim index bits : forall fuel data i ws',
  lines8 data -> i + N.of_nat fuel <= 64 -> index + i + N.of_nat fuel <= 2 ^ 64 ->
  bvm_set_bits_loop (concat data) index bits i fuel = Val ws' ->
  exists data', for_loop (R := gstate) (fun i data =>
      let! t5 := oadd 64 index i in
      let t6 := N.shiftr t5 9 in
      let! t7 := idx data t6 in
      let! t8 := oshr 64 bits i in
      let! t9 := oadd 64 index i in
      let! t10 := g_bline_set_symbol t7 (N.land t8 1) (t9 mod 512) in
      let data := setN data t6 t10 in
      Val (Next data)) i fuel data = Val (Done data') /\ lines8 data' /\ ws' = concat data'.
Proof.
  induction fuel as [|fuel IH]; intros data i ws' HL Hi Hr E; cbn [bvm_set_bits_loop for_loop] in *.
  - apply Val_inj in E. subst ws'. exists data. auto.
  - cbv zeta in E. change BV_SETBITS_SHIFT with 9 in E. change BV_SETBITS_MOD with 512 in E.
    binv E u Hc. binv E ws1 E1.
    destruct (g_bline_set_symbol_sim _ _ _ _ _ HL E1) as (l & l' & El & Eg & Hl' & ->).
    rewrite !oadd_ok by lia. cbn [bind]. cbv zeta.
    unfold idx. rewrite El. cbn [bind]. rewrite oshr_ok by lia. cbn [bind]. rewrite Eg. cbn [bind].
    apply (IH _ (i + 1) ws'); [now apply Forall_setN|lia|lia|exact E].
Qed.

Theorem g_bvm_set_bits_sim : forall b index n bits b', len (bv_words b) mod 8 = 0 ->
  bits < 2 ^ 64 -> bv_nones b + 64 < 2 ^ 64 ->
  bvm_set_bits b index n bits = Val b' ->
  g_bvm_set_bits (chunks 8 (bv_words b)) (bv_nbits b) (bv_nones b) index n bits
    = Val (fields b') /\
  len (bv_words b') mod 8 = 0.
Proof.
  unfold fields. intros b index n bits b' H8 Hbits Hno E. destruct (from_chunks _ H8) as (data & -> & HL & Hw).
  unfold bvm_set_bits in E.
  binv E e Ee. binv E u1 A1. apply oassert_Val in A1. binv E u2 A2. apply oassert_Val in A2.
  binv E u3 A3. apply oassert_Val in A3.
  unfold g_bvm_set_bits. rewrite Ee. cbn [bind]. rewrite A1. cbn [oassert bind].
  rewrite g_bits_assert, A3, A2. cbn [oassert bind].
  apply oadd_Val_inv in Ee. destruct Ee as [-> He]. apply N.leb_le in A3.
  destruct (N.eqb_spec n 0) as [Hn0|Hn0].
  - apply Val_inj in E. subst b'. rewrite Hw. destruct (to_chunks _ HL) as [-> H8']. auto.
  - rewrite Hw in E. cbv zeta in E. binv E old Eold. binv E o1 Eo1. binv E ws2 Eloop. apply Val_inj in E. subst b'.
    cbn [bv_words bv_nbits bv_nones].
    unfold g_bvm_get_bits_unchecked. rewrite g_get_bits_slice_ok by lia. rewrite Eold. cbn [bind].
    rewrite Eo1. cbn [bind]. apply osub_Val_inv in Eo1. pose proof (popcount_le_bits 64 bits Hbits).
    rewrite oadd_ok by lia. cbn [bind]. rewrite N.sub_0_r.
    destruct (g_set_bits_loop_sim index bits (N.to_nat n) data 0 ws2) as (data' & G & HL' & ->);
      try assumption; try lia.
    cbv zeta in G. rewrite G. cbn [bind]. destruct (to_chunks _ HL') as [-> H8']. auto.
Qed.

Lemma inv_lines b : bv_inv b -> len (bv_words b) mod 8 = 0.
Proof. intros H. rewrite (inv_words_len b H). lia. Qed.
Lemma inv_nones_le b : bv_inv b -> bv_nones b <= bv_nbits b /\ bv_nbits b < 2 ^ 63.
Proof.
  intros H. split; [|exact (inv_small b H)].
  rewrite (inv_nones b H), <- (inv_len b H). apply countb_le_len.
Qed.

(* The two `Extend` impls are loops over the regenerated push / extend_with_zeros / set:
     for bit in iter { self.push(bit) }
     for pos in iter { if pos >= self.n_bits { self.extend_with_zeros(pos + 1 - self.n_bits) } self.set(pos, true) }
   (here as recursions over the calls of the generated functions, as in Model/BitVec.v; Proofs/FnsBvnewOk.v proves the
   regenerated `Extend` impls equal to them) *)
Fixpoint g_extend_bools (d : list (list N)) (nb no : N) (bs : list bool) : outcome gstate :=
  match bs with
  | [] => Val (d, nb, no)
  | x :: r => let! (d', nb', no') := g_bvm_push d nb no x in g_extend_bools d' nb' no' r
  end.
Fixpoint g_extend_positions (d : list (list N)) (nb no : N) (ps : list N) : outcome gstate :=
  match ps with
  | [] => Val (d, nb, no)
  | p :: r =>
      let! (d1, nb1, no1) :=
        (if nb <=? p then (let! p1 := oadd 64 p 1 in let! k := osub p1 nb in g_bvm_extend_with_zeros d nb no k)
         else Val (d, nb, no)) in
      let! (d2, nb2, no2) := g_bvm_set d1 nb1 no1 p true in
      g_extend_positions d2 nb2 no2 r
  end.

(* one operation of a history, on the three fields: GENERATED functions only for OPush / OAppend / OZeros /
   OSet / OSetBits *)
Definition gstep (s : gstate) (o : bvop) : outcome gstate :=
  let '(d, nb, no) := s in
  match o with
  | OPush bit => g_bvm_push d nb no bit
  | OAppend bits n => g_bvm_append_bits d nb no bits n
  | OZeros n => g_bvm_extend_with_zeros d nb no n
  | OSet i bit => g_bvm_set d nb no i bit
  | OSetBits i n bits => g_bvm_set_bits d nb no i n bits
  | OExtBools bs => g_extend_bools d nb no bs
  | OExtPos ps => g_extend_positions d nb no ps
  end.
Fixpoint grun (s : gstate) (h : list bvop) : outcome gstate :=
  match h with [] => Val s | o :: r => let! s' := gstep s o in grun s' r end.
(* BitVectorMut::default() / new(): no line, no bit *)
Definition gempty : gstate := ([], 0, 0).

(* histories made of the five regenerated operations only *)
Definition op_gen (o : bvop) : Prop :=
  match o with OExtBools _ | OExtPos _ => False | _ => True end.

Lemma g_extend_bools_sim : forall bs b b', len (bv_words b) mod 8 = 0 -> bv_nones b <= bv_nbits b ->
  bvm_extend_bools b bs = Val b' ->
  g_extend_bools (chunks 8 (bv_words b)) (bv_nbits b) (bv_nones b) bs = Val (fields b').
Proof.
  induction bs as [|x bs IH]; intros b b' H8 Hle E; cbn [bvm_extend_bools g_extend_bools] in *.
  - apply Val_inj in E. subst b'. reflexivity.
  - binv E b1 E1. destruct (g_bvm_push_sim _ _ _ H8 Hle E1) as (G1 & H81 & Hle1).
    rewrite G1. cbn [bind]. now apply IH.
Qed.

Lemma bvm_set_Val_lt b i bit b' : bvm_set b i bit = Val b' -> i < bv_nbits b.
Proof. unfold bvm_set. intros E. binv E u A. apply oassert_Val in A. lia. Qed.

Lemma g_extend_positions_sim : forall ps b b', bv_inv b -> Forall (fun p => p < 2 ^ 63 - 1) ps ->
  bvm_extend_positions b ps = Val b' ->
  g_extend_positions (chunks 8 (bv_words b)) (bv_nbits b) (bv_nones b) ps = Val (fields b').
Proof.
  induction ps as [|p ps IH]; intros b b' Hinv HF E; cbn [bvm_extend_positions g_extend_positions] in *.
  - apply Val_inj in E. subst b'. reflexivity.
  - inversion HF as [|? ? Hp HF']; subst. binv E b1 E1. binv E b2 E2.
    destruct (inv_nones_le b Hinv) as [Hle Hsm].
    (* the vector grown to reach position p: the specifications of the hand operations give its invariant *)
    assert (H1 : bv_inv b1 /\
      (if bv_nbits b <=? p
       then (let! p1 := oadd 64 p 1 in let! k := osub p1 (bv_nbits b) in
             g_bvm_extend_with_zeros (chunks 8 (bv_words b)) (bv_nbits b) (bv_nones b) k)
       else Val (chunks 8 (bv_words b), bv_nbits b, bv_nones b)) = Val (fields b1)).
    { destruct (N.leb_spec (bv_nbits b) p) as [Hge|Hlt].
      - binv E1 p1 Ep1. binv E1 k Ek. rewrite Ep1. cbn [bind]. rewrite Ek. cbn [bind].
        apply oadd_Val_inv in Ep1. destruct Ep1 as [-> _]. apply osub_Val_inv in Ek. destruct Ek as [-> _].
        split.
        + destruct (bvm_extend_with_zeros_spec b (p + 1 - bv_nbits b) Hinv) as (b1' & E1' & Hinv1 & _); [lia|].
          rewrite E1 in E1'. apply Val_inj in E1'. now subst b1'.
        + apply g_bvm_extend_with_zeros_sim; [now apply inv_lines|exact E1].
      - apply Val_inj in E1. subst b1. auto. }
    destruct H1 as [Hinv1 G1]. rewrite G1. unfold fields at 1. cbn [bind].
    destruct (inv_nones_le b1 Hinv1) as [Hle1 Hsm1].
    destruct (g_bvm_set_sim b1 p true b2 (inv_lines b1 Hinv1)) as [G2 _]; [lia|exact E2|].
    rewrite G2. cbn [bind]. apply IH; try assumption.
    destruct (bvm_set_spec b1 p true Hinv1 (bvm_set_Val_lt _ _ _ _ E2)) as (b2' & E2' & Hinv2 & _).
    rewrite E2 in E2'. apply Val_inj in E2'. now subst b2'.
Qed.

Theorem gstep_sim : forall b o b', bv_inv b -> op_pre (bv_abs b) o = true -> op_small (bv_abs b) o ->
  bvstep b o = Val b' -> gstep (fields b) o = Val (fields b').
Proof.
  intros b o b' Hinv Hpre Hsm E. pose proof (inv_lines b Hinv) as H8.
  destruct (inv_nones_le b Hinv) as [Hle Hnb].
  unfold fields at 1. destruct o as [bit|bits n|n|i bit|i n bits|bs|ps]; cbn [bvstep gstep op_pre op_small] in *.
  - now apply g_bvm_push_sim.
  - now apply g_bvm_append_bits_sim.
  - now apply g_bvm_extend_with_zeros_sim.
  - apply g_bvm_set_sim; [assumption|lia|assumption].
  - apply g_bvm_set_bits_sim; [assumption| |lia|assumption].
    assert (2 ^ n <= 2 ^ 64) by (apply N.pow_le_mono_r; lia). lia.
  - now apply g_extend_bools_sim.
  - now apply g_extend_positions_sim.
Qed.

(* C08_step for the generated operations (C08_source_step) *)
Theorem g_step_correct : forall b o, bv_inv b -> op_pre (bv_abs b) o = true -> op_small (bv_abs b) o ->
  exists b', gstep (fields b) o = Val (fields b') /\ bv_inv b' /\ bv_abs b' = op_spec (bv_abs b) o.
Proof.
  intros b o Hinv Hpre Hsm. destruct (bv_step_correct b o Hinv Hpre Hsm) as (b' & E & Hinv' & Habs).
  exists b'. split; [|auto]. now apply gstep_sim.
Qed.

(* what the regenerated observers of BitVectorMut (and of BitVector, which has the same fields) answer on the
   fields [s] when the vector holds the bits [l]; get_bits of BitVectorMut with the `>=` of KF-13 (i + n < len),
   get_bits of BitVector with i + n <= len *)
Definition gobs (s : gstate) (l : list bool) : Prop :=
  let '(data, nb, no) := s in
  g_bvm_len nb = Val (len l) /\
  g_bvm_is_empty nb = Val (len l =? 0) /\
  g_bvm_count_ones no = Val (countb l) /\
  g_bvm_count_zeros nb no = Val (len l - countb l) /\
  (forall i, g_bvm_get data nb i = Val (nthN l i)) /\
  (forall i n, g_bvm_get_bits data nb i n =
     Val (if (1 <=? n) && (n <=? 64) && (i + n <? len l)
          then Some (bits_value (firstnN n (skipnN i l))) else None)) /\
  (forall w, g_bvm_get_word data w =
     if w <? 8 * ((len l + 511) / 512) then Val (bits_value (firstnN 64 (skipnN (64 * w) l))) else Fault Panic) /\
  (forall i, i < len l -> g_bvm_get_unchecked data i = Val (nthb l i)) /\
  (forall i n, 1 <= n -> n <= 64 -> i + n <= len l ->
     g_bvm_get_bits_unchecked data i n = Val (bits_value (firstnN n (skipnN i l)))) /\
  (* BitVector *)
  g_bv_count_ones no = Val (countb l) /\
  g_bv_count_zeros nb no = Val (len l - countb l) /\
  g_bv_n_lines data = Val ((len l + 511) / 512) /\
  (forall i n, g_bv_get_bits data nb i n =
     Val (if (1 <=? n) && (n <=? 64) && (i + n <=? len l)
          then Some (bits_value (firstnN n (skipnN i l))) else None)) /\
  (forall w, g_bv_get_word data w =
     if w <? 8 * ((len l + 511) / 512) then Val (bits_value (firstnN 64 (skipnN (64 * w) l))) else Fault Panic) /\
  (forall i n, 1 <= n -> n <= 64 -> i + n <= len l ->
     g_bv_get_bits_unchecked data i n = Val (bits_value (firstnN n (skipnN i l)))).

(* each observer: the equality with the hand observer above, then its C08 theorem *)
Theorem g_observers_correct : forall b, bv_inv b -> gobs (fields b) (bv_abs b).
Proof.
  intros b H. pose proof (inv_lines b H) as H8. pose proof (concat_chunks8 (bv_words b)) as Ec.
  destruct (bv_count_correct b H) as [H1 H0].
  assert (Hw : forall w, g_bvm_get_word (chunks 8 (bv_words b)) w =
    if w <? 8 * ((len (bv_abs b) + 511) / 512)
    then Val (bits_value (firstnN 64 (skipnN (64 * w) (bv_abs b)))) else Fault Panic).
  { intros w. rewrite g_bvm_get_word_ok. now apply bv_get_word_correct. }
  assert (Hu : forall i n, 1 <= n -> n <= 64 -> i + n <= len (bv_abs b) ->
    g_bv_get_bits_unchecked (chunks 8 (bv_words b)) i n = Val (bits_value (firstnN n (skipnN i (bv_abs b))))).
  { intros i n H1n Hn Hin. pose proof (inv_len b H). pose proof (inv_small b H).
    rewrite g_bv_get_bits_unchecked_chunks by lia. now apply bv_get_bits_unchecked_correct. }
  unfold gobs, fields.
  split; [now rewrite g_bvm_len_ok, (bv_len_correct b H)|].
  split; [now rewrite g_bvm_is_empty_ok, (bv_is_empty_correct b H)|].
  split; [now rewrite g_bvm_count_ones_ok, H1|].
  split; [now rewrite g_bvm_count_zeros_ok|].
  split; [intros i; rewrite (g_bvm_get_ok b _ i Ec); now apply bv_get_correct|].
  split; [intros i n; rewrite (g_bvm_get_bits_ok b _ i n Ec); exact (bv_get_bits_correct true b i n H)|].
  split; [exact Hw|].
  split; [intros i Hi; rewrite (g_bvm_get_unchecked_ok b _ i Ec); now apply bv_get_unchecked_correct|].
  split; [exact Hu|].
  split; [now rewrite g_bv_count_ones_ok, H1|].
  split; [now rewrite g_bv_count_zeros_ok|].
  split; [rewrite g_bv_n_lines_ok, (inv_words_len b H), (inv_len b H) by assumption; f_equal; lia|].
  split; [intros i n; rewrite (g_bv_get_bits_ok b _ i n Ec); exact (bv_get_bits_correct false b i n H)|].
  split; [exact Hw|exact Hu].
Qed.

(* KF-13: `i + n < len` exactly as C08_get_bits states it for strict = true *)
Corollary g_get_bits_correct : forall b i n, bv_inv b ->
  g_bvm_get_bits (chunks 8 (bv_words b)) (bv_nbits b) i n =
  Val (if (1 <=? n) && (n <=? 64) && (i + n <? len (bv_abs b))
       then Some (bits_value (firstnN n (skipnN i (bv_abs b)))) else None).
Proof. intros b i n H. destruct (g_observers_correct b H) as (_ & _ & _ & _ & _ & Hgb & _). apply Hgb. Qed.

Lemma g_history_from : forall h b, bv_inv b -> hist_ok (bv_abs b) h ->
  exists b', grun (fields b) h = Val (fields b') /\ bv_inv b' /\ bv_abs b' = fold_left op_spec h (bv_abs b).
Proof.
  induction h as [|o h IH]; intros b Hinv Hok; cbn [grun fold_left].
  - exists b. auto.
  - destruct Hok as (Hpre & Hsm & Hok).
    destruct (g_step_correct b o Hinv Hpre Hsm) as (b1 & E1 & Hinv1 & Habs1). rewrite E1. cbn [bind].
    rewrite <- Habs1 in Hok |- *. now apply IH.
Qed.

Theorem g_history_correct : forall h, hist_ok [] h ->
  exists b, grun gempty h = Val (fields b) /\ bv_inv b /\ bv_abs b = fold_left op_spec h [].
Proof.
  intros h Hok. destruct bv_inv_empty as [Hinv Habs]. rewrite <- Habs in Hok |- *.
  change gempty with (fields bv_empty). now apply g_history_from.
Qed.

(* C08_source_history: no hand-model function in the statement *)
Theorem g_history_observed : forall h, hist_ok [] h ->
  exists s, grun gempty h = Val s /\ gobs s (fold_left op_spec h []).
Proof.
  intros h Hok. destruct (g_history_correct h Hok) as (b & E & Hinv & Habs).
  exists (fields b). split; [exact E|]. rewrite <- Habs. now apply g_observers_correct.
Qed.

(* non-vacuity: the history of C08_example, run through the generated operations *)
Example g_ex_run :
  match grun gempty ex_hist with
  | Val (data, nb, no) =>
      g_bvm_len nb = Val 601 /\ g_bvm_count_ones no = Val 14 /\ g_bvm_count_zeros nb no = Val 587 /\ len data = 2 /\
      g_bvm_get data nb 600 = Val (Some true) /\ g_bvm_get data nb 601 = Val None /\
      g_bvm_get_bits data nb 508 7 = Val (Some 123) /\
      g_bvm_get_bits data nb 593 8 = Val None /\ g_bv_get_bits data nb 593 8 = Val (Some 128) /\
      g_bvm_get_word data 9 = Val 16777216 /\ g_bvm_get_word data 16 = Fault Panic
  | Fault _ => False
  end.
Proof. vm_compute. repeat split. Qed.

(* [grun] is then a fold of generated functions alone *)
Corollary g_history_generated_only : forall h, Forall op_gen h -> hist_ok [] h ->
  exists s, grun gempty h = Val s /\ gobs s (fold_left op_spec h []).
Proof. intros h _. apply g_history_observed. Qed.

Lemma g_bits_assert_fail n bits (k : bool -> outcome gstate) :
  bits < 2 ^ 64 -> (n <=? 64) && (bits <? 2 ^ n) = false ->
  exists f, (let! t := (if N.eqb n 64 then Val true else let! t1 := oshr 64 bits n in Val (N.eqb t1 0)) in
             let! _ := oassert t in k t) = Fault f.
Proof.
  intros Ht H. rewrite g_bits_assert, (bits_assert_fail n bits Ht H).
  destruct (n <=? 64); cbn [oassert bind]; eauto.
Qed.

(* C08_step_panics for the generated operations: when the documented precondition is violated they fault too
   (C08_source_step_panics) *)
Theorem g_step_panics : forall b o, bv_inv b -> op_typed o -> op_pre (bv_abs b) o = false ->
  exists f, gstep (fields b) o = Fault f.
Proof.
  intros b o Hinv Hty Hpre. pose proof (inv_len b Hinv) as Hl.
  unfold fields. destruct o as [bit|bits n|n|i bit|i n bits|bs|ps]; cbn [gstep op_pre op_typed] in *;
    try discriminate Hpre.
  - unfold g_bvm_append_bits. now apply g_bits_assert_fail.
  - unfold g_bvm_set. rewrite Hl in Hpre. rewrite Hpre. cbn [oassert bind]. eauto.
  - unfold g_bvm_set_bits. unfold oadd. destruct (N.ltb_spec (i + n) (2 ^ 64)); cbn [bind]; [|eauto].
    rewrite Hl in Hpre. destruct (N.leb_spec (i + n) (bv_nbits b)); cbn [oassert bind]; [|eauto].
    cbn [andb] in Hpre. now apply g_bits_assert_fail.
Qed.

(* No mismatch between the hand model and the generated code was found.  Differences that the simulations absorb:
   the generated code checks `n_ones += 1`, `n_ones += popcount(bits)`, `block + 1`, `shift + len` at 64 bits
   (never failing under the invariant); for `len > 64` the assertion `len == 64 || bits >> len == 0` is Fault
   Overflow (shift amount) in the generated code and Fault Panic in the model (both fault). *)
Print Assumptions g_bline_set_symbol_sim.
Print Assumptions g_get_bits_slice_ok.
Print Assumptions g_bvm_get_ok.
Print Assumptions g_bvm_get_bits_ok.
Print Assumptions g_bv_get_bits_ok.
Print Assumptions g_bvm_get_word_ok.
Print Assumptions g_bv_n_lines_ok.
Print Assumptions g_bvm_push_sim.
Print Assumptions g_bvm_append_bits_sim.
Print Assumptions g_bvm_extend_with_zeros_sim.
Print Assumptions g_bvm_set_sim.
Print Assumptions g_bvm_set_bits_sim.
Print Assumptions gstep_sim.
Print Assumptions g_step_correct.
Print Assumptions g_step_panics.
Print Assumptions g_observers_correct.
Print Assumptions g_history_correct.
Print Assumptions g_history_observed.
Print Assumptions g_history_generated_only.
Print Assumptions g_ex_run.
