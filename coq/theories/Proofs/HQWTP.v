(* C02: the Huffman-shaped quad wavelet tree (Model/Huff.v: hq_build and the hq_* queries)
   answers every query exactly like the list specification (Spec/Seq.v) and never faults, for
   EVERY sequence of fewer than RSQ_MAXN symbols and EVERY code table that meets [table_ok]. *)
From Coq Require Import ZArith Lia ZifyBool ZifyN ZifyNat.
From QwtModel Require Import ListX Seq RSQ QWT Huff ListXP RSQBuild RSQP.
From QwtModel Require Import WaveletMatrix HuffWM Codes HQWTBridge HQWTWalks HQWTCode.

Definition width_ok (w : N) : Prop := w = 8 \/ w = 16 \/ w = 32 \/ w = 64 \/ w = 128.

(* the table has a well-formed code exactly for the symbols that occur in seq, is wavelet-matrix
   compatible, and (NOT implied by wavelet-matrix compatibility, see [codes_distinct_needed])
   two distinct occurring symbols never share a table entry *)
Definition table_ok (seq : list N) (tab : list pcode) : Prop :=
  len tab < 2 ^ 64 /\
  (forall x, In x seq -> exists c, nthN tab x = Some c /\ code_wf 2 c = true) /\
  (forall x c, nthN tab x = Some c -> pc_len c <> 0 -> In x seq) /\
  (forall syms, (forall x, In x syms -> In x seq) -> code_wm_ok 2 tab syms = true) /\
  (forall x y c, In x seq -> In y seq -> nthN tab x = Some c -> nthN tab y = Some c -> x = y).

Definition hq_spec (w bsize : N) (t : hqwt) (seq : list N) : Prop :=
  hq_len t = len seq /\
  (forall i, hq_get w bsize t i = Val (nthN seq i)) /\
  (forall c i, c < 2 ^ w -> hq_rank bsize t c i =
       Val (if (i <=? len seq) && (0 <? countN c seq) then Some (rank_spec seq c i) else None)) /\
  (forall c i, c < 2 ^ w -> hq_rank_prefetch bsize t c i = hq_rank bsize t c i) /\
  (forall c k, c < 2 ^ w -> k < 2 ^ 64 -> hq_select bsize t c k = Val (select_spec seq c k)) /\
  (forall i x, nthN seq i = Some x -> hq_get_unchecked w bsize t i = Val x) /\
  (forall c i, 0 < countN c seq -> i <= len seq -> hq_rank_unchecked bsize t c i = Val (rank_spec seq c i)
                                                 /\ hq_rank_prefetch_unchecked bsize t c i = Val (rank_spec seq c i)) /\
  (forall c k p, c < 2 ^ w -> select_spec seq c k = Some p -> hq_select_unchecked bsize t c k = Val p).

Section Main.
Variables (w bsize : N) (tab : list pcode) (s : list N).
Hypothesis Hb : bsize = 256 \/ bsize = 512.
Hypothesis HF : Forall (fun x => x < 2 ^ w) s.
Hypothesis Hn : len s < RSQ_MAXN.
Hypothesis Htab : len tab < 2 ^ 64.
Hypothesis Hwf : forall x, In x s -> exists c, nthN tab x = Some c /\ code_wf 2 c = true.
Hypothesis Hocc : forall x c, nthN tab x = Some c -> pc_len c <> 0 -> In x s.
Hypothesis Hok : code_wm_ok 2 tab s = true.
Hypothesis Hdist : forall x y c, In x s -> In y s -> nthN tab x = Some c -> nthN tab y = Some c -> x = y.
Variables (qvs : list rsq) (lens : list N).

Notation dig := (code_dig 2 tab).
Notation clen := (code_clen 2 tab).
Notation QQ l := (Q N 4 dig clen l s).
Notation LV l0 n := (hwm_levels N 4 dig clen l0 n s).
Notation digs l0 n c := (digits_of N dig l0 n c).
Notation mx := (maxN (map pc_len tab)).
Notation M := (N.to_nat (mx / 2)).

Hypothesis LOK : forall l, (l < M)%nat ->
  exists r, nthN qvs (N.of_nat l) = Some r /\ rsq_spec bsize r (map (dig l) (QQ l)).
Hypothesis LENS : forall l, (l < M)%nat -> nthN lens (N.of_nat l) = Some (len (QQ l)).
Set Default Proof Using "All".

Notation t := (mk_hq (len s) (mx / 2) tab (decode_tables tab mx) qvs lens).
(* the lemma f of another file's section at this section's data: WK for the walks (HQWTWalks); CT, CD, CS for
   the code table (HQWTBridge, HQWTCode), each passing one more group of the table's hypotheses *)
Notation WK f := (f tab s bsize Hn qvs lens M LOK LENS).
Notation CT f := (f 2 4%nat eq_refl tab s Htab Hwf).
Notation CD f := (f 2 4%nat eq_refl tab s Htab Hwf Hocc Hdist).
Notation CS f := (CD f Hok).

Lemma clen_le_M x : In x s -> (clen x <= M)%nat.
Proof.
  intros Hx. destruct (CT code_in_seq x Hx) as (c & HFc).
  pose proof (CD len_le_mx x c Hx HFc) as H.
  rewrite (clen_eq tab x c (ce_nth 2 tab x c HFc)). lia.
Qed.

Lemma code_of_in c code : In c s -> code_facts tab c code -> hq_code_of t c = Some code.
Proof.
  intros Hc [H1 H2 H3 H4 H5]. unfold hq_code_of. cbn [h_codes].
  pose proof (CT code_sym_index c Hc) as E. rewrite E in H1. rewrite E.
  pose proof (nthN_some_lt _ _ _ H1) as Hlt.
  rewrite N.eqb_refl. cbn [negb orb]. destruct (N.leb_spec (len tab) c); [lia|].
  rewrite H1. destruct (N.eqb_spec (pc_len code) 0); [lia|reflexivity].
Qed.

Lemma code_of_notin c : ~ In c s -> hq_code_of t c = None.
Proof.
  intros Hc. unfold hq_code_of. cbn [h_codes].
  destruct (N.eqb_spec (sym_index c) c) as [E|E]; cbn [negb orb]; [|reflexivity]. rewrite E.
  destruct (N.leb_spec (len tab) c); [reflexivity|].
  destruct (nthN tab c) as [cd|] eqn:Ecd; [|reflexivity].
  destruct (N.eqb_spec (pc_len cd) 0) as [|Hne]; [reflexivity|].
  exfalso. exact (Hc (Hocc c cd Ecd Hne)).
Qed.

Lemma rank_unchecked_ok c i : In c s -> i <= len s ->
  hq_rank_unchecked bsize t c i = Val (rank_spec s c i).
Proof.
  intros Hc Hi. destruct (CT code_in_seq c Hc) as (code & [H1 _ _ _ _]).
  pose proof (WK hq_rank_walk_ok c code H1 (clen c) 0%nat 0 i (clen_le_M c Hc)
                (fun m Hm => CS code_rank_bounds c i m Hc Hi Hm)) as W.
  change (N.of_nat 0) with 0 in W. change (2 * (0 + 1)) with 2 in W.
  unfold hq_rank_unchecked. cbn [h_codes h_qvs]. unfold idx. rewrite H1. cbn [bind].
  rewrite <- (clen_eq tab c code H1), W. cbn [bind]. exact (CS code_rank_spec c i Hc Hi).
Qed.

Lemma rank_prefetch_unchecked_ok c i : In c s -> i <= len s ->
  hq_rank_prefetch_unchecked bsize t c i = Val (rank_spec s c i).
Proof.
  intros Hc Hi. destruct (CT code_in_seq c Hc) as (code & HFc). pose proof (ce_nth 2 tab c code HFc) as H1.
  destruct (CT code_clen_len c code HFc) as [HL Hpos]. pose proof (clen_le_M c Hc) as HM.
  assert (W : hq_estimate_walk bsize qvs (pc_content code) (pc_len code - 2 * (N.of_nat 0 + 1)) 0 i
                (N.of_nat 0) (clen c - 1) = Val tt).
  { apply (WK hq_estimate_walk_ok c code H1 (clen c - 1)%nat 0%nat 0 i 0 i); [lia|lia|lia|].
    intros m Hm. apply (CS code_rank_bounds); [exact Hc|exact Hi|lia]. }
  change (N.of_nat 0) with 0 in W. change (2 * (0 + 1)) with 2 in W.
  unfold hq_rank_prefetch_unchecked. cbn [h_codes h_qvs]. unfold idx at 1. rewrite H1. cbn [bind].
  destruct (LOK 0%nat ltac:(lia)) as (r0 & Er0 & _). change (N.of_nat 0) with 0 in Er0.
  unfold idx at 1. rewrite Er0. cbn [bind].
  replace (N.to_nat (pc_len code / 2 - 1)) with (clen c - 1)%nat by lia.
  rewrite W. cbn [bind]. exact (rank_unchecked_ok c i Hc Hi).
Qed.

Lemma get_unchecked_ok i x : nthN s i = Some x -> hq_get_unchecked w bsize t i = Val x.
Proof.
  intros Hi. assert (Hx : In x s) by exact (nthN_In _ _ _ Hi).
  unfold hq_get_unchecked. cbn [h_n_levels h_decode].
  pose proof (WK hq_get_walk_ok t eq_refl eq_refl M 0%nat i 0 0 (le_n _)) as G.
  change (N.of_nat 0) with 0 in G. rewrite G. cbn [bind].
  destruct (CS code_get_decode M i x Hi (clen_le_M x Hx)) as (c & T & E1 & E2 & ET & EK).
  rewrite E1, N.add_0_l, E2. unfold idx. rewrite ET. cbn [bind]. rewrite EK. cbn [bind].
  rewrite Forall_forall in HF. specialize (HF x Hx).
  destruct (N.ltb_spec x (2 ^ w)); [reflexivity|lia].
Qed.

Lemma select_ok c k : hq_select bsize t c k = Val (select_spec s c k).
Proof.
  unfold hq_select. destruct (in_dec N.eq_dec c s) as [Hc|Hc].
  - destruct (CT code_in_seq c Hc) as (code & HFc). pose proof (ce_nth 2 tab c code HFc) as H1.
    destruct (CT code_clen_len c code HFc) as [HL _].
    rewrite (code_of_in c code Hc HFc). cbn [h_qvs]. rewrite <- (clen_eq tab c code H1).
    pose proof (CS code_select_bounds c Hc) as HB.
    pose proof (WK hq_select_down_ok c code H1 (clen c) 0%nat 0 (clen_le_M c Hc) HB) as D.
    change (N.of_nat 0) with 0 in D. change (2 * (0 + 1)) with 2 in D. rewrite D. cbn [bind].
    pose proof (WK hq_select_up_ok c code H1 HL (clen_le_M c Hc) (clen c) 0%nat 0 k eq_refl HB) as U.
    change (N.of_nat 0) with 0 in U. unfold numb in U. rewrite U. f_equal.
    exact (CS code_select_spec c k Hc).
  - now rewrite (code_of_notin c Hc), select_spec_notin.
Qed.

Lemma spec_ok : hq_spec w bsize t s.
Proof.
  unfold hq_spec. split; [reflexivity|].
  split; [|split; [|split; [|split; [|split; [|split]]]]].
  - intros i. unfold hq_get. cbn [h_n]. destruct (N.leb_spec (len s) i) as [Hle|Hlt].
    + now rewrite nthN_none.
    + destruct (nthN_lt_some s i Hlt) as (x & Hx). rewrite (get_unchecked_ok i x Hx), Hx. reflexivity.
  - intros c i _. unfold hq_rank. cbn [h_n].
    destruct (N.ltb_spec (len s) i) as [Hgt|Hle]; destruct (N.leb_spec i (len s)) as [Hle'|Hgt']; try lia;
      [reflexivity|]. cbn [andb].
    destruct (in_dec N.eq_dec c s) as [Hc|Hc].
    + destruct (CT code_in_seq c Hc) as (code & HFc).
      rewrite (code_of_in c code Hc HFc), (rank_unchecked_ok c i Hc Hle). cbn [bind].
      apply countN_pos_In in Hc. destruct (N.ltb_spec 0 (countN c s)); [reflexivity|lia].
    + rewrite (code_of_notin c Hc).
      destruct (N.ltb_spec 0 (countN c s)) as [Hp|]; [|reflexivity].
      apply countN_pos_In in Hp. contradiction.
  - intros c i _. unfold hq_rank_prefetch, hq_rank. cbn [h_n].
    destruct (N.ltb_spec (len s) i) as [Hgt|Hle]; [reflexivity|].
    destruct (in_dec N.eq_dec c s) as [Hc|Hc].
    + destruct (CT code_in_seq c Hc) as (code & HFc).
      rewrite (code_of_in c code Hc HFc), (rank_unchecked_ok c i Hc Hle),
        (rank_prefetch_unchecked_ok c i Hc Hle). reflexivity.
    + now rewrite (code_of_notin c Hc).
  - intros c k _ _. apply select_ok.
  - exact get_unchecked_ok.
  - intros c i Hc Hi. apply countN_pos_In in Hc.
    split; [now apply rank_unchecked_ok|now apply rank_prefetch_unchecked_ok].
  - intros c k p _ Hsel. unfold hq_select_unchecked. rewrite select_ok, Hsel. reflexivity.
Qed.

End Main.

Lemma hq_empty_spec w bsize d : hq_spec w bsize (mk_hq 0 0 [] [] [d] [0]) [].
Proof.
  assert (EC : forall c, hq_code_of (mk_hq 0 0 [] [] [d] [0]) c = None).
  { intros c. unfold hq_code_of. cbn [h_codes]. change (len (@nil pcode)) with 0.
    destruct (N.leb_spec 0 (sym_index c)); [|lia]. now rewrite orb_true_r. }
  unfold hq_spec. split; [reflexivity|].
  split; [|split; [|split; [|split; [|split; [|split]]]]].
  - intros i. unfold hq_get. cbn [h_n]. destruct (N.leb_spec 0 i); [reflexivity|lia].
  - intros c i _. unfold hq_rank. rewrite EC. cbn [h_n countN].
    change (0 <? 0) with false. rewrite andb_false_r. now destruct (0 <? i).
  - intros c i _. unfold hq_rank_prefetch, hq_rank. now rewrite EC.
  - intros c k _ _. unfold hq_select. now rewrite EC.
  - intros i x H. discriminate H.
  - intros c i H. cbn [countN] in H. lia.
  - intros c k p _ H. discriminate H.
Qed.

Lemma hq_build_nil bsize tab : (bsize = 256 \/ bsize = 512) -> forall w,
  exists t, hq_build bsize [] tab = Val t /\ hq_spec w bsize t [].
Proof.
  intros Hb w. destruct (rsq_default_correct bsize Hb) as (d & Ed & _).
  unfold hq_build. rewrite Ed. cbn [bind]. eexists. split; [reflexivity|]. apply hq_empty_spec.
Qed.

Lemma hq_build_cons bsize x0 seq' tab :
  hq_build bsize (x0 :: seq') tab =
  (let! (qvs, lens) := hq_levels bsize (x0 :: seq') tab 2 (N.to_nat (maxN (map pc_len tab) / 2)) in
   Val (mk_hq (len (x0 :: seq')) (maxN (map pc_len tab) / 2) tab
              (decode_tables tab (maxN (map pc_len tab))) qvs lens)).
Proof. reflexivity. Qed.

Theorem hq_build_correct : forall w bsize seq tab, width_ok w -> (bsize = 256 \/ bsize = 512) ->
  Forall (fun x => x < 2 ^ w) seq -> len seq < RSQ_MAXN -> table_ok seq tab ->
  exists t, hq_build bsize seq tab = Val t /\ hq_spec w bsize t seq.
Proof.
  intros w bsize seq tab _ Hb HF Hn (Htab & Hwf & Hocc & Hok & Hdist).
  destruct seq as [|x0 seq']; [now apply hq_build_nil|].
  rewrite hq_build_cons. set (s := x0 :: seq') in *.
  specialize (Hok s (fun x H => H)).
  assert (HT : fin_tail tab s 0 []) by (intros x []).
  destruct (hq_levels_ok tab s Htab Hwf bsize Hb Hn (N.to_nat (maxN (map pc_len tab) / 2)) 0%nat [] HT)
    as (qvs & lens & E & H1 & H2).
  cbn [Q] in E. rewrite app_nil_r in E. change (2 * (N.of_nat 0 + 1)) with 2 in E.
  rewrite E. cbn [bind]. eexists. split; [reflexivity|].
  pose proof (LV_nth tab s Htab (N.to_nat (maxN (map pc_len tab) / 2)) 0%nat) as LV0. cbn [Nat.add] in LV0.
  apply (spec_ok w bsize tab s Hb HF Hn Htab Hwf Hocc Hok Hdist qvs lens).
  - intros l Hl. destruct (Forall2_nthN _ _ _ H1 _ _ (LV0 l Hl)) as (r & Er & Hr). eauto.
  - intros l Hl. rewrite H2, nthN_map, (LV0 l Hl). cbn [option_map]. now rewrite len_map.
Qed.

Theorem hq_build_empty : forall w bsize, (bsize = 256 \/ bsize = 512) ->
  exists t, hq_build bsize [] [] = Val t /\ hq_spec w bsize t [].
Proof. intros w bsize Hb. now apply hq_build_nil. Qed.

Lemma wm_ok_sub {A} a (dg : nat -> A -> N) cl (s syms : list A) :
  HuffWM.wm_ok A a dg cl s = true -> (forall x, In x syms -> In x s) -> HuffWM.wm_ok A a dg cl syms = true.
Proof.
  unfold HuffWM.wm_ok. intros H Hs. apply forallb_forall. intros f Hf. apply forallb_forall. intros g Hg.
  rewrite forallb_forall in H. specialize (H f (Hs f Hf)). rewrite forallb_forall in H. exact (H g (Hs g Hg)).
Qed.

(* [table_ok] is exactly [table_ok_weak /\ codes_distinct] ([table_ok_split]): its first four conjuncts, and its last *)
Definition table_ok_weak (seq : list N) (tab : list pcode) : Prop :=
  len tab < 2 ^ 64 /\
  (forall x, In x seq -> exists c, nthN tab x = Some c /\ code_wf 2 c = true) /\
  (forall x c, nthN tab x = Some c -> pc_len c <> 0 -> In x seq) /\
  (forall syms, (forall x, In x syms -> In x seq) -> code_wm_ok 2 tab syms = true).
Definition codes_distinct (seq : list N) (tab : list pcode) : Prop :=
  forall x y c, In x seq -> In y seq -> nthN tab x = Some c -> nthN tab y = Some c -> x = y.

Lemma table_ok_split seq tab : table_ok seq tab <-> table_ok_weak seq tab /\ codes_distinct seq tab.
Proof. unfold table_ok, table_ok_weak, codes_distinct. tauto. Qed.

Definition table_okb_weak (seq : list N) (tab : list pcode) : bool :=
  (len tab <? 2 ^ 64) &&
  forallb (fun x => match nthN tab x with Some c => code_wf 2 c | None => false end) seq &&
  forallb (fun '(i, c) => (pc_len c =? 0) || existsb (fun y => y =? i) seq) (number_levels tab 0) &&
  code_wm_ok 2 tab seq.
Definition ocode_eqb (o1 o2 : option pcode) : bool :=
  match o1, o2 with
  | Some a, Some b => (pc_content a =? pc_content b) && (pc_len a =? pc_len b)
  | _, _ => false
  end.
Definition codes_distinctb (seq : list N) (tab : list pcode) : bool :=
  forallb (fun x => forallb (fun y => (x =? y) || negb (ocode_eqb (nthN tab x) (nthN tab y))) seq) seq.
Definition table_okb (seq : list N) (tab : list pcode) : bool :=
  table_okb_weak seq tab && codes_distinctb seq tab.

Lemma table_okb_weak_sound seq tab : table_okb_weak seq tab = true -> table_ok_weak seq tab.
Proof.
  unfold table_okb_weak. intros H.
  apply andb_prop in H as [H H4]. apply andb_prop in H as [H H3]. apply andb_prop in H as [H1 H2].
  rewrite forallb_forall in H2, H3. split; [lia|]. split; [|split].
  - intros x Hx. specialize (H2 x Hx). destruct (nthN tab x) as [c|]; [eauto|discriminate].
  - intros x c Hx Hne.
    assert (Hin : In (x, c) (number_levels tab 0)).
    { apply number_levels_In. rewrite N.sub_0_r. split; [lia|exact Hx]. }
    specialize (H3 _ Hin). cbv beta iota in H3.
    destruct (N.eqb_spec (pc_len c) 0); [contradiction|]. cbn [orb] in H3.
    apply existsb_exists in H3 as (y & Hy & E). apply N.eqb_eq in E. now subst.
  - intros syms Hs. exact (wm_ok_sub _ _ _ _ _ H4 Hs).
Qed.

Lemma codes_distinctb_sound seq tab : codes_distinctb seq tab = true -> codes_distinct seq tab.
Proof.
  unfold codes_distinctb, codes_distinct. intros H x y c Hx Hy Ex Ey.
  rewrite forallb_forall in H. specialize (H x Hx). rewrite forallb_forall in H. specialize (H y Hy).
  rewrite Ex, Ey in H. unfold ocode_eqb in H. rewrite !N.eqb_refl in H. cbn [andb negb] in H.
  rewrite orb_false_r in H. now apply N.eqb_eq.
Qed.

Theorem table_okb_sound seq tab : table_okb seq tab = true -> table_ok seq tab.
Proof.
  unfold table_okb. intros H. apply andb_prop in H as [H1 H2]. apply table_ok_split.
  split; [now apply table_okb_weak_sound|now apply codes_distinctb_sound].
Qed.

(* Finding: wavelet-matrix compatibility (code_wm_ok) compares only codes of different lengths, so
   it accepts a table giving two occurring symbols the same entry; the model (like the code) then
   decodes both as the smaller symbol and counts them together.  Hence the fifth conjunct of
   table_ok. *)
Definition bad_seq : list N := [0; 1].
Definition bad_tab : list pcode := [mk_pc 0 2; mk_pc 0 2].
Lemma codes_distinct_needed :
  table_ok_weak bad_seq bad_tab /\ Forall (fun x => x < 2 ^ 8) bad_seq /\
  exists t, hq_build 256 bad_seq bad_tab = Val t /\
    hq_get 8 256 t 1 = Val (Some 0) /\ nthN bad_seq 1 = Some 1 /\
    hq_rank 256 t 1 2 = Val (Some 2) /\ rank_spec bad_seq 1 2 = 1.
Proof.
  split; [apply table_okb_weak_sound; vm_compute; reflexivity|].
  split; [repeat constructor|].
  destruct (hq_build 256 bad_seq bad_tab) as [t|f] eqn:E; [|vm_compute in E; discriminate E].
  exists t. split; [reflexivity|].
  assert (G : match hq_build 256 bad_seq bad_tab with
              | Val t => hq_get 8 256 t 1 = Val (Some 0) /\ nthN bad_seq 1 = Some 1 /\
                         hq_rank 256 t 1 2 = Val (Some 2) /\ rank_spec bad_seq 1 2 = 1
              | Fault _ => False
              end) by (vm_compute; repeat split; reflexivity).
  rewrite E in G. exact G.
Qed.
Lemma hq_build_correct_without_distinct_refuted :
  ~ (forall w bsize seq tab, width_ok w -> (bsize = 256 \/ bsize = 512) ->
     Forall (fun x => x < 2 ^ w) seq -> len seq < RSQ_MAXN -> table_ok_weak seq tab ->
     exists t, hq_build bsize seq tab = Val t /\ hq_spec w bsize t seq).
Proof.
  intros H. destruct codes_distinct_needed as (Hw & HF & t & E & G1 & G2 & _).
  destruct (H 8 256 bad_seq bad_tab) as (t' & E' & _ & Hget & _);
    [left; reflexivity|left; reflexivity|exact HF|reflexivity|exact Hw|].
  rewrite E in E'. injection E' as <-. rewrite Hget, G2 in G1. discriminate G1.
Qed.

(* non-vacuity: a sequence and a table that meet table_ok, and what the queries return on them *)
Definition hq_ex_seq : list N :=
  [5; 0; 9; 2; 5; 5; 9; 0; 2; 9; 5; 9; 9; 0; 5; 2; 9; 5; 0; 9; 5; 2; 5; 9; 0; 9; 5; 5; 2; 9].
Definition hq_ex_tab : list pcode :=
  [mk_pc 7 4; pc_zero; mk_pc 3 4; pc_zero; pc_zero; mk_pc 3 2; pc_zero; pc_zero; pc_zero; mk_pc 2 2].

Example hq_ex_craft : craft4 [(5, 2); (9, 2); (0, 4); (2, 4)] 9 = Val hq_ex_tab.
Proof. vm_compute. reflexivity. Qed.
Example hq_ex_table_ok : table_ok hq_ex_seq hq_ex_tab.
Proof. apply table_okb_sound. vm_compute. reflexivity. Qed.

Definition hq_ex_checks (bsize : N) : Prop :=
  match hq_build bsize hq_ex_seq hq_ex_tab with
  | Val t =>
      hq_len t = 30 /\ h_lens t = [30; 10] /\
      map (hq_get 8 bsize t) [0; 1; 2; 3; 29; 30] =
        [Val (Some 5); Val (Some 0); Val (Some 9); Val (Some 2); Val (Some 9); Val None] /\
      map (fun c => hq_rank bsize t c 17) [0; 2; 5; 9; 1; 300] =
        [Val (Some 3); Val (Some 3); Val (Some 5); Val (Some 6); Val None; Val None] /\
      map (hq_select bsize t 9) [0; 1; 9; 10; 11] =
        [Val (Some 2); Val (Some 6); Val (Some 29); Val None; Val None] /\
      hq_rank_prefetch bsize t 5 30 = Val (Some 10) /\ hq_rank bsize t 5 31 = Val None /\
      hq_select_unchecked bsize t 2 3 = Val 21 /\ hq_get_unchecked 8 bsize t 7 = Val 0 /\
      hq_rank_unchecked bsize t 0 30 = Val 5 /\ hq_rank_prefetch_unchecked bsize t 2 30 = Val 5
  | Fault _ => False
  end.
Example hq_example_256 : hq_ex_checks 256.
Proof. vm_compute. repeat split; reflexivity. Qed.
Example hq_example_512 : hq_ex_checks 512.
Proof. vm_compute. repeat split; reflexivity. Qed.
(* the same values from the specification side *)
Example hq_example_spec :
  map (nthN hq_ex_seq) [0; 1; 2; 3; 29; 30] = [Some 5; Some 0; Some 9; Some 2; Some 9; None] /\
  map (fun c => rank_spec hq_ex_seq c 17) [0; 2; 5; 9] = [3; 3; 5; 6] /\
  map (select_spec hq_ex_seq 9) [0; 1; 9; 10; 11] = [Some 2; Some 6; Some 29; None; None] /\
  rank_spec hq_ex_seq 5 30 = 10 /\ select_spec hq_ex_seq 2 3 = Some 21 /\
  rank_spec hq_ex_seq 0 30 = 5 /\ rank_spec hq_ex_seq 2 30 = 5.
Proof. vm_compute. repeat split; reflexivity. Qed.
Example hq_example_thm : forall bsize, (bsize = 256 \/ bsize = 512) ->
  exists t, hq_build bsize hq_ex_seq hq_ex_tab = Val t /\ hq_spec 8 bsize t hq_ex_seq.
Proof.
  intros bsize Hb. apply hq_build_correct; [left; reflexivity|exact Hb| |reflexivity|exact hq_ex_table_ok].
  apply Forall_forall. intros x Hx.
  assert (H : forallb (fun y => y <? 2 ^ 8) hq_ex_seq = true) by (vm_compute; reflexivity).
  rewrite forallb_forall in H. specialize (H x Hx). lia.
Qed.

Print Assumptions hq_build_correct.
Print Assumptions hq_build_empty.
Print Assumptions table_okb_sound.
Print Assumptions codes_distinct_needed.
Print Assumptions hq_build_correct_without_distinct_refuted.
Print Assumptions hq_ex_table_ok.
Print Assumptions hq_example_256.
Print Assumptions hq_example_512.
Print Assumptions hq_example_spec.
Print Assumptions hq_example_thm.
