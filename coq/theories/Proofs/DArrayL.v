(* Generic list / bit lemmas used by the darray proofs (Proofs/DArrayB.v, Proofs/DArrayP.v). *)
From Coq Require Import ZArith Lia ZifyBool ZifyN ZifyNat.
From QwtModel Require Import ListX Seq ListXP SeqP.

Lemma nthN_app_some {A} (l1 l2 : list A) x a : nthN l1 x = Some a -> nthN (l1 ++ l2) x = Some a.
Proof. intros H. rewrite nthN_app1; [exact H|]. eapply nthN_some_lt; eauto. Qed.

Lemma nthN_repeat_full {A} (a : A) n x : nthN (repeat a n) x = if x <? N.of_nat n then Some a else None.
Proof.
  destruct (N.ltb_spec x (N.of_nat n)); [now apply nthN_repeat|].
  apply nthN_none. now rewrite len_repeat.
Qed.
Lemma nthN_rev_last {A} (l : list A) x : nthN (rev (x :: l)) (len l) = Some x.
Proof. cbn [rev]. rewrite <- (len_rev l). apply nthN_snoc_last. Qed.

Lemma len_by_nthN {A} (l : list A) n :
  (forall j, j < n -> nthN l j <> None) -> (forall j, n <= j -> nthN l j = None) -> len l = n.
Proof.
  intros H1 H2.
  destruct (N.lt_trichotomy (len l) n) as [H|[H|H]]; [|exact H|].
  - exfalso. apply (H1 (len l) H). apply nthN_none. lia.
  - exfalso. destruct (nthN_lt_some l n H) as (a & E). rewrite H2 in E by lia. discriminate.
Qed.

Lemma firstnN_add {A} (l : list A) a b : firstnN (a + b) l = firstnN a l ++ firstnN b (skipnN a l).
Proof.
  rewrite <- (firstnN_skipnN l a) at 1. rewrite firstnN_app, firstnN_all by (rewrite firstnN_len; lia).
  f_equal. destruct (N.le_gt_cases a (len l)) as [H|H].
  - f_equal. rewrite firstnN_len. lia.
  - rewrite (len_0_nil (skipnN a l)) by (rewrite len_skipnN; lia). reflexivity.
Qed.

Lemma firstnN_firstnN {A} (l : list A) a b : a <= b -> firstnN a (firstnN b l) = firstnN a l.
Proof. intros H. rewrite !firstnN_firstn, firstn_firstn. f_equal. lia. Qed.
Lemma skipnN_firstnN {A} (l : list A) a b : skipnN a (firstnN (a + b) l) = firstnN b (skipnN a l).
Proof. rewrite !firstnN_firstn, !skipnN_skipn, firstn_skipn_comm. do 2 f_equal. lia. Qed.
Lemma skipnN_cons_inv {A} (l : list A) a x r : skipnN a l = x :: r ->
  firstnN (a + 1) l = firstnN a l ++ [x] /\ skipnN (a + 1) l = r.
Proof.
  intros H. rewrite firstnN_add, <- skipnN_skipnN, H.
  change (firstnN 1 (x :: r)) with (x :: firstnN 0 r). change (skipnN 1 (x :: r)) with (skipnN 0 r).
  now rewrite firstnN_0, skipnN_0.
Qed.
Lemma skipnN_app_exact {A} (l1 l2 : list A) : skipnN (len l1) (l1 ++ l2) = l2.
Proof. apply ListXP.skipnN_app_exact. Qed.

Lemma concat_chunk {A} (k : N) (ls : list (list A)) j l :
  0 < k -> Forall (fun l => len l = k) ls -> nthN ls j = Some l ->
  firstnN k (skipnN (k * j) (concat ls)) = l.
Proof.
  intros Hk HF Hj. apply nthN_ext. intros x. rewrite nthN_firstnN, nthN_skipnN.
  assert (Hl : len l = k) by exact (proj1 (Forall_forall _ _) HF _ (nthN_In _ _ _ Hj)).
  destruct (N.ltb_spec x k) as [Hx|Hx].
  - rewrite (nthN_concat_uniform k) by assumption.
    replace (k * j + x) with (x + j * k) by lia.
    rewrite N.div_add, N.mod_add, N.div_small, N.mod_small by lia. rewrite N.add_0_l.
    now rewrite Hj.
  - symmetry. apply nthN_none. lia.
Qed.

Lemma countN_firstnN_add c l a b :
  countN c (firstnN (a + b) l) = countN c (firstnN a l) + countN c (firstnN b (skipnN a l)).
Proof. now rewrite firstnN_add, countN_app. Qed.
Lemma countN_firstnN_mono c l a b : a <= b -> countN c (firstnN a l) <= countN c (firstnN b l).
Proof. intros H. replace b with (a + (b - a)) by lia. rewrite countN_firstnN_add. lia. Qed.
Lemma countN_firstnN_hit c l x : nthN l x = Some c ->
  countN c (firstnN (x + 1) l) = countN c (firstnN x l) + 1.
Proof.
  intros H. rewrite countN_firstnN_add, (skipnN_nth l x c H). f_equal.
  rewrite (firstnN_succ c _ 0), firstnN_0. cbn [countN]. now rewrite N.eqb_refl.
Qed.

Lemma select_from_hit : forall l c x k pos,
  nthN l x = Some c -> countN c (firstnN x l) = k -> select_from l c k pos = Some (pos + x).
Proof. intros l c x k pos Hn Hk. apply select_from_complete; [exact Hn|now rewrite rank_spec_count]. Qed.

Lemma select_from_inv : forall l c k pos p,
  select_from l c k pos = Some p ->
  pos <= p /\ nthN l (p - pos) = Some c /\ countN c (firstnN (p - pos) l) = k.
Proof. intros l c k pos p H. rewrite <- rank_spec_count. now apply select_from_sound. Qed.

Lemma select_from_none : forall l c k pos, countN c l <= k -> select_from l c k pos = None.
Proof. intros l c. apply SeqP.select_from_none. Qed.

