(* Corollaries tying earlier results together:
   (C03) the end-to-end binary Huffman constructor hwt_new = craft2 then wt_build;
   (C12) the iterator over the binary wavelet trees (plain and Huffman-shaped), over freshly built
         ones and over the quad tree built by hq_new (qwt_new and hq_build: IterP.v);
   (C14) tree-level bound on the retained heap bytes of the binary trees;
   (C16) reported space of the Huffman-shaped trees (quad and binary) against the retained heap
         bytes of their levels. *)
From Coq Require Import ZArith Lia ZifyBool ZifyN ZifyNat Sorted.
From QwtModel Require Import ListX Seq Consts QVec RSQ QWT BitVec RSBin Huff Iter Space.
From QwtModel Require Import ListXP NBits OutcomeP WordsP QVecP RSQBits RSQBuild QWTArith BitVecP RSBinB.
From QwtModel Require Import Codes CraftP HQWTNewP IterP SpaceP BinWTP.
From QwtModel Require HQWTP QWTBuild BinFinalP.

(* f lists exactly the distinct symbols of seq with their code lengths (in bits), in the order the
   builder sorted them; binary fragments *)
Definition lengths_for2 (seq : list N) (f : list (N * N)) : Prop :=
  (forall x, In x seq <-> In x (map fst f)) /\ craft_input_ok 1 f (maxN seq).

Lemma sym_index_small x : x < 2 ^ 64 - 1 -> sym_index x = x.
Proof.
  intros H. unfold sym_index. apply N.mod_small. change (2 ^ 64) with 18446744073709551616 in *. lia.
Qed.

Theorem craft2_table_ok_seq : forall seq f tab, seq <> [] -> maxN seq < 2 ^ 64 - 1 -> lengths_for2 seq f ->
  craft2 f (sym_index (maxN seq)) = Val tab -> table_ok2 seq tab.
Proof.
  intros seq f tab Hne Hmax (Hin & Hi) H. unfold craft2 in H.
  rewrite (sym_index_small _ Hmax) in H.
  destruct (craft_table_ok 1 f (maxN seq) _ tab Hi H) as (T1 & T2 & T3 & T4).
  unfold table_ok2. split; [|split; [|split; [|split]]].
  - rewrite T1. change (2 ^ 64) with 18446744073709551616 in *. lia.
  - intros x Hx. apply Hin in Hx. apply in_map_iff in Hx as ([s l] & <- & Hp). cbn [fst].
    destruct (T2 s l Hp) as (c & Hc & _ & Hw). exists c. split; assumption.
  - intros x c Hc Hl.
    destruct (in_dec N.eq_dec x (map fst f)) as [Hxin|Hxout]; [now apply Hin|].
    exfalso. apply nthN_some_lt in Hc as Hlt. rewrite T1 in Hlt.
    rewrite (T3 x Hxout ltac:(lia)) in Hc. injection Hc as <-. apply Hl. reflexivity.
  - intros syms Hsub. unfold code_wm_ok in *.
    apply (HQWTP.wm_ok_sub _ _ _ (map fst f) syms T4). intros x Hx. apply Hin, Hsub, Hx.
  - intros x y c Hx Hy Ex Ey.
    apply (craft_codes_distinct 1 f (maxN seq) _ tab Hi H x y c); try assumption; now apply Hin.
Qed.

(* C03 for hwt_new = craft2 then wt_build *)
Theorem hwt_new_correct : forall w seq f, width_ok w -> Forall (fun x => x < 2 ^ w) seq ->
  len seq < RSQ_MAXN -> seq <> [] -> maxN seq < 2 ^ 64 - 1 -> lengths_for2 seq f ->
  forall tab, craft2 f (sym_index (maxN seq)) = Val tab ->   (* the builder did not fault: see hwt_new_total *)
  exists t, hwt_new w seq f = Val t /\ hwt_spec w t seq.
Proof.
  intros w seq f Hw HF Hn Hne Hmax Hlf tab Hc.
  pose proof (craft2_table_ok_seq seq f tab Hne Hmax Hlf Hc) as HT.
  destruct (hwt_build_correct select_in_word_correct popcount_correct w seq tab Hw HF Hn Hne HT) as (t & E & HS).
  exists t. split; [|exact HS].
  unfold hwt_new. destruct seq as [|x0 seq']; [congruence|]. rewrite Hc. cbn [bind]. exact E.
Qed.

(* with the explicit sufficient condition for the code builder to return (CraftP.craft_total);
   the scratch array of the binary builder has max(alphabet size, 2) entries *)
Corollary hwt_new_total : forall w seq f, width_ok w -> Forall (fun x => x < 2 ^ w) seq ->
  len seq < RSQ_MAXN -> seq <> [] -> maxN seq < 2 ^ 64 - 1 ->
  lengths_for2 seq f -> Forall (fun p => snd p <= 32) f -> craft_fits 1 f (N.max (len f) 2) = true ->
  exists t, hwt_new w seq f = Val t /\ hwt_spec w t seq.
Proof.
  intros w seq f Hw HF Hn Hne Hmax Hlf H32 Hfit.
  destruct (craft_total 1 f (maxN seq) (N.max (len f) 2) (proj2 Hlf) H32 Hfit) as (tab & Ht).
  apply (hwt_new_correct w seq f Hw HF Hn Hne Hmax Hlf tab).
  unfold craft2. rewrite (sym_index_small _ Hmax). exact Ht.
Qed.

(* the empty sequence (hwt_new does not call the code builder) *)
Theorem hwt_new_nil : forall w f, exists t, hwt_new w [] f = Val t /\ hwt_spec w t [].
Proof. intros w f. exact (hwt_build_nil w []). Qed.

(* C12 for the binary trees *)
Theorem wt_iter_correct : forall w t seq, wt_spec w t seq -> len seq < 2 ^ 64 ->
  forall h, wtit_run (wt_get_unchecked w false t) (wtit_new (w_n t)) h = Val (deque_run seq h).
Proof.
  intros w t seq HS Hl h.
  destruct HS as (El & _ & _ & _ & _ & Hgu & _).
  rewrite El. now apply wtit_run_correct.
Qed.

Theorem hwt_iter_correct : forall w t seq, hwt_spec w t seq -> len seq < 2 ^ 64 ->
  forall h, wtit_run (wt_get_unchecked w true t) (wtit_new (w_n t)) h = Val (deque_run seq h).
Proof.
  intros w t seq HS Hl h.
  destruct HS as (El & _ & _ & _ & Hgu & _).
  rewrite El. now apply wtit_run_correct.
Qed.

Corollary wt_new_iter : forall w seq, width_ok w -> Forall (fun x => x < 2 ^ w) seq -> len seq < RSQ_MAXN ->
  exists t, wt_build w false seq [] = Val t /\
    forall h, wtit_run (wt_get_unchecked w false t) (wtit_new (w_n t)) h = Val (deque_run seq h).
Proof.
  intros w seq Hw HF Hn.
  destruct (wt_build_correct select_in_word_correct popcount_correct w seq Hw HF Hn) as (t & E & HS).
  exists t. split; [exact E|]. apply (wt_iter_correct w t seq HS). now apply maxn_lt_64.
Qed.

Corollary hwt_build_iter : forall w seq tab, width_ok w -> Forall (fun x => x < 2 ^ w) seq ->
  len seq < RSQ_MAXN -> seq <> [] -> table_ok2 seq tab ->
  exists t, wt_build w true seq tab = Val t /\
    forall h, wtit_run (wt_get_unchecked w true t) (wtit_new (w_n t)) h = Val (deque_run seq h).
Proof.
  intros w seq tab Hw HF Hn Hne HT.
  destruct (hwt_build_correct select_in_word_correct popcount_correct w seq tab Hw HF Hn Hne HT) as (t & E & HS).
  exists t. split; [exact E|]. apply (hwt_iter_correct w t seq HS). now apply maxn_lt_64.
Qed.

Corollary hwt_new_iter : forall w seq f, width_ok w -> Forall (fun x => x < 2 ^ w) seq ->
  len seq < RSQ_MAXN -> seq <> [] -> maxN seq < 2 ^ 64 - 1 -> lengths_for2 seq f ->
  forall tab, craft2 f (sym_index (maxN seq)) = Val tab ->
  exists t, hwt_new w seq f = Val t /\
    forall h, wtit_run (wt_get_unchecked w true t) (wtit_new (w_n t)) h = Val (deque_run seq h).
Proof.
  intros w seq f Hw HF Hn Hne Hmax Hlf tab Hc.
  destruct (hwt_new_correct w seq f Hw HF Hn Hne Hmax Hlf tab Hc) as (t & E & HS).
  exists t. split; [exact E|]. apply (hwt_iter_correct w t seq HS). now apply maxn_lt_64.
Qed.

Corollary hq_new_iter : forall w bsize seq f, HQWTP.width_ok w -> (bsize = 256 \/ bsize = 512) ->
  Forall (fun x => x < 2 ^ w) seq -> len seq < RSQ_MAXN -> seq <> [] -> maxN seq < 2 ^ 64 - 1 ->
  lengths_for seq f ->
  forall tab, craft4 f (sym_index (maxN seq)) = Val tab ->
  exists t, hq_new bsize seq f = Val t /\
    forall h, wtit_run (hq_get_unchecked w bsize t) (wtit_new (hq_len t)) h = Val (deque_run seq h).
Proof.
  intros w bsize seq f Hw Hb HF Hn Hne Hmax Hlf tab Hc.
  destruct (hq_new_correct w bsize seq f Hw Hb HF Hn Hne Hmax Hlf tab Hc) as (t & E & HS).
  exists t. split; [exact E|]. apply (hq_iter_correct w bsize t seq HS). now apply maxn_lt_64.
Qed.

(* heap bytes retained by the levels of the Huffman quad tree: the boxed slice of RSQVectors, what
   each of them keeps alive, and the vector of level lengths *)
Definition hq_heap_levels (t : hqwt) : N :=
  sz_rsq abi64 * len (h_qvs t) + sumN (map rsq_heap (h_qvs t)) + 8 * len (h_lens t).

(* C16: reported = retained by the levels + 16 (n, n_levels) + what the code reports for the code table
   (256 * 8) and for the decode tables (5 bytes per entry) *)
Theorem hq_space_heap : forall t, Forall (fun r => len (rs_samples (rsq_rs r)) = 4) (h_qvs t) ->
  hq_space t None = hq_heap_levels t + 16 + 256 * 8 + sumN (map (fun v => len v * 5) (h_decode t)).
Proof.
  intros t HF. unfold hq_space, hq_heap_levels. cbn [sz_rsq abi64].
  rewrite (sumN_map_add_Forall _ rsq_space rsq_heap 144 _ rsq_space_heap HF). lia.
Qed.

(* C16, binary trees, both flavours: per level the code does not report n_zeros (8 of the 88 inline
   bytes of an RSWide); the compressed one adds the code table (256 * 8) and 5 bytes per decode
   TABLE *)
Theorem wt_space_heap_gen : forall compressed t,
  wt_space compressed t + 8 * len (w_bvs t) =
  wt_heap_plain abi64 t + 16 +
  (if compressed then 256 * 8 + match w_decode t with Some d => len d * 5 | None => 0 end else 0).
Proof.
  intros compressed t. unfold wt_space, wt_heap_plain. cbn [sz_rsw abi64].
  rewrite (sumN_map_add rsw_space rsw_heap 80) by (intros r; pose proof (rsw_space_heap r); lia).
  destruct compressed; lia.
Qed.

Theorem hwt_space_heap : forall t,
  wt_space true t + 8 * len (w_bvs t) =
  wt_heap_plain abi64 t + 16 + 256 * 8 + match w_decode t with Some d => len d * 5 | None => 0 end.
Proof. intros t. rewrite (wt_space_heap_gen true t). lia. Qed.

Lemma flat_opt_len {B} (l : list (option B)) :
  len (flat_map (fun o => match o with Some d => [d] | None => [] end) l) <= len l.
Proof.
  induction l as [|o l IH]; cbn [flat_map]; [lens; lia|]. destruct o; cbv iota; lens; lia.
Qed.

Lemma len_combine_le {A B} (a : list A) (b : list B) : len (combine a b) <= len b.
Proof. unfold len. rewrite combine_length. lia. Qed.

Lemma len_filter_le {A} (p : A -> bool) l : len (filter p l) <= len l.
Proof. apply ListXP.len_filter_le. Qed.

Lemma pick_step {A} (l : list (N * A)) d d' : d' = d + 1 ->
  len (filter (fun p => fst p =? d) l) + len (filter (fun p => d' <=? fst p) l) <=
  len (filter (fun p => d <=? fst p) l).
Proof.
  intros ->. induction l as [|x l IH]; cbn [filter]; [lens; lia|].
  destruct (N.eqb_spec (fst x) d), (N.leb_spec (d + 1) (fst x)), (N.leb_spec d (fst x)); lens; lia.
Qed.

Lemma pick5_len {A} (l : list (N * A)) :
  len (filter (fun p => fst p =? 0) l) + len (filter (fun p => fst p =? 1) l) +
  len (filter (fun p => fst p =? 2) l) + len (filter (fun p => fst p =? 3) l) +
  len (filter (fun p => fst p =? 4) l) <= len l.
Proof.
  pose proof (pick_step l 0 1 eq_refl). pose proof (pick_step l 1 2 eq_refl). pose proof (pick_step l 2 3 eq_refl).
  pose proof (pick_step l 3 4 eq_refl). pose proof (pick_step l 4 5 eq_refl).
  pose proof (len_filter_le (fun p => 0 <=? fst p) l). lia.
Qed.

Lemma part_with_codes_len nb seq shift codes seq' : nb = 2 \/ nb = 4 ->
  part_with_codes nb seq shift codes = Val seq' -> len seq' <= len seq.
Proof.
  intros Hnb E. unfold part_with_codes in E. dbind E. rename a into tagged.
  pose proof (mapo_len _ _ _ E0) as Hl. injection E as <-.
  pose proof (pick5_len tagged) as H5.
  destruct Hnb as [-> | ->].
  - change (2 =? 4) with false. cbv iota. lens. rewrite !len_map. lia.
  - change (4 =? 4) with true. cbv iota. lens. rewrite !len_map. lia.
Qed.

Lemma stable_partition_of_2_len w seq sh seq' :
  stable_partition_of_2 w seq sh = Val seq' -> len seq' <= len seq.
Proof.
  intros E. unfold stable_partition_of_2 in E. dbind E. rename a into ds. injection E as <-.
  pose proof (pick5_len (combine ds seq)) as H5. pose proof (len_combine_le ds seq).
  lens. rewrite !len_map. lia.
Qed.

(* heap bytes of an RSWide over n bits (SpaceP.rsw_heap_bound, constants collected:
   136 = 64 (partial line) + 32 (two extra u128) + 40 (five extra hints)) *)
Definition rsw_bytes (n : N) : N := n / 8 + (n / 4096) * 16 + (n / 8192) * 8 + 136.

Lemma rsw_of_bools_heap bits bv r : len bits < 2 ^ 43 ->
  bv_from_bools bits = Val bv -> rsw_new bv = Val r ->
  rsw_bv r = bv /\ bv_len bv = len bits /\ rsw_heap r <= rsw_bytes (len bits).
Proof.
  intros Hn Eb Er.
  assert (H63 : len bits < 2 ^ 63) by (norm_pow; norm_pow in Hn; lia).
  destruct (built (bv_from_bools_correct bits H63) Eb) as (Hinv & Habs).
  assert (Enb : bv_nbits bv = len bits) by (rewrite <- (inv_len bv Hinv), Habs; reflexivity).
  assert (Hwf : RSBinB.bv_wf bv) by (apply BinFinalP.bv_inv_wf_rs; [exact Hinv|lia]).
  pose proof (rsw_heap_bound bv r Hwf Er) as Hb. rewrite Enb in Hb.
  split; [exact (proj1 (rsw_new_lens bv r Hwf Er))|]. split; [exact Enb|]. unfold rsw_bytes. lia.
Qed.

Lemma wt_levels_heap : forall nl w compressed seq codes n_levels shift rs lens,
  len seq < 2 ^ 43 ->
  wt_levels w compressed seq codes n_levels shift nl = Val (rs, lens) ->
  len rs = N.of_nat nl /\ len lens = N.of_nat nl /\
  map (fun r => bv_len (rsw_bv r)) rs = lens /\
  sumN (map rsw_heap rs) <= sumN (map rsw_bytes lens) /\
  Forall (fun ln => ln <= len seq) lens.
Proof.
  induction nl as [|nl IH]; intros w compressed seq codes n_levels shift rs lens Hn E; cbn [wt_levels] in E.
  - injection E as <- <-. cbn [map sumN]. split; [reflexivity|]. split; [reflexivity|]. split; [reflexivity|]. split; [lia|constructor].
  - dbind E. rename a into bs. rename E0 into Ebs. cbv zeta in E.
    pose proof (mapo_len _ _ _ Ebs) as Hbs.
    set (bits := flat_map (fun o : option bool => match o with Some d => [d] | None => [] end) bs) in *.
    assert (Hbits : len bits <= len seq) by (unfold bits; pose proof (flat_opt_len bs); lia).
    dbind E. rename a into bv. rename E0 into Ebv.
    dbind E. rename a into r. rename E0 into Er.
    dbind E. rename a into seq'. rename E0 into Eseq'.
    dbind E. destruct a as [rest lens']. rename E0 into Erest. injection E as <- <-.
    assert (Hseq' : len seq' <= len seq).
    { destruct compressed.
      - apply (part_with_codes_len 2 seq shift codes seq'); [now left|exact Eseq'].
      - dbind Eseq'. exact (stable_partition_of_2_len w seq a seq' Eseq'). }
    destruct (IH w compressed seq' codes n_levels (shift + 1) rest lens' ltac:(lia) Erest)
      as (I1 & I2 & I3 & I4 & I5).
    destruct (rsw_of_bools_heap bits bv r ltac:(lia) Ebv Er) as (B0 & B1 & B3).
    rewrite !len_cons, I1, I2. cbn [map sumN]. rewrite B0, I3, B1.
    split; [lia|]. split; [lia|]. split; [reflexivity|]. split; [lia|].
    constructor; [exact Hbits|]. eapply Forall_impl; [|exact I5]. cbv beta. intros ln Hln. lia.
Qed.

(* per level of n bits: n/8 bytes of bits, one u128 per 4096 bits, one usize hint per 8192 bits (ones and
   zeros together), and 232 bytes of constants (64 partial line + 32 two extra u128 + 40 five extra hints +
   88 inline RSWide + 8 level length) *)
Lemma wt_build_heap : forall w compressed seq tab t, len seq < RSQ_MAXN -> seq <> [] ->
  wt_build w compressed seq tab = Val t ->
  w_n_levels t = (if compressed then maxN (map pc_len tab) else msb (maxN seq) + 1) /\
  len (w_lens t) = w_n_levels t /\
  map (fun r => bv_len (rsw_bv r)) (w_bvs t) = w_lens t /\
  Forall (fun ln => ln <= len seq) (w_lens t) /\
  wt_heap_plain abi64 t <=
    sumN (map (fun n => n / 8 + (n / 4096) * 16 + (n / 8192) * 8 + 232) (w_lens t)).
Proof.
  intros w compressed seq tab t Hn Hne E. destruct seq as [|x0 seq']; [congruence|].
  cbn [wt_build] in E. set (s := x0 :: seq') in *.
  rewrite (sumN_map_add (fun n => n / 8 + n / 4096 * 16 + n / 8192 * 8 + 232) rsw_bytes 96)
    by (intros n; unfold rsw_bytes; lia).
  unfold wt_heap_plain. cbn [sz_rsw abi64].
  (* either flavour is one run of wt_levels *)
  destruct compressed; dbind E; destruct a as [bvs lens]; apply Val_inj in E; subst t; cbn [w_bvs w_lens w_n_levels].
  all: destruct (wt_levels_heap _ _ _ _ _ _ _ _ _ (maxn_lt_43 _ Hn) E0) as (H1 & H2 & H3 & H4 & H5).
  all: rewrite H1, H2; repeat split; try assumption; lia.
Qed.

Lemma wt_heap_coarse : forall w compressed seq tab t, len seq < RSQ_MAXN -> seq <> [] ->
  wt_build w compressed seq tab = Val t ->
  wt_heap_plain abi64 t <=
  w_n_levels t * (len seq / 8 + (len seq / 4096) * 16 + (len seq / 8192) * 8 + 232).
Proof.
  intros w compressed seq tab t Hn Hne E.
  destruct (wt_build_heap w compressed seq tab t Hn Hne E) as (_ & H1 & _ & H3 & H4).
  etransitivity; [exact H4|]. rewrite <- H1, N.mul_comm.
  apply (sumN_map_le (fun ln => ln <= len seq)); [|exact H3]. intros n Hle. lia.
Qed.

(* C14, plain binary tree: L = bitlen(max) levels (msb + 1).
   No premise on the width or on the symbols is needed beyond the construction having returned. *)
Theorem wt_heap_bound_gen : forall w seq t, len seq < RSQ_MAXN -> seq <> [] ->
  wt_build w false seq [] = Val t ->
  wt_heap_plain abi64 t <=
  (msb (maxN seq) + 1) * (len seq / 8 + (len seq / 4096) * 16 + (len seq / 8192) * 8 + 232).
Proof.
  intros w seq t Hn Hne E. rewrite <- (proj1 (wt_build_heap w false seq [] t Hn Hne E)).
  exact (wt_heap_coarse w false seq [] t Hn Hne E).
Qed.

Theorem wt_heap_bound : forall w seq t, width_ok w -> Forall (fun x => x < 2 ^ w) seq ->
  len seq < RSQ_MAXN -> seq <> [] -> wt_build w false seq [] = Val t ->
  wt_heap_plain abi64 t <=
  (msb (maxN seq) + 1) * (len seq / 8 + (len seq / 4096) * 16 + (len seq / 8192) * 8 + 232).
Proof. intros w seq t _ _. apply wt_heap_bound_gen. Qed.

Theorem wt_heap_empty : forall w compressed tab t, wt_build w compressed [] tab = Val t ->
  wt_heap_plain abi64 t = 0.
Proof. intros w compressed tab t E. cbn [wt_build] in E. injection E as <-. reflexivity. Qed.

Corollary wt_new_heap_bound : forall w seq, width_ok w -> Forall (fun x => x < 2 ^ w) seq ->
  len seq < RSQ_MAXN -> seq <> [] ->
  exists t, wt_build w false seq [] = Val t /\ wt_spec w t seq /\
    wt_heap_plain abi64 t <=
    (msb (maxN seq) + 1) * (len seq / 8 + (len seq / 4096) * 16 + (len seq / 8192) * 8 + 232).
Proof.
  intros w seq Hw HF Hn Hne.
  destruct (wt_build_correct select_in_word_correct popcount_correct w seq Hw HF Hn) as (t & E & HS).
  exists t. split; [exact E|]. split; [exact HS|]. now apply (wt_heap_bound_gen w).
Qed.

(* levels of the Huffman-shaped tree shrink: the bound is in terms of the recorded level lengths (w_lens t: the
   number of bits of each level, at most len seq each, max code length many) *)
Theorem hwt_heap_bound : forall w seq tab t, len seq < RSQ_MAXN -> seq <> [] ->
  wt_build w true seq tab = Val t ->
  len (w_lens t) = maxN (map pc_len tab) /\
  map (fun r => bv_len (rsw_bv r)) (w_bvs t) = w_lens t /\
  Forall (fun ln => ln <= len seq) (w_lens t) /\
  wt_heap_plain abi64 t <=
    sumN (map (fun n => n / 8 + (n / 4096) * 16 + (n / 8192) * 8 + 232) (w_lens t)).
Proof.
  intros w seq tab t Hn Hne E. destruct (wt_build_heap w true seq tab t Hn Hne E) as (H0 & H1 & H).
  rewrite H0 in H1. exact (conj H1 H).
Qed.

Corollary hwt_heap_bound_coarse : forall w seq tab t, len seq < RSQ_MAXN -> seq <> [] ->
  wt_build w true seq tab = Val t ->
  wt_heap_plain abi64 t <=
    maxN (map pc_len tab) * (len seq / 8 + (len seq / 4096) * 16 + (len seq / 8192) * 8 + 232).
Proof.
  intros w seq tab t Hn Hne E. rewrite <- (proj1 (wt_build_heap w true seq tab t Hn Hne E)).
  exact (wt_heap_coarse w true seq tab t Hn Hne E).
Qed.

Lemma rsq_level_bytes_mono bsize n m : bsz bsize -> n <= m ->
  rsq_level_bytes bsize n <= rsq_level_bytes bsize m.
Proof. intros [-> | ->] H; unfold rsq_level_bytes; lia. Qed.

Lemma hq_levels_heap : forall nl bsize seq codes shift qvs lens, bsz bsize -> len seq < RSQ_MAXN ->
  hq_levels bsize seq codes shift nl = Val (qvs, lens) ->
  len qvs = N.of_nat nl /\ len lens = N.of_nat nl /\
  Forall (fun r => len (rs_samples (rsq_rs r)) = 4) qvs /\
  sumN (map rsq_heap qvs) <= sumN (map (rsq_level_bytes bsize) lens) /\
  Forall (fun ln => ln <= len seq) lens.
Proof.
  induction nl as [|nl IH]; intros bsize seq codes shift qvs lens Hb Hn E; cbn [hq_levels] in E.
  - injection E as <- <-. cbn [map sumN]. split; [reflexivity|]. split; [reflexivity|]. split; [constructor|]. split; [lia|constructor].
  - dbind E. rename a into ds. rename E0 into Eds. cbv zeta in E.
    pose proof (mapo_len _ _ _ Eds) as Hds.
    set (digits := flat_map (fun o : option N => match o with Some d => [d] | None => [] end) ds) in *.
    assert (Hdl : len digits <= len seq) by (unfold digits; pose proof (flat_opt_len ds); lia).
    assert (Hd4 : Forall (fun x => x < 4) digits).
    { assert (HQ : Forall (fun o : option N => match o with Some d => d < 4 | None => True end) ds).
      { refine (proj1 (mapo_Forall _ (fun _ => True) _ _ seq ds _ Eds)).
        - intros x y _ Ey. dbind Ey. destruct (shift <=? pc_len a); injection Ey as <-; [|exact I].
          rewrite land3. lia.
        - apply Forall_forall. intros; exact I. }
      unfold digits. clear -HQ. induction HQ as [|o l Ho HF IHl]; cbn [flat_map]; [constructor|].
      destruct o; cbn [app]; [constructor; assumption|assumption]. }
    destruct (qvb_push_all_inv digits qvb_new [] qvb_inv_new) as (q & Eq & Hq).
    rewrite Eq in E. cbn [bind] in E. cbn [app] in Hq. rewrite (QWTBuild.map_sym4_id _ Hd4) in Hq.
    dbind E. rename a into r. rename E0 into Er.
    dbind E. rename a into seq'. rename E0 into Eseq'.
    dbind E. destruct a as [rest lens']. rename E0 into Erest. injection E as <- <-.
    pose proof (part_with_codes_len 4 seq shift codes seq' ltac:(now right) Eseq') as Hseq'.
    destruct (IH bsize seq' codes (shift + 2) rest lens' Hb ltac:(lia) Erest) as (I1 & I2 & I3 & I4 & I5).
    destruct (rsq_from_qv_level bsize q digits r Hb Hq Hd4 ltac:(lia) Er) as (L1 & L2).
    rewrite !len_cons, I1, I2, (qv_len_inv q _ Hq). cbn [map sumN].
    split; [lia|]. split; [lia|]. split; [constructor; assumption|]. split; [lia|].
    constructor; [exact Hdl|]. eapply Forall_impl; [|exact I5]. cbv beta. intros ln Hln. lia.
Qed.

(* every built Huffman quad tree satisfies the side condition of hq_space_heap, and its levels are
   bounded level by level: per level of recorded length n, the one-level size of RSQVector
   (SpaceP.rsq_level_bytes) + 144 inline + 8 for the length *)
Theorem hq_build_heap : forall bsize seq tab t, (bsize = 256 \/ bsize = 512) -> len seq < RSQ_MAXN ->
  hq_build bsize seq tab = Val t ->
  Forall (fun r => len (rs_samples (rsq_rs r)) = 4) (h_qvs t) /\
  Forall (fun ln => ln <= len seq) (h_lens t) /\
  hq_heap_levels t <= sumN (map (fun n => rsq_level_bytes bsize n + 152) (h_lens t)).
Proof.
  intros bsize seq tab t Hb Hn E. unfold hq_heap_levels. cbn [sz_rsq abi64].
  rewrite (sumN_map_add (fun n => rsq_level_bytes bsize n + 152) (rsq_level_bytes bsize) 152)
    by (intros; reflexivity).
  destruct seq as [|x0 seq'].
  - cbn [hq_build] in E. dbind E. injection E as <-. cbn [h_qvs h_lens].
    unfold rsq_default in E0.
    destruct (rsq_from_qv_level bsize qvb_new [] a Hb qvb_inv_new (Forall_nil _) Hn E0) as (L1 & L2).
    split; [constructor; [exact L2|constructor]|]. split; [constructor; [lia|constructor]|].
    cbn [map sumN]. change (len (@nil N)) with 0 in L1. lens. lia.
  - rewrite HQWTP.hq_build_cons in E. set (s := x0 :: seq') in *.
    dbind E. destruct a as [qvs lens]. injection E as <-. cbn [h_qvs h_lens].
    destruct (hq_levels_heap _ _ _ _ _ _ _ Hb Hn E0) as (H1 & H2 & H3 & H4 & H5).
    split; [exact H3|]. split; [exact H5|]. rewrite H1, H2. lia.
Qed.

Corollary hq_build_space_heap : forall bsize seq tab t, (bsize = 256 \/ bsize = 512) ->
  len seq < RSQ_MAXN -> hq_build bsize seq tab = Val t ->
  hq_space t None = hq_heap_levels t + 16 + 256 * 8 + sumN (map (fun v => len v * 5) (h_decode t)).
Proof.
  intros bsize seq tab t Hb Hn E. apply hq_space_heap. exact (proj1 (hq_build_heap bsize seq tab t Hb Hn E)).
Qed.

Corollary hq_new_space_heap : forall bsize seq f t, (bsize = 256 \/ bsize = 512) ->
  len seq < RSQ_MAXN -> hq_new bsize seq f = Val t ->
  hq_space t None = hq_heap_levels t + 16 + 256 * 8 + sumN (map (fun v => len v * 5) (h_decode t)).
Proof.
  intros bsize seq f t Hb Hn E. unfold hq_new in E. destruct seq as [|x0 seq'].
  - exact (hq_build_space_heap bsize [] [] t Hb Hn E).
  - dbind E. exact (hq_build_space_heap bsize _ a t Hb Hn E).
Qed.

(* for u8 / u16 / u32 the bound on the maximum is implied *)
Corollary hwt_new_correct_narrow : forall w seq f, w = 8 \/ w = 16 \/ w = 32 ->
  Forall (fun x => x < 2 ^ w) seq -> len seq < RSQ_MAXN -> seq <> [] -> lengths_for2 seq f ->
  forall tab, craft2 f (sym_index (maxN seq)) = Val tab ->
  exists t, hwt_new w seq f = Val t /\ hwt_spec w t seq.
Proof.
  intros w seq f Hw HF Hn Hne Hlf tab Hc.
  apply (hwt_new_correct w seq f) with (tab := tab); try assumption.
  - unfold width_ok. lia.
  - pose proof (maxN_lt seq (2 ^ w) (pow2_pos w) HF) as Hm.
    assert (2 ^ w <= 2 ^ 32) by (apply N.pow_le_mono_r; lia).
    change (2 ^ 32) with 4294967296 in *. change (2 ^ 64) with 18446744073709551616. lia.
Qed.

(* the request of BinWTP.hwt_ex_craft: symbols 5, 9, 0, 2 with code lengths 1, 2, 3, 3 *)
Definition hwn_f : list (N * N) := [(5, 1); (9, 2); (0, 3); (2, 3)].

Example hwn_lengths_for2 : lengths_for2 hwt_ex_seq hwn_f.
Proof.
  split.
  - intros x. unfold hwt_ex_seq, hwn_f. cbn [map fst In]. split; intros H;
      repeat (destruct H as [<-|H]; [tauto|]); contradiction.
  - split; [now left|]. split; [|split; [|split]].
    + unfold hwn_f. cbn [map fst]. repeat (constructor; [cbn [In]; lia|]). constructor.
    + unfold hwn_f, hwt_ex_seq. repeat (constructor; [cbn [fst snd]; vm_compute; repeat split; discriminate|]). constructor.
    + unfold hwn_f. repeat (constructor; [|repeat (constructor; [cbn [snd]; lia|]); constructor]). constructor.
    + vm_compute. reflexivity.
Qed.

Example hwn_fits : craft_fits 1 hwn_f (N.max (len hwn_f) 2) = true.
Proof. vm_compute. reflexivity. Qed.

Example hwn_thm : exists t, hwt_new 8 hwt_ex_seq hwn_f = Val t /\ hwt_spec 8 t hwt_ex_seq /\
  forall h, wtit_run (wt_get_unchecked 8 true t) (wtit_new (w_n t)) h = Val (deque_run hwt_ex_seq h).
Proof.
  assert (HF : Forall (fun x => x < 2 ^ 8) hwt_ex_seq) by (apply Forall_ltb; vm_compute; reflexivity).
  destruct (hwt_new_total 8 hwt_ex_seq hwn_f) as (t & E & HS).
  - left. reflexivity.
  - exact HF.
  - reflexivity.
  - discriminate.
  - vm_compute. reflexivity.
  - exact hwn_lengths_for2.
  - unfold hwn_f. repeat (constructor; [cbn [snd]; lia|]). constructor.
  - exact hwn_fits.
  - exists t. split; [exact E|]. split; [exact HS|]. apply (hwt_iter_correct 8 t _ HS). vm_compute. reflexivity.
Qed.

Example hwn_iter_run :
  match hwt_new 8 [5; 0; 9; 2; 5] hwn_f with
  | Val t => wtit_run (wt_get_unchecked 8 true t) (wtit_new (w_n t)) [INext; ILen; IBack; IBack; INext; INext; INext; ILen]
             = Val [OSome 5; OLen 4; OSome 5; OSome 2; OSome 0; OSome 9; ONone; OLen 0]
  | Fault _ => False
  end.
Proof. vm_compute. reflexivity. Qed.

Example wt_heap_30 :
  match wt_build 16 false wt_ex_seq [] with
  | Val t => wt_heap_plain abi64 t = 2016 /\ wt_space false t = 1960 /\
             (msb (maxN wt_ex_seq) + 1) * (len wt_ex_seq / 8 + (len wt_ex_seq / 4096) * 16 + (len wt_ex_seq / 8192) * 8 + 232) = 2115
  | Fault _ => False
  end.
Proof. vm_compute. repeat split; reflexivity. Qed.

(* the bound of wt_heap_bound is attained: 7681 zeros (one level; see SpaceP.rsw_bound_attained) *)
Example wt_heap_bound_attained :
  let s := repeat 0 (N.to_nat 7681) in
  match wt_build 8 false s [] with
  | Val t => wt_heap_plain abi64 t = 1208 /\
             (msb (maxN s) + 1) * (len s / 8 + (len s / 4096) * 16 + (len s / 8192) * 8 + 232) = 1208
  | Fault _ => False
  end.
Proof. vm_compute. split; reflexivity. Qed.

(* as in wt_space_heap_gen: 2732 = 672 + 16 + 2048 + 4 * 5 - 3 * 8 *)
Example hwt_heap_30 :
  match wt_build 8 true hwt_ex_seq hwt_ex_tab with
  | Val t => wt_heap_plain abi64 t = 672 /\ wt_space true t = 2732 /\ w_lens t = [30; 20; 10] /\
             w_decode t <> None /\ match w_decode t with Some d => len d | None => 0 end = 4 /\
             sumN (map (fun n => n / 8 + (n / 4096) * 16 + (n / 8192) * 8 + 232) (w_lens t)) = 702
  | Fault _ => False
  end.
Proof. vm_compute. repeat split; try reflexivity. discriminate. Qed.

(* the tree of HQWTNewP.hqn_thm; as in hq_space_heap: 2713 = 624 + 16 + 2048 + 5 * 5; the level-wise
   bound of hq_build_heap is exact here *)
Example hq_heap_12 :
  match hq_new 256 hqn_seq hqn_f with
  | Val t => hq_space t None = 2713 /\ hq_heap_levels t = 624 /\ h_lens t = [12; 4] /\
             sumN (map (fun v => len v * 5) (h_decode t)) = 25 /\
             sumN (map (fun n => rsq_level_bytes 256 n + 152) (h_lens t)) = 624
  | Fault _ => False
  end.
Proof. vm_compute. repeat split; reflexivity. Qed.

Print Assumptions craft2_table_ok_seq.
Print Assumptions hwt_new_correct.
Print Assumptions hwt_new_total.
Print Assumptions hwt_new_nil.
Print Assumptions hwt_new_correct_narrow.
Print Assumptions wt_iter_correct.
Print Assumptions hwt_iter_correct.
Print Assumptions wt_new_iter.
Print Assumptions hwt_build_iter.
Print Assumptions hwt_new_iter.
Print Assumptions hq_new_iter.
Print Assumptions hq_space_heap.
Print Assumptions wt_space_heap_gen.
Print Assumptions hwt_space_heap.
Print Assumptions wt_levels_heap.
Print Assumptions wt_heap_bound_gen.
Print Assumptions wt_heap_bound.
Print Assumptions wt_heap_empty.
Print Assumptions wt_new_heap_bound.
Print Assumptions hwt_heap_bound.
Print Assumptions hwt_heap_bound_coarse.
Print Assumptions hq_levels_heap.
Print Assumptions hq_build_heap.
Print Assumptions hq_build_space_heap.
Print Assumptions hq_new_space_heap.
Print Assumptions hwn_lengths_for2.
Print Assumptions hwn_fits.
Print Assumptions hwn_thm.
Print Assumptions hwn_iter_run.
Print Assumptions wt_heap_30.
Print Assumptions wt_heap_bound_attained.
Print Assumptions hwt_heap_30.
Print Assumptions hq_heap_12.
