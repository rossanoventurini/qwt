(* The outcome monad, the checked machine arithmetic and the indexing operations of Base/Outcome.v, Base/ListX.v
   and Base/Loops.v: when an operation returns a value, and what a returned value says about its arguments. *)
From Coq Require Import ZArith Lia.
From QwtModel Require Import ListX Loops ListXP NBits.
Open Scope N_scope.

(* instead of [injection] / [inversion], which normalise the arguments of Val (and do not come back when one
   of them is a shift by a large literal) *)
Lemma Val_inj {A} (a b : A) : Val a = Val b -> a = b.
Proof. intros H. now injection H. Qed.

Lemma bind_Val_r {A} (x : outcome A) : bind x (fun a => Val a) = x.
Proof. now destruct x. Qed.

Lemma bind_Val_inv {A B} (x : outcome A) (f : A -> outcome B) v :
  bind x f = Val v -> exists a, x = Val a /\ f a = Val v.
Proof. destruct x as [a|]; cbn [bind]; intros H; [now exists a|discriminate]. Qed.

(* [H : bind x f = Val v] becomes [E : x = Val a] and [H : f a = Val v] *)
Ltac binv H a E := apply bind_Val_inv in H; destruct H as (a & E & H).

Lemma built {T} (P : T -> Prop) (o : outcome T) t : (exists t', o = Val t' /\ P t') -> o = Val t -> P t.
Proof. intros (t' & E' & H) E. rewrite E in E'. injection E' as <-. exact H. Qed.
Arguments built {T P o t}.

Lemma oassert_Val c u : oassert c = Val u -> c = true.
Proof. destruct c; [reflexivity|discriminate]. Qed.

Lemma oadd_ok w a b : a + b < 2 ^ w -> oadd w a b = Val (a + b).
Proof. intros H. unfold oadd. destruct (N.ltb_spec (a + b) (2 ^ w)); [reflexivity|lia]. Qed.
Lemma omul_ok w a b : a * b < 2 ^ w -> omul w a b = Val (a * b).
Proof. intros H. unfold omul. destruct (N.ltb_spec (a * b) (2 ^ w)); [reflexivity|lia]. Qed.
Lemma osub_ok a b : b <= a -> osub a b = Val (a - b).
Proof. intros H. unfold osub. destruct (N.leb_spec b a); [reflexivity|lia]. Qed.
Lemma oshr_ok w x s : s < w -> oshr w x s = Val (N.shiftr x s).
Proof. intros H. unfold oshr. destruct (N.ltb_spec s w); [reflexivity|lia]. Qed.
Lemma oshl_ok w x s : s < w -> oshl w x s = Val (N.shiftl x s mod 2 ^ w).
Proof. intros H. unfold oshl. destruct (N.ltb_spec s w); [reflexivity|lia]. Qed.

Lemma oadd_Val_inv w a b v : oadd w a b = Val v -> v = a + b /\ a + b < 2 ^ w.
Proof. unfold oadd. destruct (N.ltb_spec (a + b) (2 ^ w)); intros E; [now inversion E|discriminate]. Qed.
Lemma omul_Val_inv w a b v : omul w a b = Val v -> v = a * b /\ a * b < 2 ^ w.
Proof. unfold omul. destruct (N.ltb_spec (a * b) (2 ^ w)); intros E; [now inversion E|discriminate]. Qed.
Lemma osub_Val_inv a b v : osub a b = Val v -> v = a - b /\ b <= a.
Proof. unfold osub. destruct (N.leb_spec b a); intros E; [now inversion E|discriminate]. Qed.

Lemma idx_Val {A} (l : list A) i a : idx l i = Val a -> nthN l i = Some a.
Proof. unfold idx. destruct (nthN l i); intros E; [now inversion E|discriminate]. Qed.
Lemma uidx_Val {A} (l : list A) i a : uidx l i = Val a -> nthN l i = Some a.
Proof. unfold uidx. destruct (nthN l i); intros E; [now inversion E|discriminate]. Qed.
Lemma idx_lt {A} (l : list A) i a : idx l i = Val a -> i < len l.
Proof. intros E. eapply nthN_some_lt, idx_Val, E. Qed.
Lemma idx_Forall {A} (P : A -> Prop) (l : list A) i a : Forall P l -> idx l i = Val a -> P a.
Proof. intros HF E. exact (Forall_nthN P l i a HF (idx_Val l i a E)). Qed.
Lemma uidx_Forall {A} (P : A -> Prop) (l : list A) i a : Forall P l -> uidx l i = Val a -> P a.
Proof. intros HF E. exact (Forall_nthN P l i a HF (uidx_Val l i a E)). Qed.
Lemma idx_map {A B} (f : A -> B) l i : idx (map f l) i = (let! x := idx l i in Val (f x)).
Proof. unfold idx. rewrite nthN_map. destruct (nthN l i); reflexivity. Qed.
Lemma idx_mid {A B} (f : A -> B) (X : list A) x Y : idx (map f (X ++ x :: Y)) (len X) = Val (f x).
Proof. rewrite idx_map. unfold idx. rewrite nthN_app2 by lia. rewrite N.sub_diag, nthN_0. reflexivity. Qed.

(* binary_search_by_key on a decode table: the translation returns the first entry with the key, which is
   the entry [find] returns (no sortedness needed) *)
Lemma find_fst_of_find (key : N) : forall (tab : list (N * N)) j p,
  find (fun p => fst p =? key) tab = Some p ->
  exists i, find_fst tab key j = Some (j + i) /\ nthN tab i = Some p.
Proof.
  induction tab as [|[x y] tab IH]; intros j p; cbn [find find_fst fst]; [discriminate|].
  destruct (x =? key).
  - intros E. injection E as <-. exists 0. split; [now rewrite N.add_0_r|apply nthN_0].
  - intros E. destruct (IH (j + 1) p E) as (i & Hi & Hn). exists (i + 1). split.
    + rewrite Hi. f_equal. lia.
    + rewrite nthN_succ. exact Hn.
Qed.

(* a loop that ends within its fuel, in a value or a fault of its body, does the same on more fuel *)
Lemma while_loop_fuel {S R} (cond : S -> outcome bool) (body : S -> outcome (step S R)) :
  forall f s, while_loop cond body f s <> Fault OutOfFuel ->
  forall f', (f <= f')%nat -> while_loop cond body f' s = while_loop cond body f s.
Proof.
  induction f as [|f IH]; intros s E f' Hf; [now contradiction E|].
  destruct f' as [|f']; [lia|]. cbn [while_loop] in *.
  destruct (cond s) as [c|]; cbn [bind] in *; [|reflexivity].
  destruct c; [|reflexivity].
  destruct (body s) as [[s'|s'|r]|]; cbn [bind] in *; try reflexivity.
  apply IH; [exact E|lia].
Qed.

(* i64 values: a non-negative one used as a shift amount (`shift as usize`), range and wrap *)
Lemma shamt_of_N sh : sh < 2 ^ 64 -> Z.to_N (Z.modulo (Z.of_N sh) (2 ^ 64)%Z) = sh.
Proof. intros H. rewrite p64 in H. rewrite Z.mod_small by (rewrite zp64; lia). apply N2Z.id. Qed.

Lemma zin64 z : (- 9223372036854775808 <= z < 9223372036854775808)%Z -> zin 64 z = true.
Proof.
  intros H. unfold zin. change (Z.of_N 64 - 1)%Z with 63%Z. rewrite zp63.
  destruct (Z.leb_spec (- 9223372036854775808) z), (Z.ltb_spec z 9223372036854775808); try lia; reflexivity.
Qed.

Lemma zwrap_small z : (0 <= z < 9223372036854775808)%Z -> zwrap 64 z = z.
Proof.
  intros H. unfold zwrap. change (Z.of_N 64 - 1)%Z with 63%Z. change (Z.of_N 64) with 64%Z.
  rewrite zp63, zp64. rewrite Z.mod_small by lia.
  destruct (Z.ltb_spec z 9223372036854775808); [reflexivity|lia].
Qed.

Lemma ziadd_ok a b : (- 9223372036854775808 <= a + b < 9223372036854775808)%Z -> ziadd 64 a b = Val (a + b)%Z.
Proof. intros H. unfold ziadd. now rewrite zin64. Qed.
Lemma zisub_ok a b : (- 9223372036854775808 <= a - b < 9223372036854775808)%Z -> zisub 64 a b = Val (a - b)%Z.
Proof. intros H. unfold zisub. now rewrite zin64. Qed.
Lemma zimul_ok a b : (- 9223372036854775808 <= a * b < 9223372036854775808)%Z -> zimul 64 a b = Val (a * b)%Z.
Proof. intros H. unfold zimul. now rewrite zin64. Qed.
Lemma zineg64_ok a : (- 9223372036854775808 < a <= 9223372036854775808)%Z -> zineg 64 a = Val (- a)%Z.
Proof. intros H. unfold zineg. now rewrite zin64 by lia. Qed.

Lemma max_opt_maxN l : len l <> 0 -> max_opt l = Some (maxN l).
Proof. destruct l as [|x l]; [intros H; now contradiction H|]. intros _. unfold max_opt. now rewrite fold_max_maxN. Qed.
