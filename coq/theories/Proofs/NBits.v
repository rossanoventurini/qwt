(* Facts about N (and the two Z numerals the i64 lemmas need) that the word-level proofs share: masks and shifts by the literals of the code as
   remainders and quotients, bounds of land / shiftr, the numerals of the powers of two the bounds mention, the bits of a number
   below 2^n, and lor of two numbers on disjoint bit ranges as their sum. *)
From Coq Require Import ZArith Lia.
Open Scope N_scope.

Lemma pow2_pos k : 0 < 2 ^ k.
Proof. apply N.neq_0_lt_0, N.pow_nonzero. discriminate. Qed.

Lemma pow2_nz k : 2 ^ k <> 0.
Proof. apply N.pow_nonzero. discriminate. Qed.

Lemma pow2_gt_1 k : 0 < k -> 1 < 2 ^ k.
Proof. intros H. apply N.pow_gt_1; lia. Qed.

Lemma pow2_of_nat_S n : 2 ^ N.of_nat (S n) = 2 * 2 ^ N.of_nat n.
Proof. rewrite Nnat.Nat2N.inj_succ. apply N.pow_succ_r'. Qed.

Lemma p32 : 2 ^ 32 = 4294967296. Proof. reflexivity. Qed.
Lemma p43 : 2 ^ 43 = 8796093022208. Proof. reflexivity. Qed.
Lemma p44 : 2 ^ 44 = 17592186044416. Proof. reflexivity. Qed.
Lemma p45 : 2 ^ 45 = 35184372088832. Proof. reflexivity. Qed.
Lemma p63 : 2 ^ 63 = 9223372036854775808. Proof. reflexivity. Qed.
Lemma p64 : 2 ^ 64 = 18446744073709551616. Proof. reflexivity. Qed.
Lemma zp63 : (2 ^ 63 = 9223372036854775808)%Z. Proof. reflexivity. Qed.
Lemma zp64 : (2 ^ 64 = 18446744073709551616)%Z. Proof. reflexivity. Qed.

(* [x & (2^k - 1)] with the mask written as a literal: [rewrite (land_mask _ 4095 12) by reflexivity] *)
Lemma land_mask x m k : m = N.ones k -> N.land x m = x mod 2 ^ k.
Proof. intros ->. apply N.land_ones. Qed.

Lemma land1 x : N.land x 1 = x mod 2. Proof. now apply (land_mask x 1 1). Qed.
Lemma land3 x : N.land x 3 = x mod 4. Proof. now apply (land_mask x 3 2). Qed.
Lemma land7 x : N.land x 7 = x mod 8. Proof. now apply (land_mask x 7 3). Qed.
Lemma land63 x : N.land x 63 = x mod 64. Proof. now apply (land_mask x 63 6). Qed.
Lemma land255 x : N.land x 255 = x mod 256. Proof. now apply (land_mask x 255 8). Qed.
Lemma land511 x : N.land x 511 = x mod 512. Proof. now apply (land_mask x 511 9). Qed.
Lemma land4095 x : N.land x 4095 = x mod 4096. Proof. now apply (land_mask x 4095 12). Qed.

Lemma shiftr1 x : N.shiftr x 1 = x / 2. Proof. apply N.shiftr_div_pow2. Qed.
Lemma shiftr3 x : N.shiftr x 3 = x / 8. Proof. apply N.shiftr_div_pow2. Qed.
Lemma shiftr6 x : N.shiftr x 6 = x / 64. Proof. apply N.shiftr_div_pow2. Qed.
Lemma shiftr8 x : N.shiftr x 8 = x / 256. Proof. apply N.shiftr_div_pow2. Qed.
Lemma shiftr9 x : N.shiftr x 9 = x / 512. Proof. apply N.shiftr_div_pow2. Qed.

Lemma land_pred_pow2 k x : N.land x (2 ^ k - 1) = x mod 2 ^ k.
Proof. rewrite N.sub_1_r, <- N.ones_equiv. apply N.land_ones. Qed.

Lemma land_lt_r a b k : b < 2 ^ k -> N.land a b < 2 ^ k.
Proof.
  intros H. destruct (N.eq_dec (N.land a b) 0) as [-> | Hz]; [lia|].
  apply N.log2_lt_pow2; [lia|].
  assert (Hb : b <> 0) by (intros ->; now rewrite N.land_0_r in Hz).
  apply N.le_lt_trans with (N.log2 b); [|apply N.log2_lt_pow2; lia].
  etransitivity; [apply N.log2_land|apply N.le_min_r].
Qed.

Lemma land_ones_lt a k : N.land a (N.ones k) < 2 ^ k.
Proof. rewrite N.land_ones. apply N.mod_upper_bound, pow2_nz. Qed.

Lemma land3_le x : N.land x 3 <= 3.
Proof. pose proof (land_lt_r x 3 2 ltac:(reflexivity)) as H. change (2 ^ 2) with 4 in H. lia. Qed.

Lemma land255_lt x : N.land x 255 < 256.
Proof. apply (land_ones_lt x 8). Qed.

(* `((x >> shift).as_() & 3) as u8` *)
Lemma land3_mod8 x : N.land x 3 mod 2 ^ 8 = N.land x 3.
Proof. pose proof (land3_le x). apply N.mod_small. change (2 ^ 8) with 256. lia. Qed.

Lemma shiftr_le x s : N.shiftr x s <= x.
Proof.
  rewrite N.shiftr_div_pow2. apply N.div_le_upper_bound; [apply pow2_nz|].
  pose proof (pow2_pos s). nia.
Qed.

Lemma shiftr_lt x s k : x < 2 ^ (s + k) -> N.shiftr x s < 2 ^ k.
Proof.
  intros H. rewrite N.shiftr_div_pow2. apply N.div_lt_upper_bound; [apply pow2_nz|].
  now rewrite <- N.pow_add_r.
Qed.

Lemma div_lt_bound a b c : a < c -> a / b < c.
Proof.
  intros H. destruct (N.eq_dec b 0) as [-> | Hb]; [destruct a; cbn; lia|].
  apply N.div_lt_upper_bound; [exact Hb|]. nia.
Qed.

(* quotient and remainder read off a decomposition: long proofs about a block index and its successor get
   their divisions from here and leave only linear goals to lia *)
Lemma divmod_unique d q r a : a = d * q + r -> r < d -> a / d = q /\ a mod d = r.
Proof.
  intros E H. split; symmetry; [apply (N.div_unique a d q r H E)|apply (N.mod_unique a d q r H E)].
Qed.

Lemma lt_pow2_bits x n : x < 2 ^ n -> forall j, n <= j -> N.testbit x j = false.
Proof. intros H j Hj. rewrite <- (N.mod_small x (2 ^ n)) by exact H. now apply N.mod_pow2_bits_high. Qed.
Lemma bits_lt_pow2 x n : (forall j, n <= j -> N.testbit x j = false) -> x < 2 ^ n.
Proof.
  intros H. assert (E : x = x mod 2 ^ n).
  { apply N.bits_inj. intros j. destruct (N.ltb_spec j n) as [Hj|Hj].
    - now rewrite N.mod_pow2_bits_low.
    - rewrite N.mod_pow2_bits_high by assumption. now apply H. }
  rewrite E. apply N.mod_lt, pow2_nz.
Qed.

Lemma lor_add b n a : a < 2 ^ n -> N.lor (b * 2 ^ n) a = b * 2 ^ n + a.
Proof.
  intros H. assert (L : N.land (b * 2 ^ n) a = 0).
  { apply N.bits_inj_0. intros m. rewrite N.land_spec.
    destruct (N.lt_ge_cases m n) as [Hm|Hm].
    - now rewrite N.mul_pow2_bits_low.
    - rewrite (lt_pow2_bits a n H m Hm). apply Bool.andb_false_r. }
  now rewrite N.add_nocarry_lxor, N.lxor_lor.
Qed.
Lemma lor_shiftl_add a k c : c < 2 ^ k -> N.lor (N.shiftl a k) c = a * 2 ^ k + c.
Proof. rewrite N.shiftl_mul_pow2. apply lor_add. Qed.

(* `T::from(symbol.as_()) == symbol` for a symbol of the element type: the cast to usize and back to T changes
   no more than the cast to usize alone *)
Lemma sym_back wT symbol : symbol < 2 ^ wT ->
  ((symbol mod 2 ^ 64) mod 2 ^ wT =? symbol) = (symbol mod 2 ^ 64 =? symbol).
Proof.
  intros H. destruct (N.eqb_spec (symbol mod 2 ^ 64) symbol) as [E|E].
  - rewrite E. apply N.eqb_eq, N.mod_small, H.
  - apply N.eqb_neq. intros E'. apply E, N.le_antisymm; [apply N.mod_le; discriminate|].
    rewrite <- E' at 1. apply N.mod_le, N.pow_nonzero. discriminate.
Qed.
