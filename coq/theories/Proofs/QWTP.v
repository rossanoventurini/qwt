(* C01: the quad wavelet tree (Model/QWT.v) answers every query exactly like the list
   specification (Spec/Seq.v), for every sequence of fewer than RSQ_MAXN symbols of any
   admitted width and both block sizes, and no Fault occurs. *)
From Coq Require Import ZArith Lia ZifyBool ZifyN ZifyNat.
From QwtModel Require Import ListX Seq Consts QVec RSQ QWT ListXP RSQBuild RSQP.
From QwtModel Require Import WaveletMatrix QWTArith QWTBuild QWTWalk.

Definition width_ok (w : N) : Prop := w = 8 \/ w = 16 \/ w = 32 \/ w = 64 \/ w = 128.
(* number of levels the constructor picks: ceil(bitlen(max)/2), at least 1 *)
Definition levels_of (seq : list N) : N := (msb (maxN seq) + 1 + 1) / 2.

Definition qwt_spec (w bsize : N) (t : qwt) (seq : list N) : Prop :=
  qwt_len t = len seq /\
  qwt_is_empty t = (len seq =? 0) /\
  qwt_sigma t = (if len seq =? 0 then None else Some (maxN seq)) /\
  q_n_levels t = (if len seq =? 0 then 0 else levels_of seq) /\
  (forall i, qwt_get w bsize t i = Val (nthN seq i)) /\
  (forall c i, c < 2 ^ w -> qwt_rank w bsize t c i =
       Val (if negb (len seq =? 0) && (i <=? len seq) && (c <=? maxN seq) then Some (rank_spec seq c i) else None)) /\
  (forall c i, c < 2 ^ w -> qwt_rank_prefetch w bsize t c i = qwt_rank w bsize t c i) /\
  (forall c k, c < 2 ^ w -> k < 2 ^ 64 -> qwt_select w bsize t c k =
       Val (if negb (len seq =? 0) && (c <=? maxN seq) then select_spec seq c k else None)) /\
  (* unchecked variants under their preconditions *)
  (forall i x, nthN seq i = Some x -> qwt_get_unchecked w bsize t i = Val x) /\
  (forall c i, 0 < len seq -> c <= maxN seq -> i <= len seq -> qwt_rank_unchecked w bsize t c i = Val (rank_spec seq c i)
                                                            /\ qwt_rank_prefetch_unchecked w bsize t c i = Val (rank_spec seq c i)) /\
  (forall c k p, c < 2 ^ w -> select_spec seq c k = Some p -> qwt_select_unchecked w bsize t c k = Val p).

Lemma levels_of_qlevels seq : levels_of seq = qlevels seq.
Proof. reflexivity. Qed.

(* part of C17: utils::stable_partition_of_4 is the stable 4-way partition by the two bits at [shift] *)
Theorem stable_partition_of_4_correct : forall w seq shift, width_ok w -> shift < w ->
  Forall (fun x => x < 2 ^ w) seq ->
  stable_partition_of_4 w seq shift =
  Val (concat (map (fun d => filter (fun x => (x / 2 ^ shift) mod 4 =? d) seq) [0;1;2;3])).
Proof. intros w seq shift _ Hs _. now apply stable_partition_of_4_val. Qed.

(* in the vocabulary of Theory/WaveletMatrix.v: [parts] on the digit of level l of L levels *)
Corollary stable_partition_of_4_parts : forall w L l s, 2 * N.of_nat (L - 1 - l) < w ->
  stable_partition_of_4 w s (2 * N.of_nat (L - 1 - l)) = Val (parts N (qdig L) l 4 s).
Proof. exact stable_partition_parts. Qed.

Lemma qwt_spec_empty w bsize t : q_n t = 0 -> q_n_levels t = 0 -> qwt_spec w bsize t [].
Proof.
  intros Hn Hnl. unfold qwt_spec. change (len (@nil N)) with 0. change (0 =? 0) with true.
  cbv iota. cbn [negb andb].
  split; [|split; [|split; [|split; [|split; [|split; [|split; [|split; [|split; [|split]]]]]]]]].
  - exact Hn.
  - unfold qwt_is_empty. now rewrite Hn.
  - unfold qwt_sigma, qwt_is_empty. now rewrite Hn.
  - exact Hnl.
  - intros i. unfold qwt_get. rewrite Hn. replace (0 <=? i) with true by lia. reflexivity.
  - intros c i _. unfold qwt_rank. rewrite Hn. change (0 =? 0) with true. now rewrite orb_true_r.
  - intros c i _. unfold qwt_rank_prefetch, qwt_rank. rewrite Hn. change (0 =? 0) with true.
    now rewrite orb_true_r.
  - intros c k _ _. unfold qwt_select. rewrite Hn. change (0 =? 0) with true. now rewrite orb_true_r.
  - intros i x H. discriminate H.
  - intros c i H. lia.
  - intros c k p _ H. discriminate H.
Qed.

(* the default value answers None everywhere *)
Theorem qwt_default_correct : forall w bsize, qwt_spec w bsize qwt_default [].
Proof. intros w bsize. apply qwt_spec_empty; reflexivity. Qed.

Lemma qwt_new_nonempty w bsize seq : width_ok w -> (bsize = 256 \/ bsize = 512) ->
  Forall (fun x => x < 2 ^ w) seq -> len seq < RSQ_MAXN -> seq <> [] ->
  let L := N.to_nat (levels_of seq) in
  (0 < L)%nat /\ levels_of seq = N.of_nat L /\ 2 * N.of_nat (L - 1) < w /\ maxN seq < 4 ^ N.of_nat L /\
  exists qvs, tree_ok bsize L seq qvs /\ Forall2 (rsq_spec bsize) qvs (wm_levels N 4 (qdig L) 0 L seq) /\
    qwt_new w bsize seq =
    Val {| q_n := len seq; q_n_levels := levels_of seq; q_sigma := maxN seq; q_qvs := qvs |}.
Proof.
  intros Hwok Hb HF Hn Hne L.
  assert (Hwpos : 0 < w) by (unfold width_ok in Hwok; lia).
  assert (HLN : levels_of seq = N.of_nat L) by (unfold L; lia).
  pose proof (qlevels_pos seq) as Hpos. rewrite <- levels_of_qlevels in Hpos.
  assert (HL : (0 < L)%nat) by lia.
  assert (Hpow : 0 < 2 ^ w) by (apply N.neq_0_lt_0, N.pow_nonzero; lia).
  pose proof (qlevels_shift seq w Hwpos (maxN_lt seq (2 ^ w) Hpow HF)) as Hsh.
  rewrite <- levels_of_qlevels, HLN in Hsh.
  assert (Hw : 2 * N.of_nat (L - 1) < w) by lia.
  pose proof (qlevels_bound seq) as Hm4. rewrite <- levels_of_qlevels, HLN in Hm4.
  destruct (qwt_levels_tree w bsize L seq Hb Hn HL Hw) as (qvs & Eq & HT & HF2).
  repeat (split; [assumption|]). exists qvs. split; [exact HT|]. split; [exact HF2|].
  assert (Enew : qwt_new w bsize seq =
            let! s0 := osub (levels_of seq) 1 in
            let! qvs := qwt_levels w bsize seq (2 * s0) L in
            Val {| q_n := len seq; q_n_levels := levels_of seq; q_sigma := maxN seq; q_qvs := qvs |}).
  { destruct seq; [congruence|reflexivity]. }
  rewrite Enew. unfold osub. replace (1 <=? levels_of seq) with true by lia. cbn [bind].
  replace (2 * (levels_of seq - 1)) with (2 * N.of_nat (L - 1)) by lia. rewrite Eq. reflexivity.
Qed.

(* construction lemma: the levels of the built tree are rank/select quad vectors over exactly the
   digit lists [wm_levels] of the generic wavelet matrix (arity 4, digit [qdig L]) *)
Theorem qwt_new_levels : forall w bsize seq, width_ok w -> (bsize = 256 \/ bsize = 512) ->
  Forall (fun x => x < 2 ^ w) seq -> len seq < RSQ_MAXN -> seq <> [] ->
  let L := N.to_nat (levels_of seq) in
  exists t, qwt_new w bsize seq = Val t /\
    Forall2 (rsq_spec bsize) (q_qvs t) (wm_levels N 4 (qdig L) 0 L seq).
Proof.
  intros w bsize seq Hwok Hb HF Hn Hne L.
  destruct (qwt_new_nonempty w bsize seq Hwok Hb HF Hn Hne) as (_ & _ & _ & _ & qvs & _ & HF2 & E).
  eexists. split; [exact E|exact HF2].
Qed.

Theorem qwt_new_correct : forall w bsize seq, width_ok w -> (bsize = 256 \/ bsize = 512) ->
  Forall (fun x => x < 2 ^ w) seq -> len seq < RSQ_MAXN ->
  exists t, qwt_new w bsize seq = Val t /\ qwt_spec w bsize t seq.
Proof.
  intros w bsize seq Hwok Hb HF Hn.
  destruct seq as [|x0 seq'] eqn:Eseq.
  - unfold qwt_new. destruct (rsq_default_correct bsize Hb) as (d & Ed & _). rewrite Ed. cbn [bind].
    eexists. split; [reflexivity|]. apply qwt_spec_empty; reflexivity.
  - rewrite <- Eseq in *. assert (Hne : len seq <> 0) by (rewrite Eseq, len_cons; lia).
    destruct (qwt_new_nonempty w bsize seq Hwok Hb HF Hn ltac:(congruence))
      as (HL & HLN & Hw & Hm4 & qvs & HT & _ & E).
    clear Eseq x0 seq'. set (L := N.to_nat (levels_of seq)) in *.
    eexists. split; [exact E|].
    assert (Hlen64 : len seq < 2 ^ 64).
    { rewrite RSQ_MAXN_val in Hn. change (2 ^ 64) with 18446744073709551616. lia. }
    unfold qwt_spec. replace (len seq =? 0) with false by lia. cbv iota.
    split; [reflexivity|]. split; [unfold qwt_is_empty; cbn [q_n]; lia|].
    split; [unfold qwt_sigma, qwt_is_empty; cbn [q_n q_sigma]; now replace (len seq =? 0) with false by lia|].
    split; [reflexivity|].
    pose proof (walks_bundle w bsize L seq qvs HT HL Hw Hlen64
                  {| q_n := len seq; q_n_levels := levels_of seq; q_sigma := maxN seq; q_qvs := qvs |}
                  eq_refl HLN eq_refl eq_refl Hne) as HB.
    unfold qwt_queries_spec in HB. replace (len seq =? 0) with false in HB by lia.
    apply HB; [|exact Hm4]. intros x Hx. rewrite Forall_forall in HF. now apply HF.
Qed.

(* 40 values below 70 (maximum 64: 4 levels), element type u8 *)
Definition qwt_example_input : list N := map (fun i => (i * i * 7 + 3 * i) mod 70) (seqN 0 40).

Definition qwt_example_checks (bsize : N) : Prop :=
  match qwt_new 8 bsize qwt_example_input with
  | Val t =>
      qwt_len t = 40 /\ q_n_levels t = 4 /\ qwt_sigma t = Some 64 /\ len (q_qvs t) = 4 /\
      qwt_get 8 bsize t 17 = Val (Some 44) /\ qwt_get 8 bsize t 39 = Val (Some 54) /\
      qwt_get 8 bsize t 40 = Val None /\
      qwt_rank 8 bsize t 10 40 = Val (Some 3) /\ qwt_rank 8 bsize t 54 30 = Val (Some 1) /\
      qwt_rank 8 bsize t 3 40 = Val (Some 0) /\ qwt_rank 8 bsize t 3 41 = Val None /\
      qwt_rank 8 bsize t 65 40 = Val None /\
      qwt_rank_prefetch 8 bsize t 0 21 = Val (Some 1) /\
      qwt_select 8 bsize t 10 1 = Val (Some 15) /\ qwt_select 8 bsize t 0 2 = Val (Some 35) /\
      qwt_select 8 bsize t 10 7 = Val None /\ qwt_select 8 bsize t 3 0 = Val None /\
      qwt_select 8 bsize t 65 0 = Val None /\
      qwt_get_unchecked 8 bsize t 17 = Val 44 /\ qwt_rank_unchecked 8 bsize t 10 40 = Val 3 /\
      qwt_rank_prefetch_unchecked 8 bsize t 10 40 = Val 3 /\
      qwt_select_unchecked 8 bsize t 54 1 = Val 32
  | Fault _ => False
  end.

Example qwt_example_256 : qwt_example_checks 256.
Proof. vm_compute. repeat split; reflexivity. Qed.
Example qwt_example_512 : qwt_example_checks 512.
Proof. vm_compute. repeat split; reflexivity. Qed.
(* the same values from the specification side *)
Example qwt_example_spec :
  let s := qwt_example_input in
  len s = 40 /\ maxN s = 64 /\ levels_of s = 4 /\ nthN s 17 = Some 44 /\ nthN s 39 = Some 54 /\
  rank_spec s 10 40 = 3 /\ rank_spec s 54 30 = 1 /\ rank_spec s 3 40 = 0 /\ rank_spec s 0 21 = 1 /\
  select_spec s 10 1 = Some 15 /\ select_spec s 0 2 = Some 35 /\ select_spec s 10 7 = None /\
  select_spec s 3 0 = None /\ select_spec s 54 1 = Some 32.
Proof. vm_compute. repeat split; reflexivity. Qed.
(* symbols above 2^64 (element type u128): two_bits truncates to 64 bits before masking *)
Example qwt_example_u128 :
  let s := [2 ^ 100 + 5; 7; 2 ^ 100 + 5; 2 ^ 127; 0; 2 ^ 64 + 1] in
  match qwt_new 128 256 s with
  | Val t => q_n_levels t = 64 /\ qwt_get 128 256 t 3 = Val (Some (2 ^ 127)) /\
             qwt_rank 128 256 t (2 ^ 100 + 5) 6 = Val (Some 2) /\
             qwt_select 128 256 t (2 ^ 64 + 1) 0 = Val (Some 5) /\
             qwt_select 128 256 t (2 ^ 100 + 5) 1 = Val (Some 2)
  | Fault _ => False
  end.
Proof. vm_compute. repeat split; reflexivity. Qed.
Example qwt_example_thm : forall bsize, (bsize = 256 \/ bsize = 512) ->
  exists t, qwt_new 8 bsize qwt_example_input = Val t /\ qwt_spec 8 bsize t qwt_example_input.
Proof.
  intros bsize Hb. apply qwt_new_correct; [left; reflexivity|exact Hb| |reflexivity].
  unfold qwt_example_input. apply Forall_forall. intros x Hx. apply in_map_iff in Hx.
  destruct Hx as (i & <- & _). change (2 ^ 8) with 256. lia.
Qed.

Print Assumptions qwt_new_correct.
Print Assumptions qwt_new_levels.
Print Assumptions qwt_default_correct.
Print Assumptions stable_partition_of_4_correct.
Print Assumptions stable_partition_of_4_parts.
Print Assumptions qwt_example_256.
Print Assumptions qwt_example_512.
Print Assumptions qwt_example_spec.
Print Assumptions qwt_example_u128.
Print Assumptions qwt_example_thm.
