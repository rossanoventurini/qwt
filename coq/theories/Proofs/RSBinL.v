(* What RSNarrow and RSWide share, stated about lists and functions N -> N: windows of a list and of a
   concatenation of equal chunks, 0/1 lists, the two scanning loops of the select code, the positional
   encoding [enc] of the packed counters, tables pushed in reverse [entries], the select samples
   [sinv] / [samples_ok] and the two-level search [select_scan] that uses them. *)
From Coq Require Import ZArith Lia ZifyBool ZifyN ZifyNat.
From QwtModel Require Import ListX Seq RSBin ListXP NBits OutcomeP SeqP.

Lemma rank_spec_le_count s c i : rank_spec s c i <= countN c s.
Proof.
  rewrite <- (rank_spec_all s c (N.max i (len s))) by lia. apply rank_spec_mono. lia.
Qed.

Lemma rank_spec_firstnN s c n i : rank_spec (firstnN n s) c i = rank_spec s c (N.min i n).
Proof. rewrite !rank_spec_count, !firstnN_firstn, firstn_firstn. do 2 f_equal. lia. Qed.

Lemma rank_spec_skipnN s c a q : rank_spec (skipnN a s) c q = rank_spec s c (a + q) - rank_spec s c a.
Proof.
  rewrite !rank_spec_count, skipnN_skipn, !firstnN_firstn.
  replace (N.to_nat (a + q)) with (N.to_nat a + N.to_nat q)%nat by lia. rewrite firstn_skipn_comm.
  set (l := firstn (N.to_nat a + N.to_nat q) s).
  replace (firstn (N.to_nat a) s) with (firstn (N.to_nat a) l) by (unfold l; rewrite firstn_firstn; f_equal; lia).
  rewrite <- (firstn_skipn (N.to_nat a) l) at 2. rewrite countN_app. lia.
Qed.

Definition window {A} (a n : N) (l : list A) : list A := firstnN n (skipnN a l).

Lemma nthN_window {A} (l : list A) a n q : q < n -> nthN (window a n l) q = nthN l (a + q).
Proof.
  intros H. unfold window. rewrite nthN_firstnN, nthN_skipnN.
  destruct (N.ltb_spec q n); [reflexivity|lia].
Qed.
Lemma rank_spec_window s c a n q : q <= n ->
  rank_spec (window a n s) c q = rank_spec s c (a + q) - rank_spec s c a.
Proof.
  intros H. unfold window. rewrite rank_spec_firstnN, rank_spec_skipnN.
  now replace (N.min q n) with q by lia.
Qed.
Lemma len_window {A} (l : list A) a n : a + n <= len l -> len (window a n l) = n.
Proof. intros H. unfold window. rewrite firstnN_len, len_skipnN. lia. Qed.

Lemma skipnN_concat_uniform {A} (k : N) (ls : list (list A)) :
  Forall (fun l => len l = k) ls -> forall a, skipnN (k * a) (concat ls) = concat (skipnN a ls).
Proof.
  induction 1 as [|l ls Hl HF IH]; intros a; [reflexivity|].
  cbn [concat skipnN]. destruct (N.eqb_spec a 0) as [->|Ha].
  - rewrite N.mul_0_r. cbn [concat]. destruct (l ++ concat ls); reflexivity.
  - succ_of a b. replace (N.pred (b + 1)) with b by lia. rewrite <- IH.
    rewrite !skipnN_skipn. replace (N.to_nat (k * (b + 1))) with (length l + N.to_nat (k * b))%nat
      by (unfold len in Hl; lia).
    rewrite skipn_app. rewrite (skipn_all2 l) by lia. cbn [app]. f_equal. lia.
Qed.

Lemma firstnN_concat_uniform {A} (k : N) (ls : list (list A)) :
  Forall (fun l => len l = k) ls -> forall n, firstnN (k * n) (concat ls) = concat (firstnN n ls).
Proof.
  induction 1 as [|l ls Hl HF IH]; intros n; [reflexivity|].
  cbn [concat firstnN]. destruct (N.eqb_spec n 0) as [->|Hn].
  - rewrite N.mul_0_r. cbn [concat]. destruct (l ++ concat ls); reflexivity.
  - succ_of n b. replace (N.pred (b + 1)) with b by lia. cbn [concat]. rewrite <- IH.
    rewrite !firstnN_firstn. replace (N.to_nat (k * (b + 1))) with (length l + N.to_nat (k * b))%nat
      by (unfold len in Hl; lia).
    rewrite firstn_app_2. reflexivity.
Qed.

Lemma window_concat_uniform {A} (k : N) (ls : list (list A)) a n :
  Forall (fun l => len l = k) ls ->
  window (k * a) (k * n) (concat ls) = concat (window a n ls).
Proof.
  intros H. unfold window. rewrite (skipnN_concat_uniform k ls H).
  apply firstnN_concat_uniform. apply Forall_skipnN. exact H.
Qed.

Lemma window_one {A} (l : list A) g x : nthN l g = Some x -> window g 1 l = [x].
Proof.
  intros H. unfold window. rewrite <- (N.add_0_r g) in H. rewrite <- nthN_skipnN in H.
  destruct (skipnN g l) as [|y r]; [discriminate|]. rewrite nthN_0 in H. injection H as ->.
  cbn [firstnN]. destruct (1 =? 0) eqn:E; [lia|]. destruct r; reflexivity.
Qed.

Definition bin (l : list N) : Prop := Forall (fun x => x < 2) l.

Lemma bin_concat ls : Forall bin ls -> bin (concat ls).
Proof. induction 1; cbn [concat]; [constructor|]. apply Forall_app. split; assumption. Qed.

Lemma count01 l : bin l -> countN 0 l + countN 1 l = len l.
Proof.
  induction 1 as [|x l Hx Hl IH]; [reflexivity|].
  cbn [countN]. rewrite len_cons. destruct (N.eqb_spec x 0); destruct (N.eqb_spec x 1); lia.
Qed.

Lemma rank01 l i : bin l -> rank_spec l 0 i + rank_spec l 1 i = N.min i (len l).
Proof.
  intros H. rewrite !rank_spec_count. rewrite count01 by (apply Forall_firstnN; exact H).
  apply firstnN_len.
Qed.

Lemma map_N_of_bool_bin l : bin l -> map N_of_bool (map (fun x => x =? 1) l) = l.
Proof.
  induction 1 as [|x l Hx Hl IH]; [reflexivity|].
  cbn [map]. rewrite IH. f_equal. unfold N_of_bool. destruct (N.eqb_spec x 1); lia.
Qed.

Lemma countb_countN (s : list bool) : countb s = countN 1 (map N_of_bool s).
Proof.
  induction s as [|x s IH]; [reflexivity|]. cbn [countb map countN]. rewrite IH. destruct x; reflexivity.
Qed.

Definition flip01 (x : N) : N := 1 - x.

Lemma select_from_flip l : bin l -> forall k pos,
  select_from (map flip01 l) 1 k pos = select_from l 0 k pos.
Proof.
  induction 1 as [|x l Hx Hl IH]; intros k pos; [reflexivity|].
  cbn [map select_from]. unfold flip01 at 1.
  destruct (N.eqb_spec (1 - x) 1); destruct (N.eqb_spec x 0); try lia; rewrite IH; reflexivity.
Qed.

Lemma countN_flip l : bin l -> countN 1 (map flip01 l) = countN 0 l.
Proof.
  induction 1 as [|x l Hx Hl IH]; [reflexivity|].
  cbn [map countN]. rewrite IH. unfold flip01.
  destruct (N.eqb_spec (1 - x) 1); destruct (N.eqb_spec x 0); lia.
Qed.

Lemma select_spec_flip l k : bin l -> select_spec (map flip01 l) 1 k = select_spec l 0 k.
Proof. intros H. apply select_from_flip. exact H. Qed.

Lemma scan_while_find (test : N -> outcome N) (f : N -> N) k T hend : forall fuel hs,
  hs <= T -> T <= hend ->
  (forall b, hs <= b -> b < T -> test b = Val (f b) /\ f b <= k) ->
  (T < hend -> test T = Val (f T) /\ k < f T) ->
  (N.to_nat (T - hs) < fuel)%nat ->
  scan_while test k hs hend fuel = Val T.
Proof.
  induction fuel as [|fuel IH]; intros hs H1 H2 Hlo Hhi Hf; [lia|].
  cbn [scan_while]. destruct (N.ltb_spec hs hend) as [Hlt|Hge].
  - destruct (N.eq_dec hs T) as [->|Hne].
    + destruct (Hhi Hlt) as [E Hk]. rewrite E. cbn [bind].
      destruct (N.ltb_spec k (f T)); [reflexivity|lia].
    + destruct (Hlo hs) as [E Hk]; [lia|lia|]. rewrite E. cbn [bind].
      destruct (N.ltb_spec k (f hs)); [lia|].
      apply IH; try lia; [|exact Hhi]. intros b Hb1 Hb2. apply Hlo; lia.
  - f_equal. lia.
Qed.

Lemma scan_for_find (test : N -> outcome N) (f : N -> N) k pos jt :
  jt <= 7 ->
  (forall j, j <= jt -> test (pos + j) = Val (f (pos + j)) /\ f (pos + j) <= k) ->
  (jt < 7 -> test (pos + (jt + 1)) = Val (f (pos + (jt + 1))) /\ k < f (pos + (jt + 1))) ->
  scan_for test k pos 0 8 = Val (pos + jt).
Proof.
  intros Hjt Hlo Hhi.
  assert (G : forall fuel j, j <= jt + 1 -> (j = jt + 1 -> jt < 7) -> (8 <= N.of_nat fuel + j) ->
            scan_for test k pos j fuel = Val (pos + jt)).
  { induction fuel as [|fuel IH]; intros j Hj1 Hj2 Hf; [lia|].
    cbn [scan_for]. destruct (N.eq_dec j (jt + 1)) as [->|Hne].
    - destruct (Hhi (Hj2 eq_refl)) as [E Hk]. rewrite E. cbn [bind].
      destruct (N.ltb_spec k (f (pos + (jt + 1)))); [|lia].
      unfold osub. destruct (N.leb_spec 1 (jt + 1)); [|lia]. cbn [bind]. f_equal. lia.
    - destruct (Hlo j) as [E Hk]; [lia|]. rewrite E. cbn [bind].
      destruct (N.ltb_spec k (f (pos + j))); [lia|].
      destruct (N.eqb_spec j 7) as [->|H7].
      + f_equal. lia.
      + apply IH; lia. }
  apply G; lia.
Qed.

(* enc B init c n = (..((init * B + c 1) * B + c 2) .. ) * B + c n *)
Fixpoint enc (B init : N) (c : N -> N) (n : nat) : N :=
  match n with O => init | S m => enc B init c m * B + c (N.of_nat n) end.

Lemma enc_ext B init c c' n : (forall i, 1 <= i -> i <= N.of_nat n -> c i = c' i) ->
  enc B init c n = enc B init c' n.
Proof.
  induction n as [|n IH]; intros H; [reflexivity|].
  cbn [enc]. rewrite IH by (intros; apply H; lia). rewrite H by lia. reflexivity.
Qed.

Lemma enc_bound B init c n : 0 < B -> (forall i, 1 <= i -> i <= N.of_nat n -> c i < B) ->
  enc B init c n < (init + 1) * B ^ N.of_nat n.
Proof.
  intros HB. induction n as [|n IH]; intros H.
  - cbn [enc]. change (N.of_nat 0) with 0. rewrite N.pow_0_r. lia.
  - cbn [enc]. replace (N.of_nat (S n)) with (N.succ (N.of_nat n)) by lia. rewrite N.pow_succ_r'.
    assert (H1 : enc B init c n < (init + 1) * B ^ N.of_nat n) by (apply IH; intros; apply H; lia).
    assert (H2 : c (N.succ (N.of_nat n)) < B) by (apply H; lia).
    set (e := enc B init c n) in *. set (P := (init + 1) * B ^ N.of_nat n) in *.
    replace ((init + 1) * (B * B ^ N.of_nat n)) with (P * B) by (unfold P; lia).
    assert (e + 1 <= P) by lia. assert ((e + 1) * B <= P * B) by (apply N.mul_le_mono_r; assumption). lia.
Qed.

Lemma enc_zero B init c n : (forall i, 1 <= i -> i <= N.of_nat n -> c i = 0) ->
  enc B init c n = init * B ^ N.of_nat n.
Proof.
  induction n as [|n IH]; intros H.
  - cbn [enc]. change (N.of_nat 0) with 0. rewrite N.pow_0_r. lia.
  - cbn [enc]. rewrite IH by (intros; apply H; lia). rewrite H by lia.
    replace (N.of_nat (S n)) with (N.succ (N.of_nat n)) by lia. rewrite N.pow_succ_r'. lia.
Qed.

Lemma enc_div_succ B init c n k : 0 < B -> c (N.of_nat (S n)) < B ->
  enc B init c (S n) / B ^ N.succ k = enc B init c n / B ^ k.
Proof.
  intros HB Hc. cbn [enc]. rewrite N.pow_succ_r', <- N.div_div by (try apply N.pow_nonzero; lia).
  rewrite N.div_add_l, (N.div_small _ B Hc), N.add_0_r by lia. reflexivity.
Qed.

Lemma enc_field B init c n : 0 < B -> (forall i, 1 <= i -> i <= N.of_nat n -> c i < B) ->
  forall j, 1 <= j -> j <= N.of_nat n -> (enc B init c n / B ^ (N.of_nat n - j)) mod B = c j.
Proof.
  intros HB. induction n as [|n IH]; intros H j Hj1 Hj2; [lia|].
  destruct (N.eq_dec j (N.of_nat (S n))) as [->|Hne].
  - cbn [enc]. rewrite N.sub_diag, N.pow_0_r, N.div_1_r.
    rewrite N.add_comm, N.mod_add by lia. apply N.mod_small. apply H; lia.
  - replace (N.of_nat (S n) - j) with (N.succ (N.of_nat n - j)) by lia.
    rewrite (enc_div_succ B init c n _ HB) by (apply H; lia). apply IH; [intros; apply H; lia|lia|lia].
Qed.

Lemma enc_top B init c n : 0 < B -> (forall i, 1 <= i -> i <= N.of_nat n -> c i < B) ->
  enc B init c n / B ^ N.of_nat n = init.
Proof.
  intros HB. induction n as [|n IH]; intros H.
  - cbn [enc]. change (N.of_nat 0) with 0. rewrite N.pow_0_r. apply N.div_1_r.
  - replace (N.of_nat (S n)) with (N.succ (N.of_nat n)) by lia.
    rewrite (enc_div_succ B init c n _ HB) by (apply H; lia). apply IH. intros; apply H; lia.
Qed.

(* cur << k | c appends field n + 1 to a word that has room for m + 1 fields below [init] *)
Lemma enc_push k M init c n m :
  (n <= m)%nat -> (forall i, 1 <= i -> i <= N.of_nat (S n) -> c i < 2 ^ k) ->
  (init + 1) * (2 ^ k) ^ N.of_nat (S m) <= M ->
  N.lor (N.shiftl (enc (2 ^ k) init c n) k mod M) (c (N.of_nat (S n))) = enc (2 ^ k) init c (S n).
Proof.
  intros Hn Hc HM. cbn [enc]. rewrite <- lor_shiftl_add by (apply Hc; lia). f_equal.
  rewrite N.shiftl_mul_pow2. apply N.mod_small. pose proof (pow2_pos k) as Hk.
  assert (H1 : enc (2 ^ k) init c n < (init + 1) * (2 ^ k) ^ N.of_nat n)
    by (apply enc_bound; [exact Hk|intros; apply Hc; lia]).
  assert (H2 : (2 ^ k) ^ N.of_nat n <= (2 ^ k) ^ N.of_nat m) by (apply N.pow_le_mono_r; lia).
  replace (N.of_nat (S m)) with (N.succ (N.of_nat m)) in HM by lia. rewrite N.pow_succ_r' in HM. nia.
Qed.

Lemma iterN_fix {A} (f : A -> A) n x : f x = x -> iterN f n x = x.
Proof. intros H. induction n as [|n IH]; cbn [iterN]; [reflexivity|]. now rewrite H. Qed.

(* The construction loops keep their tables (sample lists, block directories) reversed and push at
   the head: the invariants speak of [rev] of the state's list. *)
Definition entries {A} (P : N -> A -> Prop) (n : N) (l : list A) : Prop :=
  len l = n /\ forall i x, nthN l i = Some x -> P i x.

Lemma entries_nil {A} (P : N -> A -> Prop) : entries P 0 [].
Proof. split; [reflexivity|]. intros i x H. discriminate. Qed.

Lemma entries_push {A} (P : N -> A -> Prop) n s x :
  entries P n (rev s) -> P n x -> entries P (n + 1) (rev (x :: s)).
Proof.
  intros [Hl He] Hx. cbn [rev]. split; [lens; lia|]. intros i y Hy.
  pose proof (nthN_some_lt _ _ _ Hy) as Hi. lens in Hi.
  destruct (N.eq_dec i n) as [->|Hne].
  - rewrite nthN_app2, Hl, N.sub_diag, nthN_0 in Hy by lia. injection Hy as <-. exact Hx.
  - rewrite nthN_app1 in Hy by lia. exact (He _ _ Hy).
Qed.

Lemma entries_nth {A} (f : N -> A) n l i : entries (fun i x => x = f i) n l -> i < n -> nthN l i = Some (f i).
Proof.
  intros [Hl He] Hi. destruct (nthN_lt_some l i) as (x & Ex); [lia|]. rewrite Ex, (He _ _ Ex). reflexivity.
Qed.

(* the sample step of both construction loops (rsn_word, rsw_line) *)
Definition hint_upd (HS : N) (s : list N) (h : N) (cnt b : N) : list N * N :=
  if h <? cnt / HS then (b :: s, h + 1) else (s, h).

(* R: cumulative count as a function of the bit position, BS: bits per block, HS: ones per hint,
   nl: bound on the block ids; s: the (reversed) samples, h: the hint counter, cur: current count.
   Sample t is a block that starts at or before the (HS * t)-th one and ends at or after it. *)
Definition sinv (R : N -> N) (BS HS nl : N) (s : list N) (h cur : N) : Prop :=
  h = cur / HS /\
  entries (fun t b => b <= nl /\ R (BS * b) <= HS * t /\ (1 <= t -> HS * t <= R (BS * (b + 1)))) (h + 1) (rev s).

Lemma sinv_init R BS HS nl : 0 < HS -> R 0 = 0 -> sinv R BS HS nl [0] 0 0.
Proof.
  intros HH HR. split; [symmetry; apply N.div_0_l; lia|].
  apply (entries_push _ 0 []); [apply entries_nil|]. rewrite !N.mul_0_r, HR. lia.
Qed.

(* the counter moves from R p to R p' inside block b, by less than HS *)
Lemma sinv_step R BS HS nl s h p p' b :
  (forall i j, i <= j -> R i <= R j) -> (forall i j, i <= j -> R j <= R i + (j - i)) -> 0 < HS ->
  sinv R BS HS nl s h (R p) -> p <= p' -> p' < p + HS -> b <= nl -> BS * b <= p -> p' <= BS * (b + 1) ->
  sinv R BS HS nl (fst (hint_upd HS s h (R p') b)) (snd (hint_upd HS s h (R p') b)) (R p').
Proof.
  unfold sinv, hint_upd. intros Hmono Hlip HH Hinv Hpp Hlt Hb Hlo Hhi.
  pose proof (Hmono _ _ Hpp) as Hle. pose proof (Hlip _ _ Hpp) as Hlt'.
  pose proof (Hmono _ _ Hlo) as HR1. pose proof (Hmono _ _ Hhi) as HR2.
  set (cur := R p) in *. set (cur' := R p') in *.
  (* the quotient by HS moves by at most one; name the quotients before lia sees them *)
  assert (HH' : HS <> 0) by lia. assert (Hlt2 : cur' <= cur + 1 * HS) by lia.
  pose proof (N.div_le_mono _ _ HS HH' Hle) as Q1. pose proof (N.div_le_mono _ _ HS HH' Hlt2) as Q2.
  rewrite N.div_add in Q2 by exact HH'.
  pose proof (N.mul_succ_div_gt cur HS HH') as M1. pose proof (N.mul_div_le cur' HS HH') as M2.
  destruct Hinv as (Hh & Hent). set (q := cur / HS) in *. set (q' := cur' / HS) in *. clearbody q q' cur cur'.
  destruct (N.ltb_spec h q') as [Hc|Hc]; cbn [fst snd].
  - split; [lia|]. apply entries_push; [exact Hent|].
    replace (h + 1) with (N.succ q) at 1 by lia. replace (h + 1) with q' by lia. lia.
  - split; [lia|exact Hent].
Qed.

Definition samples_ok (R : N -> N) (BS HS lenF lastb total : N) (S : list N) : Prop :=
  len S = total / HS + 2 /\
  (forall t b, t <= total / HS -> nthN S t = Some b ->
     b <= lastb /\ R (BS * b) <= HS * t /\ (1 <= t -> HS * t <= R (BS * (b + 1)))) /\
  nthN S (total / HS + 1) = Some lastb /\ lenF <= BS * (lastb + 1).

Lemma sinv_final R BS HS nl s h total lastb lenF :
  sinv R BS HS nl s h total -> nl <= lastb -> lenF <= BS * (lastb + 1) ->
  samples_ok R BS HS lenF lastb total (rev (lastb :: s)).
Proof.
  intros (Hh & Hl & Hent) Hnl HlenF. cbn [rev].
  split; [lens; lia|]. split; [|split; [|assumption]].
  - intros t b Ht Hn. rewrite nthN_app1 in Hn by lia. destruct (Hent t b Hn) as (H1 & H2 & H3).
    split; [lia|split; assumption].
  - rewrite nthN_app2 by lia. replace (total / HS + 1 - len (rev s)) with 0 by lia. apply nthN_0.
Qed.

Lemma samples_bracket R BS HS lenF lastb total S k p :
  0 < BS -> 0 < HS ->
  (forall i j, i <= j -> R i <= R j) ->
  samples_ok R BS HS lenF lastb total S ->
  p < lenF -> R p <= k -> k < R (p + 1) -> k < total ->
  exists hs he, nthN S (k / HS) = Some hs /\ nthN S (k / HS + 1) = Some he /\
    hs <= p / BS /\ p / BS <= he /\ he <= lastb.
Proof.
  intros HB HH Hmono (Hlen & Hent & Hlast & HlenF) Hp Hk1 Hk2 Hkt.
  assert (HH' : HS <> 0) by lia. assert (HB' : BS <> 0) by lia. assert (Hkt' : k <= total) by lia.
  pose proof (N.div_le_mono _ _ HS HH' Hkt') as Hh.
  pose proof (N.mul_div_le k HS HH') as M1. pose proof (N.mul_succ_div_gt k HS HH') as M2.
  set (h := k / HS) in *. set (th := total / HS) in *. clearbody h th.
  destruct (nthN_lt_some S h) as (hs & Ehs); [lia|].
  destruct (nthN_lt_some S (h + 1)) as (he & Ehe); [lia|].
  exists hs, he. split; [assumption|]. split; [assumption|].
  destruct (Hent _ _ Hh Ehs) as (A1 & A2 & _).
  assert (Hhs : BS * hs <= p).
  { destruct (N.le_gt_cases (BS * hs) p) as [|Hgt]; [assumption|].
    assert (R (p + 1) <= R (BS * hs)) by (apply Hmono; lia). lia. }
  assert (Hhe : p < BS * (he + 1) /\ he <= lastb).
  { destruct (N.eq_dec h th) as [E|E].
    - rewrite E, Hlast in Ehe. injection Ehe as <-. split; lia.
    - destruct (Hent (h + 1) he) as (B1 & _ & B3); [lia|assumption|]. split; [|assumption].
      specialize (B3 ltac:(lia)). replace (h + 1) with (N.succ h) in B3 by lia.
      destruct (N.lt_ge_cases p (BS * (he + 1))) as [|Hge]; [assumption|].
      assert (R (BS * (he + 1)) <= R p) by (apply Hmono; lia). lia. }
  split; [apply N.div_le_lower_bound; assumption|]. split; [|apply Hhe].
  apply N.lt_succ_r, N.div_lt_upper_bound; [exact HB'|]. rewrite <- N.add_1_r. apply Hhe.
Qed.

(* the shape shared by select_subblock of RSNarrow and RSWide: the samples bracket the blocks to scan,
   then the 8 sub-blocks of the block found are scanned *)
Definition select_scan (samples : list N) (HS : N) (blk sub : N -> outcome N) (fuel : nat) (i : N) : outcome (N * N) :=
  let! hs := idx samples (i / HS) in
  let! he0 := idx samples (i / HS + 1) in
  let! hs' := scan_while blk i hs (1 + he0) fuel in
  let! p0 := osub hs' 1 in
  let! position := scan_for sub i (p0 * 8) 0 8 in
  let! rank := sub position in
  Val (position, rank).

(* sub-blocks of SS bits, blocks of 8 sub-blocks; the k-th occurrence is at position p *)
Lemma select_scan_ok R SS HS lenF lastb samples blk sub fuel k p :
  0 < SS -> 0 < HS -> (forall i j, i <= j -> R i <= R j) ->
  samples_ok R (SS * 8) HS lenF lastb (R lenF) samples ->
  (forall b, b <= lastb -> blk b = Val (R (SS * 8 * b))) ->
  (forall s, s / 8 <= lastb -> sub s = Val (R (SS * s))) ->
  lastb + 1 < N.of_nat fuel ->
  p < lenF -> R p <= k -> k < R (p + 1) ->
  select_scan samples HS blk sub fuel k = Val (p / SS, R (SS * (p / SS))).
Proof.
  intros HS0 HH Hmono Hsam Hblk Hsub Hfuel Hp Hk1 Hk2.
  assert (Hkt : k < R lenF) by (pose proof (Hmono (p + 1) lenF); lia).
  assert (HS' : SS <> 0) by lia. assert (HB : 0 < SS * 8) by lia.
  destruct (samples_bracket R (SS * 8) HS lenF lastb (R lenF) samples k p HB HH Hmono Hsam Hp Hk1 Hk2 Hkt)
    as (hs & he & Ehs & Ehe & Hhs & Hhe & Hhel).
  rewrite <- (N.div_div p SS 8 HS') in Hhs, Hhe by discriminate.
  (* q is the sub-block of p and Q its block *)
  pose proof (N.mul_div_le p SS HS') as Hq1. pose proof (N.mul_succ_div_gt p SS HS') as Hq2.
  set (q := p / SS) in *. pose proof (N.div_mod' q 8) as HQ. pose proof (N.mod_lt q 8 ltac:(discriminate)) as HQ'.
  set (Q := q / 8) in *. set (j := q mod 8) in *. clearbody q Q j.
  assert (Hlo : forall s, s <= q -> R (SS * s) <= k).
  { intros s Hs. etransitivity; [apply Hmono|exact Hk1].
    etransitivity; [apply N.mul_le_mono_l, Hs|exact Hq1]. }
  assert (Hhi : forall s, q + 1 <= s -> k < R (SS * s)).
  { intros s Hs. eapply N.lt_le_trans; [exact Hk2|apply Hmono].
    assert (SS * N.succ q <= SS * s) by (apply N.mul_le_mono_l; lia). lia. }
  unfold select_scan, idx at 1 2. rewrite Ehs, Ehe. cbn [bind].
  rewrite (scan_while_find blk (fun b => R (SS * 8 * b)) k (Q + 1)).
  - cbn [bind]. rewrite osub_ok by lia. cbn [bind]. replace (Q + 1 - 1) with Q by lia.
    rewrite (scan_for_find sub (fun s => R (SS * s)) k (Q * 8) j).
    + cbn [bind]. replace (Q * 8 + j) with q by lia. rewrite Hsub by lia. reflexivity.
    + lia.
    + intros i Hi. rewrite Hsub by lia. split; [reflexivity|apply Hlo; lia].
    + intros Hj. rewrite Hsub by lia. split; [reflexivity|apply Hhi; lia].
  - lia.
  - lia.
  - intros b Hb1 Hb2. cbv beta. rewrite Hblk by lia. split; [reflexivity|].
    rewrite <- N.mul_assoc. apply Hlo. lia.
  - intros Hlt. cbv beta. rewrite Hblk by lia. split; [reflexivity|].
    rewrite <- N.mul_assoc. apply Hhi. lia.
  - lia.
Qed.
