(* The superblock record operations of Model/RSQ.v on packed words (four words = vec4) *)
From Coq Require Import ZArith Lia ZifyBool ZifyN ZifyNat.
From QwtModel Require Import ListX Consts RSQ ListXP NBits OutcomeP RSQBits.

Lemma lor_digit q r c : r < 4096 -> N.lor (q * 4096 + r) (c * 4096) = N.lor q c * 4096 + r.
Proof.
  intros H. change 4096 with (2 ^ 12) in *. rewrite <- !(lor_add _ 12 r H), <- !N.shiftl_mul_pow2, N.shiftl_lor.
  rewrite <- !N.lor_assoc. f_equal. apply N.lor_comm.
Qed.

Lemma digits_lor top f g c : c < 4096 -> forall n k j, j < N.of_nat n ->
  (forall m, k <= m < k + j -> f m < 4096) -> f (k + j) = 0 -> g (k + j) = c ->
  (forall m, k <= m < k + N.of_nat n -> m <> k + j -> g m = f m) ->
  N.lor (digits top f k n) (N.shiftl c (12 * j)) = digits top g k n.
Proof.
  intros Hc. induction n as [|n IH]; intros k j Hj Hf Hz Hgj Hg; [lia|]. cbn [digits].
  destruct (N.eq_dec j 0) as [->|Hnz].
  - rewrite N.mul_0_r, N.shiftl_0_r. rewrite N.add_0_r in Hz, Hgj. rewrite Hz, Hgj, N.add_0_r.
    rewrite (digits_ext top g f n (k + 1)) by (intros m Hm; apply Hg; lia).
    apply (lor_add _ 12). exact Hc.
  - replace (12 * j) with (12 * (j - 1) + 12) by lia.
    rewrite <- N.shiftl_shiftl, (N.shiftl_mul_pow2 _ 12). change (2 ^ 12) with 4096.
    rewrite lor_digit by (apply Hf; lia). rewrite (Hg k) by lia. do 2 f_equal.
    apply IH; try lia.
    + intros m Hm. apply Hf. lia.
    + rewrite <- Hz. f_equal. lia.
    + rewrite <- Hgj. f_equal. lia.
    + intros m Hm Hne. apply Hg; lia.
Qed.

Lemma packw_set sbc f g k c : 1 <= k <= 7 -> fbound f -> f k = 0 -> c < 4096 -> g k = c ->
  (forall m, 1 <= m <= 7 -> m <> k -> g m = f m) ->
  N.lor (packw sbc f) (N.shiftl c ((k - 1) * 12) mod 2 ^ 128) = packw sbc g.
Proof.
  intros Hk Hf Hz Hc Hgk Hg. rewrite N.mod_small.
  - rewrite !packw_digits, (N.mul_comm _ 12). replace k with (1 + (k - 1)) in Hz, Hgk by lia.
    apply digits_lor; try assumption; try lia.
    + intros m Hm. apply Hf. lia.
    + intros m Hm Hne. apply Hg; lia.
  - rewrite N.shiftl_mul_pow2. apply N.lt_le_trans with (2 ^ 12 * 2 ^ ((k - 1) * 12)).
    + apply N.mul_lt_mono_pos_r; [apply pow2_pos|exact Hc].
    + rewrite <- N.pow_add_r. apply N.pow_le_mono_r; lia.
Qed.

Definition vec4 {A} (g : N -> A) : list A := [g 0; g 1; g 2; g 3].

Lemma le3_cases c : c <= 3 -> c = 0 \/ c = 1 \/ c = 2 \/ c = 3.
Proof. lia. Qed.

Lemma nthN_vec4 {A} (g : N -> A) c : c <= 3 -> nthN (vec4 g) c = Some (g c).
Proof. intros H. destruct (le3_cases c H) as [->|[->|[->| ->]]]; reflexivity. Qed.
Lemma nthN_vec4_none {A} (g : N -> A) c : 3 < c -> nthN (vec4 g) c = None.
Proof. intros H. apply nthN_none. unfold vec4, len. cbn [length]. lia. Qed.
Lemma vec4_ext {A} (g h : N -> A) : (forall c, c <= 3 -> g c = h c) -> vec4 g = vec4 h.
Proof. intros H. unfold vec4. rewrite (H 0), (H 1), (H 2), (H 3) by lia. reflexivity. Qed.
Lemma setN_vec4 {A} (g : N -> A) c v : c <= 3 ->
  setN (vec4 g) c v = vec4 (fun x => if x =? c then v else g x).
Proof. intros H. destruct (le3_cases c H) as [->|[->|[->| ->]]]; reflexivity. Qed.
Lemma idx_vec4 {A} (g : N -> A) c : c <= 3 -> idx (vec4 g) c = Val (g c).
Proof. intros H. unfold idx. now rewrite nthN_vec4. Qed.
Lemma uidx_vec4 {A} (g : N -> A) c : c <= 3 -> uidx (vec4 g) c = Val (g c).
Proof. intros H. unfold uidx. now rewrite nthN_vec4. Qed.
Lemma map_vec4 {A B} (h : A -> B) (g : N -> A) : map h (vec4 g) = vec4 (fun c => h (g c)).
Proof. reflexivity. Qed.
Lemma incr_vec4 (g : N -> N) c : c <= 3 ->
  incr (vec4 g) c = Val (vec4 (fun x => if x =? c then g c + 1 else g x)).
Proof. intros H. unfold incr. rewrite idx_vec4 by assumption. cbn [bind]. now rewrite setN_vec4. Qed.

Definition sbrec (sbc : N -> N) (f : N -> N -> N) : list N := vec4 (fun c => packw (sbc c) (f c)).

Lemma sb_new_vec4 g : (forall c, c <= 3 -> g c < 2 ^ 44) ->
  sb_new (vec4 g) = sbrec g (fun _ _ => 0).
Proof.
  intros H. unfold sb_new, sbrec. rewrite map_vec4. apply vec4_ext. intros c Hc.
  rewrite packw_zero, SB_SHIFT_val, N.shiftl_mul_pow2. apply N.mod_small.
  specialize (H c Hc). norm_pow. norm_pow in H. lia.
Qed.

Lemma sb_get_superblock_counter_rec sbc f c : c <= 3 -> fbound (f c) -> sbc c < 2 ^ 44 ->
  sb_get_superblock_counter (sbrec sbc f) c = Val (sbc c).
Proof.
  intros Hc Hf Hs. unfold sb_get_superblock_counter, sbrec. rewrite uidx_vec4 by assumption.
  cbn [bind]. rewrite SB_SHIFT_GC_val, packw_sbc by assumption.
  rewrite N.mod_small by (norm_pow; norm_pow in Hs; lia). reflexivity.
Qed.

(* block ids <= 7 and superblock counters < 2^44: none of the overflow checks of get_rank fires *)
Lemma sb_get_rank_rec sbc f c b : c <= 3 -> fbound (f c) -> b <= 7 -> sbc c < 2 ^ 44 ->
  sb_get_rank (sbrec sbc f) c b = Val (sbc c + (if b =? 0 then 0 else f c b)).
Proof.
  intros Hc Hf Hb Hs. unfold sb_get_rank, sbrec. rewrite uidx_vec4 by assumption. cbn [bind].
  rewrite SB_SHIFT_GR_val, BLK_BITS_GR_val, BLK_MASK_GR_val, packw_sbc by assumption.
  assert (S64 : sbc c + 4096 < 2 ^ 64) by (norm_pow; norm_pow in Hs; lia).
  rewrite (N.mod_small (sbc c)) by lia.
  destruct (N.eqb_spec b 0) as [->|Hn].
  - change (0 <? 0) with false. cbv iota. rewrite osub_ok by lia. cbn [bind].
    rewrite omul_ok by lia. cbn [bind]. rewrite oshr_ok by lia. cbn [bind].
    rewrite omul_ok by lia. cbn [bind]. rewrite N.mul_0_r. now rewrite oadd_ok by lia.
  - replace (0 <? b) with true by lia. rewrite osub_ok by lia. cbn [bind].
    rewrite omul_ok by lia. cbn [bind]. rewrite oshr_ok by lia. cbn [bind].
    assert (M : forall x, (x mod 2 ^ 64) mod 4096 = x mod 4096) by (intros x; norm_pow; lia).
    rewrite land4095, M, (N.mul_comm _ 12), packw_shift by (try assumption; lia).
    pose proof (Hf b ltac:(lia)). rewrite omul_ok by lia. cbn [bind]. rewrite N.mul_1_r. now rewrite oadd_ok by lia.
Qed.

Lemma forallb_vec4 {A} (p : A -> bool) g : (forall c, c <= 3 -> p (g c) = true) -> forallb p (vec4 g) = true.
Proof. intros H. unfold vec4. cbn [forallb]. rewrite (H 0), (H 1), (H 2), (H 3) by lia. reflexivity. Qed.

Lemma sb_set_block_counters_0 s cs : (forall c, c <= 3 -> cs c < 4096) ->
  sb_set_block_counters s 0 (vec4 cs) = Val s.
Proof.
  intros H. unfold sb_set_block_counters. rewrite SET_BLOCK_ID_LIMIT_val, BLK_LIMIT_val.
  rewrite forallb_vec4 by (intros c Hc; apply N.ltb_lt, H, Hc). reflexivity.
Qed.

Lemma sb_set_block_counters_rec sbc f g k cs : 1 <= k <= 7 ->
  (forall c, c <= 3 -> fbound (f c)) ->
  (forall c, c <= 3 -> f c k = 0) ->
  (forall c, c <= 3 -> cs c < 4096) ->
  (forall c, c <= 3 -> g c k = cs c) ->
  (forall c m, c <= 3 -> 1 <= m <= 7 -> m <> k -> g c m = f c m) ->
  sb_set_block_counters (sbrec sbc f) k (vec4 cs) = Val (sbrec sbc g).
Proof.
  intros Hk Hf Hz H Hgk Hg. unfold sb_set_block_counters.
  rewrite SET_BLOCK_ID_LIMIT_val, BLK_LIMIT_val, BLK_BITS_val.
  rewrite forallb_vec4 by (intros c Hc; apply N.ltb_lt, H, Hc).
  replace (k <? 8) with true by lia. replace (k =? 0) with false by lia. cbn [oassert bind]. f_equal.
  unfold sbrec, vec4. cbn [combine map].
  assert (P : forall c, c <= 3 ->
    N.lor (packw (sbc c) (f c)) (N.shiftl (cs c) ((k - 1) * 12) mod 2 ^ 128) = packw (sbc c) (g c))
    by (intros c Hc; apply packw_set; auto).
  rewrite (P 0), (P 1), (P 2), (P 3) by lia. reflexivity.
Qed.

Lemma block_pred_loop_spec sbc f target : fbound f ->
  forall fuel k prev, k + N.of_nat fuel = 8 -> 1 <= k ->
  exists b, sb_block_pred_loop (N.shiftr (packw sbc f) (12 * (k - 1))) prev target k fuel
            = (b, if b =? k - 1 then prev else f b) /\
    k - 1 <= b <= 7 /\ (forall m, k <= m <= b -> f m < target) /\ (b < 7 -> target <= f (b + 1)).
Proof.
  intros Hf. induction fuel as [|fuel IH]; intros k prev Hk H1; cbn [sb_block_pred_loop].
  - rewrite BLOCKS_IN_SB_val. exists 7. assert (k = 8) by lia. subst k.
    change (8 - 1) with 7. rewrite N.eqb_refl. repeat split; try lia.
  - rewrite BLK_MASK_BP_val, BLK_BITS_BP_val, land4095, packw_shift by (try assumption; lia).
    destruct (N.leb_spec target (f k)) as [Hle|Hgt].
    + exists (k - 1). rewrite N.eqb_refl. repeat split; try lia.
      intros _. replace (k - 1 + 1) with k by lia. exact Hle.
    + rewrite N.shiftr_shiftr. replace (12 * (k - 1) + 12) with (12 * (k + 1 - 1)) by lia.
      destruct (IH (k + 1) (f k) ltac:(lia) ltac:(lia)) as (b & E & Hb & Hlt & Hnext).
      exists b. rewrite E. split; [|split; [lia|split; [|exact Hnext]]].
      * f_equal. replace (k + 1 - 1) with k by lia.
        destruct (N.eqb_spec b k) as [->|Hn]; [now replace (k =? k - 1) with false by lia|].
        now replace (b =? k - 1) with false by lia.
      * intros m Hm. destruct (N.eq_dec m k) as [->|Hne]; [exact Hgt|]. apply Hlt. lia.
Qed.

Lemma sb_block_predecessor_rec sbc f c target : c <= 3 -> fbound (f c) ->
  exists b, sb_block_predecessor (sbrec sbc f) c target = Val (b, if b =? 0 then 0 else f c b) /\
    b <= 7 /\ (forall m, 1 <= m <= b -> f c m < target) /\ (b < 7 -> target <= f c (b + 1)).
Proof.
  intros Hc Hf. unfold sb_block_predecessor, sbrec. rewrite idx_vec4 by assumption. cbn [bind].
  rewrite BLOCKS_IN_SB_val. change (N.to_nat (8 - 1)) with 7%nat.
  destruct (block_pred_loop_spec (sbc c) (f c) target Hf 7 1 0 ltac:(lia) ltac:(lia))
    as (b & E & Hb & Hlt & Hnext).
  change (12 * (1 - 1)) with 0 in E. rewrite N.shiftr_0_r in E. change (1 - 1) with 0 in E.
  exists b. rewrite E. repeat split; try lia; assumption.
Qed.
