(* RSWide: construction invariant and correctness of the queries. *)
From Coq Require Import ZArith Lia ZifyBool ZifyN ZifyNat.
From QwtModel Require Import ListX Seq RSBin ListXP NBits OutcomeP RSBinL RSBinB.

Lemma RSW_BLOCK_WORDS_val : RSW_BLOCK_WORDS = 8. Proof. reflexivity. Qed.
Lemma RSW_SUPERBLOCK_WORDS_val : RSW_SUPERBLOCK_WORDS = 64. Proof. reflexivity. Qed.
Lemma RSW_ONES_PER_HINT_val : RSW_ONES_PER_HINT = 8192. Proof. reflexivity. Qed.
Lemma RSW_ZEROS_PER_HINT_val : RSW_ZEROS_PER_HINT = 8192. Proof. reflexivity. Qed.
Lemma RSW_BLK_BITS_val : RSW_BLK_BITS = 12. Proof. reflexivity. Qed.
Lemma RSW_BLK_BITS_TAIL_val : RSW_BLK_BITS_TAIL = 12. Proof. reflexivity. Qed.
Lemma RSW_SB_SHIFT_val : RSW_SB_SHIFT = 84. Proof. reflexivity. Qed.
Lemma RSW_SB_SHIFT_RD_val : RSW_SB_SHIFT_RD = 84. Proof. reflexivity. Qed.
Lemma RSW_BLK_BITS_RD_val : RSW_BLK_BITS_RD = 12. Proof. reflexivity. Qed.
Lemma RSW_BLK_MASK_val : RSW_BLK_MASK = 4095. Proof. reflexivity. Qed.
Lemma M128_val : M128 = 2 ^ 128. Proof. reflexivity. Qed.

(* in-superblock counters: ones of the first j lines of superblock S *)
Definition cW (ws : list N) (S j : N) : N := R1 ws (4096 * S + 512 * j) - R1 ws (4096 * S).
Definition encW (ws : list N) (S : N) : N := enc 4096 (R1 ws (4096 * S)) (cW ws S) 7.

Lemma cW_bound ws S j : j <= 7 -> cW ws S j < 4096.
Proof. intros H. unfold cW. pose proof (R1_lip ws (4096 * S) (4096 * S + 512 * j)). lia. Qed.

Lemma rsw_line_eq st b l : rsw_line st b l =
  let total := if b mod 8 =? 0 then ws_total st + ws_pop st else ws_total st in
  let pop0 := if b mod 8 =? 0 then 0 else ws_pop st in
  let cur := if b mod 8 =? 0 then ws_total st + ws_pop st
             else N.lor (N.shiftl (ws_cur st) 12 mod M128) (ws_pop st) in
  let ones := line_n_ones l in
  let pop := pop0 + ones in
  let u1 := hint_upd 8192 (ws_s1 st) (ws_hint1 st) (total + pop) (b / 8) in
  let zeros := ws_zeros st + (512 - ones) in
  let u0 := hint_upd 8192 (ws_s0 st) (ws_hint0 st) zeros (b / 8) in
  let meta := if (b + 1) mod 8 =? 0 then cur :: ws_meta st else ws_meta st in
  mk_rsws meta total cur pop zeros (fst u0) (fst u1) (snd u0) (snd u1).
Proof.
  unfold rsw_line, hint_upd. rewrite RSW_ONES_PER_HINT_val, RSW_ZEROS_PER_HINT_val, RSW_BLK_BITS_val.
  destruct (b mod 8 =? 0); cbv zeta iota.
  - destruct (ws_hint1 st <? (ws_total st + ws_pop st + (0 + line_n_ones l)) / 8192);
    destruct (ws_hint0 st <? (ws_zeros st + (512 - line_n_ones l)) / 8192); reflexivity.
  - destruct (ws_hint1 st <? (ws_total st + (ws_pop st + line_n_ones l)) / 8192);
    destruct (ws_hint0 st <? (ws_zeros st + (512 - line_n_ones l)) / 8192); reflexivity.
Qed.

Lemma rsw_loop_inv (P : rsw_state -> N -> Prop) ws nl : len ws = 8 * nl ->
  (forall st b, b < nl -> P st b -> P (rsw_line st b (line_of ws b)) (b + 1)) ->
  forall fuel b st, b + N.of_nat fuel = nl -> P st b -> P (rsw_loop st b (skipnN (8 * b) ws) fuel) nl.
Proof.
  intros Hlen Hstep. induction fuel as [|fuel IH]; intros b st Hb HP; cbn [rsw_loop].
  - replace nl with b by lia. exact HP.
  - destruct (skipnN (8 * b) ws) as [|x rest] eqn:E.
    + exfalso. pose proof (len_skipnN ws (8 * b)) as Hl. rewrite E in Hl. change (len (@nil N)) with 0 in Hl. lia.
    + rewrite <- E.
      assert (E1 : firstn 8 (skipnN (8 * b) ws) = line_of ws b).
      { unfold line_of. now rewrite (N.mul_comm b 8). }
      assert (E2 : skipn 8 (skipnN (8 * b) ws) = skipnN (8 * (b + 1)) ws).
      { change 8%nat with (N.to_nat 8). rewrite <- skipnN_skipn, skipnN_skipnN. f_equal. lia. }
      rewrite E1, E2. apply IH; [lia|]. apply Hstep; [lia|exact HP].
Qed.

(* After b lines: the running total, the zeros, the finished superblock words and the two sample lists.
   Inside a superblock (b mod 8 > 0) ws_total is the count before it and ws_cur holds the counters of its
   lines but the last one read, which is still in ws_pop; at a boundary both are about to be overwritten. *)
Definition winv (ws : list N) (lastb : N) (st : rsw_state) (b : N) : Prop :=
  cinv ws 4096 8192 lastb (512 * b) (ws_total st + ws_pop st) (ws_zeros st) (ws_s1 st) (ws_hint1 st) (ws_s0 st) (ws_hint0 st) /\
  (0 < b mod 8 -> ws_total st = R1 ws (4096 * (b / 8)) /\
                  ws_cur st = enc 4096 (ws_total st) (cW ws (b / 8)) (N.to_nat (b mod 8 - 1))) /\
  entries (fun S x => x = encW ws S) (b / 8) (rev (ws_meta st)).

Definition rsw_st0 : rsw_state := mk_rsws [] 0 0 0 0 [0] [0] 0 0.

Lemma winv_init ws lastb : winv ws lastb rsw_st0 0.
Proof.
  unfold winv, rsw_st0. cbn [ws_meta ws_total ws_cur ws_pop ws_zeros ws_s0 ws_s1 ws_hint0 ws_hint1].
  change (512 * 0) with 0. change (0 / 8) with 0. change (0 mod 8) with 0.
  split; [apply cinv_init; lia|]. split; [lia|apply entries_nil].
Qed.

(* cur << 12 | pop appends the counter of line n + 1 *)
Lemma wide_push T c n : T < 2 ^ 44 - 1 -> (n <= 6)%nat -> (forall i, 1 <= i -> i <= 7 -> c i < 4096) ->
  N.lor (N.shiftl (enc 4096 T c n) 12 mod M128) (c (N.of_nat (S n))) = enc 4096 T c (S n).
Proof.
  intros HT Hn Hc. apply (enc_push 12 M128 T c n 6 Hn); [intros; apply Hc; lia|].
  change M128 with (2 ^ 44 * (2 ^ 12) ^ N.of_nat 7). apply N.mul_le_mono_r. lia.
Qed.

Section Wide.
Hypothesis PC : popcount_ok.
Hypothesis SIW : siw_ok.

Lemma winv_step ws lastb st b : words_ok ws -> 64 * len ws < 2 ^ 44 - 1 -> b / 8 <= lastb ->
  winv ws lastb st b -> winv ws lastb (rsw_line st b (line_of ws b)) (b + 1).
Proof.
  intros Hok Hsmall Hbl (Ic & Icur & Imeta). pose proof Ic as (Isum & _).
  pose proof (R1_line PC ws b Hok) as HR.
  pose proof (N.div_mod' b 8) as Hb. pose proof (N.mod_lt b 8 ltac:(discriminate)) as Hm.
  rewrite rsw_line_eq. cbv zeta.
  unfold winv. cbn [ws_meta ws_total ws_cur ws_pop ws_zeros ws_s0 ws_s1 ws_hint0 ws_hint1].
  set (ones := line_n_ones (line_of ws b)) in *. set (S := b / 8) in *. set (m := b mod 8) in *.
  clearbody ones S m.
  apply (cinv_step ws 4096 8192 lastb (512 * b) _ _ _ _ _ _ 512 ones S) in Ic;
    [|lia..|replace (512 * b + 512) with (512 * (b + 1)) by lia; exact HR].
  replace (512 * b + 512) with (512 * (b + 1)) in Ic by lia.
  (* at a boundary the old pop moves into the total: the sum is the same either way *)
  assert (E : (if m =? 0 then ws_total st + ws_pop st else ws_total st) + ((if m =? 0 then 0 else ws_pop st) + ones) =
              ws_total st + ws_pop st + ones) by (destruct (m =? 0); lia).
  rewrite E. clear E. split; [exact Ic|]. clear Ic.
  destruct (N.eqb_spec m 0) as [Hm0|Hm0].
  - (* first line of a superblock: the counters restart from the running total *)
    destruct (divmod_unique 8 S 1 (b + 1)) as [-> ->]; [lia|lia|].
    split; [|exact Imeta]. intros _. split; [rewrite Isum; f_equal; lia|reflexivity].
  - destruct (Icur ltac:(lia)) as [Itot Ic]. clear Icur.
    assert (Epop : ws_pop st = cW ws S m).
    { unfold cW. replace (4096 * S + 512 * m) with (512 * b) by lia. lia. }
    assert (Hpush : N.lor (N.shiftl (ws_cur st) 12 mod M128) (ws_pop st) =
                    enc 4096 (ws_total st) (cW ws S) (N.to_nat m)).
    { replace (N.to_nat m) with (Datatypes.S (N.to_nat (m - 1))) by lia.
      rewrite <- wide_push, <- Ic, Epop.
      - do 2 f_equal. lia.
      - pose proof (R1_le_len ws (4096 * S)). lia.
      - lia.
      - intros. apply cW_bound. lia. }
    rewrite Hpush. clear Hpush.
    destruct (N.eq_dec m 7) as [Hm7|Hm7].
    + (* last line: the word of the superblock is complete *)
      destruct (divmod_unique 8 (S + 1) 0 (b + 1)) as [-> ->]; [lia|lia|].
      split; [lia|]. apply entries_push; [exact Imeta|]. unfold encW. rewrite <- Itot, Hm7. reflexivity.
    + destruct (divmod_unique 8 S (m + 1) (b + 1)) as [-> ->]; [lia|lia|].
      destruct (N.eqb_spec (m + 1) 0) as [E|_]; [lia|].
      split; [|exact Imeta]. intros _. split; [exact Itot|do 2 f_equal; lia].
Qed.

Lemma winv_final ws nl lastb : words_ok ws -> len ws = 8 * nl -> 64 * len ws < 2 ^ 44 - 1 -> nl <= 8 * lastb ->
  winv ws lastb (rsw_loop rsw_st0 0 ws (N.to_nat nl)) nl.
Proof.
  intros Hok Hlen Hsmall Hl.
  assert (E : rsw_loop rsw_st0 0 ws (N.to_nat nl) = rsw_loop rsw_st0 0 (skipnN (8 * 0) ws) (N.to_nat nl)).
  { change (8 * 0) with 0. rewrite skipnN_0. reflexivity. }
  rewrite E.
  apply (rsw_loop_inv (winv ws lastb) ws nl Hlen); [|lia|apply winv_init].
  intros st b Hb Hi. apply winv_step; try assumption. lia.
Qed.

(* the tail fill of the last, partial superblock *)
Lemma iter_enc T c pop : T < 2 ^ 44 - 1 -> (forall i, 1 <= i -> i <= 7 -> c i < 4096) ->
  forall k n, (n + k <= 7)%nat -> (forall i, N.of_nat n < i -> i <= 7 -> c i = pop) ->
  iterN (fun x => N.lor (N.shiftl x 12 mod M128) pop) k (enc 4096 T c n) = enc 4096 T c (n + k).
Proof.
  intros HT Hc. induction k as [|k IH]; intros n Hn Hcp; cbn [iterN].
  - now rewrite Nat.add_0_r.
  - replace (N.lor (N.shiftl (enc 4096 T c n) 12 mod M128) pop) with (enc 4096 T c (S n)).
    + rewrite IH; [f_equal; lia|lia|]. intros i Hi1 Hi2. apply Hcp; lia.
    + rewrite <- wide_push by (assumption || lia). rewrite Hcp by lia. reflexivity.
Qed.

Definition rsw_dir_ok (ws : list N) (lastb : N) (r : rswide) : Prop :=
  len (rsw_meta r) = lastb + 1 /\
  (forall S, S <= lastb -> nthN (rsw_meta r) S = Some (encW ws S)) /\
  samples_ok (Rc ws true) 4096 8192 (64 * len ws) lastb (Rc ws true (64 * len ws)) (rsw_samples1 r) /\
  samples_ok (Rc ws false) 4096 8192 (64 * len ws) lastb (Rc ws false (64 * len ws)) (rsw_samples0 r).

Lemma encW_tail ws S : len ws <= 64 * S -> encW ws S = R1 ws (64 * len ws) * 2 ^ 84.
Proof.
  intros H. unfold encW. rewrite enc_zero.
  - rewrite (R1_sat ws (4096 * S)) by lia. reflexivity.
  - intros i _ _. unfold cW. rewrite (R1_sat ws (4096 * S + 512 * i)), (R1_sat ws (4096 * S)) by lia. lia.
Qed.

Lemma ceil8 n : (n mod 8 = 0 /\ (n + 7) / 8 = n / 8) \/ (0 < n mod 8 /\ (n + 7) / 8 = n / 8 + 1).
Proof. lia. Qed.

Lemma rsw_new_ok bv : bv_wf bv -> exists r, rsw_new bv = Val r /\ rsw_bv r = bv /\
  rsw_dir_ok (bv_words bv) ((nlines bv + 7) / 8) r /\
  rsw_n_zeros r = bv_nbits bv - R1 (bv_words bv) (bv_nbits bv).
Proof.
  intros Hwf. pose proof (wf_len bv Hwf) as Hlen. pose proof (wf_ok bv Hwf) as Hok.
  pose proof (wf_nbits bv Hwf) as (Hn1 & Hn2 & Hn3).
  unfold rsw_new, bv_len. fold rsw_st0. rewrite RSW_BLK_BITS_TAIL_val, RSW_SB_SHIFT_val.
  set (ws := bv_words bv) in *. set (nl := nlines bv) in *.
  assert (Hsmall : 64 * len ws < 2 ^ 44 - 1).
  { change (2 ^ 44 - 1) with 17592186044415. change (2 ^ 43) with 8796093022208 in Hn3. lia. }
  replace (len ws / 8) with nl by (rewrite Hlen, N.mul_comm, N.div_mul; [reflexivity|discriminate]).
  destruct (winv_final ws nl ((nl + 7) / 8) Hok Hlen Hsmall ltac:(lia))
    as ((Isum & Izeros & Is1 & Is0) & Icur & Imeta).
  pose proof (N.div_mod' nl 8) as Hnl. pose proof (N.mod_lt nl 8 ltac:(discriminate)) as Hm.
  pose proof (ceil8 nl) as Elast.
  set (st := rsw_loop rsw_st0 0 ws (N.to_nat nl)) in *.
  set (lastb := (nl + 7) / 8) in *. set (S := nl / 8) in *. set (m := nl mod 8) in *. clearbody lastb S m.
  replace (512 * nl) with (64 * len ws) in * by lia.
  rewrite Isum.
  assert (Hpad : R1 ws (64 * len ws) = R1 ws (bv_nbits bv)) by (apply R1_pad; [assumption|lia]).
  pose proof (R1_le ws (bv_nbits bv)) as Hle.
  assert (Esh : N.shiftl (R1 ws (64 * len ws)) 84 mod M128 = encW ws lastb).
  { rewrite encW_tail by lia. rewrite N.shiftl_mul_pow2. apply N.mod_small.
    change M128 with (2 ^ 44 * 2 ^ 84). apply N.mul_lt_mono_pos_r; [reflexivity|]. lia. }
  rewrite Esh. clear Esh.
  match goal with |- context [osub (len ?l) 1] => set (meta := l) end.
  assert (Hmeta : entries (fun S x => x = encW ws S) (lastb + 1) (rev meta)).
  { unfold meta. destruct Elast as [(Hm0 & ->)|(Hm0 & ->)].
    - rewrite Hm0. apply entries_push; [exact Imeta|reflexivity].
    - destruct (N.eqb_spec m 0) as [E|_]; [lia|].
      apply entries_push; [apply entries_push; [exact Imeta|]|reflexivity].
      (* the counter of the last line fills the fields of the missing ones *)
      destruct (Icur Hm0) as [Itot Ic].
      rewrite Ic, (iter_enc (ws_total st) (cW ws S) (ws_pop st)).
      + unfold encW. rewrite <- Itot. f_equal. lia.
      + pose proof (R1_le_len ws (4096 * S)). lia.
      + intros. apply cW_bound. lia.
      + lia.
      + intros i Hi1 Hi2. unfold cW. rewrite (R1_sat ws (4096 * S + 512 * i)) by lia. lia. }
  clearbody meta.
  assert (HlenF : 64 * len ws <= 4096 * (lastb + 1)) by (destruct Elast as [(_ & ->)|(_ & ->)]; lia).
  rewrite <- (len_rev meta), (proj1 Hmeta), !osub_ok by lia. cbn [bind].
  replace (lastb + 1 - 1) with lastb by lia.
  eexists. split; [reflexivity|]. split; [reflexivity|]. split; [|cbn [rsw_n_zeros]; lia].
  unfold rsw_dir_ok. cbn [rsw_meta rsw_samples0 rsw_samples1].
  split; [exact (proj1 Hmeta)|]. split; [intros S' HS'; apply (entries_nth _ _ _ _ Hmeta); lia|].
  split; [exact (sinv_final _ _ _ _ _ _ _ _ _ Is1 (N.le_refl _) HlenF)|
          exact (sinv_final _ _ _ _ _ _ _ _ _ Is0 (N.le_refl _) HlenF)].
Qed.

Section WQueries.
Variable bv : bitvec.
Variable r : rswide.
Hypothesis Hwf : bv_wf bv.
Hypothesis Hbv : rsw_bv r = bv.
Let ws := bv_words bv.
Let nl := nlines bv.
Let lastb := (nl + 7) / 8.
Hypothesis Hdir : rsw_dir_ok ws lastb r.
Hypothesis Hnz : rsw_n_zeros r = bv_nbits bv - R1 ws (bv_nbits bv).

Lemma rsw_superblock_rank_ok S : S <= lastb -> rsw_superblock_rank r S = Val (R1 ws (4096 * S)).
Proof.
  intros HS. destruct Hdir as (_ & Hm & _). unfold rsw_superblock_rank, idx. rewrite (Hm S HS). cbn [bind].
  rewrite RSW_SB_SHIFT_RD_val, N.shiftr_div_pow2. f_equal. change (2 ^ 84) with (4096 ^ N.of_nat 7).
  unfold encW. apply enc_top; [lia|]. intros i _ Hi. apply cW_bound. lia.
Qed.

Lemma rsw_sub_block_rank_ok s0 : s0 / 8 <= lastb -> rsw_sub_block_rank r s0 = Val (R1 ws (512 * s0)).
Proof.
  intros Hs. unfold rsw_sub_block_rank. rewrite rsw_superblock_rank_ok by assumption. cbn [bind].
  pose proof (N.div_mod' s0 8) as Es. pose proof (N.mod_lt s0 8 ltac:(discriminate)) as Hm.
  destruct Hdir as (_ & Hd & _). specialize (Hd (s0 / 8) Hs).
  set (S := s0 / 8) in *. set (m := s0 mod 8) in *. clearbody S m.
  destruct (N.eqb_spec m 0) as [E|E].
  - do 2 f_equal. lia.
  - unfold idx. rewrite Hd. cbn [bind]. f_equal.
    rewrite RSW_BLK_BITS_RD_val, RSW_BLK_MASK_val, land4095, N.shiftr_div_pow2, (N.mul_comm _ 12), N.pow_mul_r.
    change (2 ^ 12) with 4096. unfold encW.
    rewrite (enc_field 4096 _ (cW ws S) 7); [|lia|intros i _ Hi; apply cW_bound; exact Hi|lia|lia].
    unfold cW. replace (4096 * S + 512 * m) with (512 * s0) by lia.
    pose proof (R1_mono ws (4096 * S) (512 * s0)). lia.
Qed.

Lemma rsw_rank1_unchecked_ok i : i <= bv_nbits bv -> rsw_rank1_unchecked r i = Val (R1 ws i).
Proof.
  intros Hi. unfold rsw_rank1_unchecked. destruct (N.eqb_spec i 0) as [->|Hi0].
  - unfold ws. rewrite R1_0. reflexivity.
  - pose proof (wf_nbits bv Hwf) as Hn. pose proof (wf_len bv Hwf) as Hl. fold nl in Hn, Hl. fold ws in Hl.
    rewrite shiftr9, land511, Hbv. fold ws.
    rewrite rsw_sub_block_rank_ok by (unfold lastb; lia). cbn [bind].
    destruct (N.ltb_spec ((i - 1) / 512 * 8) (len ws)); [|lia]. cbn [bind].
    unfold bline_rank1. destruct (N.ltb_spec 512 ((i - 1) mod 512 + 1)); [lia|]. cbn [ounwrap bind]. f_equal.
    rewrite (bline_rank1_loop_spec PC) by (rewrite line_of_window; apply words_ok_window, (wf_ok bv Hwf)).
    rewrite <- FL_window_line, rank_spec_window by lia.
    fold (R1 ws (512 * ((i - 1) / 512))). fold (R1 ws (512 * ((i - 1) / 512) + ((i - 1) mod 512 + 1))).
    replace (512 * ((i - 1) / 512) + ((i - 1) mod 512 + 1)) with i by lia.
    pose proof (R1_mono ws (512 * ((i - 1) / 512)) i). lia.
Qed.

Lemma rsw_rank0_unchecked_ok i : i <= bv_nbits bv -> rsw_rank0_unchecked r i = Val (i - R1 ws i).
Proof.
  intros Hi. unfold rsw_rank0_unchecked. rewrite rsw_rank1_unchecked_ok by assumption. apply osub_ok, R1_le.
Qed.

Let s := bv_abs bv.

Lemma rsw_rank1_ok i :
  rsw_rank1 r i = Val (if (negb (len s =? 0)) && (i <=? len s) then Some (rank1_spec s i) else None).
Proof. unfold rsw_rank1. rewrite Hbv. apply (rank1_checked bv _ i Hwf), rsw_rank1_unchecked_ok. Qed.

Lemma rsw_rank0_ok i :
  rsw_rank0 r i = Val (if (negb (len s =? 0)) && (i <=? len s) then Some (rank0_spec s i) else None).
Proof. apply (rank0_checked bv _ i Hwf), rsw_rank1_ok. Qed.

Lemma rsw_n_zeros_ok : rsw_n_zeros_q r = len s - countb s.
Proof. unfold rsw_n_zeros_q, s. rewrite Hnz, (len_abs bv Hwf), (countb_abs bv Hwf). reflexivity. Qed.

Lemma rsw_n_ones_ok : rsw_n_ones r = Val (countb s).
Proof.
  unfold rsw_n_ones, s. rewrite Hnz, Hbv, (countb_abs bv Hwf). unfold bv_len. fold ws.
  pose proof (R1_le ws (bv_nbits bv)). rewrite osub_ok by lia. f_equal. lia.
Qed.

Definition wblk (one : bool) (r : rswide) (b : N) : outcome N :=
  if one then rsw_superblock_rank r b
  else let! br := rsw_superblock_rank r b in osub (RSW_SUPERBLOCK_WORDS * 64 * b) br.
Definition wsub (one : bool) (r : rswide) (s : N) : outcome N :=
  if one then rsw_sub_block_rank r s
  else let! sr := rsw_sub_block_rank r s in osub (RSW_BLOCK_WORDS * 64 * s) sr.

Lemma rsw_select_subblock_eq one i : rsw_select_subblock one r i =
  select_scan (if one then rsw_samples1 r else rsw_samples0 r) 8192 (wblk one r) (wsub one r)
              (S (length (rsw_meta r))) i.
Proof. destruct one; reflexivity. Qed.

Lemma rsw_select_subblock_ok one k p : select_spec (FL ws) (cbit one) k = Some p ->
  rsw_select_subblock one r k = Val (p / 512, Rc ws one (512 * (p / 512))).
Proof.
  intros Hsel. destruct (Rc_select ws one k p Hsel) as (Hp & HRp & HRp1).
  destruct Hdir as (Hplen & _ & Hsam1 & Hsam0). unfold len in Hplen.
  rewrite rsw_select_subblock_eq.
  apply (select_scan_ok (Rc ws one) 512 8192 (64 * len ws) lastb); try lia.
  - apply Rc_mono.
  - destruct one; assumption.
  - intros b Hb. apply (Rc_of_R1 ws one _ (4096 * b)), rsw_superblock_rank_ok, Hb.
  - intros s0 Hs0. apply (Rc_of_R1 ws one _ (512 * s0)), rsw_sub_block_rank_ok, Hs0.
Qed.

Lemma rsw_select_unchecked_ok one k p : select_spec (map N_of_bool s) (cbit one) k = Some p ->
  rsw_select_unchecked one r k = Val p.
Proof.
  intros Hsel0. pose proof (select_abs bv one k p Hsel0) as Hsel. fold ws in Hsel.
  destruct (Rc_select ws one k p Hsel) as (Hp & HRp & HRp1). pose proof (wf_len bv Hwf) as Hl. fold ws in Hl.
  unfold rsw_select_unchecked. rewrite (rsw_select_subblock_ok one k p Hsel). cbn [bind].
  rewrite Hbv. fold ws.
  destruct (N.ltb_spec (p / 512 * 8) (len ws)); [|lia]. cbn [bind].
  rewrite osub_ok by (rewrite <- HRp; apply Rc_mono; lia). cbn [bind].
  assert (Hlok : words_ok (line_of ws (p / 512))) by (rewrite line_of_window; apply words_ok_window, (wf_ok bv Hwf)).
  rewrite (bline_select_loop_spec PC SIW one _ Hlok _ 0 0 (p mod 512)).
  - cbn [bind]. f_equal. lia.
  - lia.
  - rewrite N.sub_0_r. apply select_line_local. exact Hsel.
Qed.

Lemma rsw_select1_ok k : rsw_select1 r k = Val (select1_spec s k).
Proof.
  unfold rsw_select1. rewrite rsw_n_ones_ok. cbn [bind]. rewrite countb_countN.
  apply (select_checked bv true), (rsw_select_unchecked_ok true).
Qed.

Lemma rsw_select0_ok k : rsw_select0 r k = Val (select0_spec s k).
Proof.
  unfold rsw_select0. fold (rsw_n_zeros_q r). rewrite rsw_n_zeros_ok. unfold s. rewrite <- (count0_abs bv Hwf).
  apply (select_checked bv false), (rsw_select_unchecked_ok false).
Qed.

End WQueries.
End Wide.
