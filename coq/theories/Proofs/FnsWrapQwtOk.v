(* QWaveletTree::new / From<Vec<T>> / FromIterator regenerated (Gen/FnsQwtnew.v): closed statements and every public
   construction path followed by the regenerated queries. *)
From Coq Require Import ZArith Lia Permutation ZifyBool ZifyN ZifyNat.
From QwtModel Require Import ListX Seq QWT RSQBuild QWTP.
From QwtModel Require Import FnsRsq FnsQwt FnsQwtnew FnsRsqFromOk FnsQwtNewOk.
Open Scope N_scope.

(* the premise of Proofs/FnsQwtNewOk.v (RSQVector::from regenerated = hand model) is the theorem
   g_rsq256_from_sim / g_rsq512_from_sim of Proofs/FnsRsqFromOk.v: closed statements *)
Definition g_qwt256_new_sim_closed := g_qwt256_new_sim g_rsq256_from_sim.
Definition g_qwt512_new_sim_closed := g_qwt512_new_sim g_rsq512_from_sim.
Definition g_qwt256_new_e2e_closed := g_qwt256_new_e2e g_rsq256_from_sim.
Definition g_qwt512_new_e2e_closed := g_qwt512_new_e2e g_rsq512_from_sim.
Check g_qwt256_new_sim_closed.
Check g_qwt512_new_sim_closed.
Check g_qwt256_new_e2e_closed.
Check g_qwt512_new_e2e_closed.

(* every public construction path of the quad tree, regenerated: k = 0 new, 1 From<Vec<T>>, else FromIterator *)
Definition qwt256_ctor (k wT : N) (seq : list N) :=
  if k =? 0 then (let! r := g_qwt256_new wT seq in Val (snd r))
  else if k =? 1 then g_qwt256_from_vec wT seq else g_qwt256_from_iter wT seq.
Definition qwt512_ctor (k wT : N) (seq : list N) :=
  if k =? 0 then (let! r := g_qwt512_new wT seq in Val (snd r))
  else if k =? 1 then g_qwt512_from_vec wT seq else g_qwt512_from_iter wT seq.

(* From<Vec<T>> and FromIterator call new and drop the sequence it hands back *)
Lemma drop_fst {S A B C D E F G H} (x : outcome (S * (A * B * C * D * E * F * G * H))) :
  (let! (_, (t1, t2, t3, t4, t5, t6, t7, t8)) := x in Val (t1, t2, t3, t4, t5, t6, t7, t8)) = (let! r := x in Val (snd r)).
Proof. destruct x as [[s' [[[[[[[a b] c] d] e] f] g] h]]|]; reflexivity. Qed.

Lemma qwt256_ctor_new k w seq : qwt256_ctor k w seq = let! r := g_qwt256_new w seq in Val (snd r).
Proof.
  unfold qwt256_ctor, g_qwt256_from_vec, g_qwt256_from_iter. rewrite !drop_fst.
  destruct (k =? 0); [|destruct (k =? 1)]; reflexivity.
Qed.
Lemma qwt512_ctor_new k w seq : qwt512_ctor k w seq = let! r := g_qwt512_new w seq in Val (snd r).
Proof.
  unfold qwt512_ctor, g_qwt512_from_vec, g_qwt512_from_iter. rewrite !drop_fst.
  destruct (k =? 0); [|destruct (k =? 1)]; reflexivity.
Qed.

(* every construction path followed by the regenerated queries is the list specification *)
Theorem g_qwt256_ctors_correct : forall k w s, width_ok w -> Forall (fun x => x < 2 ^ w) s -> len s < RSQ_MAXN ->
  exists n nl sg d p sb sm oc,
    qwt256_ctor k w s = Val (n, nl, sg, d, p, sb, sm, oc) /\
    g_qwt256_len n = Val (len s) /\ g_qwt256_is_empty n = Val (len s =? 0) /\
    g_qwt256_n_levels nl = Val (if len s =? 0 then 0 else (msb (maxN s) + 1 + 1) / 2) /\
    (forall i, g_qwt256_get w n nl d p sb oc i = Val (nthN s i)) /\
    (forall c i, c < 2 ^ w ->
       g_qwt256_rank w n nl sg d sb oc c i
       = Val (if negb (len s =? 0) && (i <=? len s) && (c <=? maxN s) then Some (rank_spec s c i) else None)) /\
    (forall c k fuel, c < 2 ^ w -> k < 2 ^ 64 -> (S (S (N.to_nat (len s / (8 * 256)))) <= fuel)%nat ->
       g_qwt256_select fuel w n nl sg d p sb sm oc c k
       = Val (if negb (len s =? 0) && (c <=? maxN s) then select_spec s c k else None)) /\
    (forall i x, nthN s i = Some x -> g_qwt256_get_unchecked w nl d p sb oc i = Val x) /\
    (forall c i, 0 < len s -> c <= maxN s -> i <= len s ->
       g_qwt256_rank_unchecked w nl d sb oc c i = Val (rank_spec s c i)) /\
    (forall c k p' fuel, c < 2 ^ w -> select_spec s c k = Some p' ->
       (S (S (N.to_nat (len s / (8 * 256)))) <= fuel)%nat ->
       g_qwt256_select_unchecked fuel w n nl sg d p sb sm oc c k = Val p').
Proof.
  intros k w s Hw HF Hn. rewrite qwt256_ctor_new.
  destruct (g_qwt256_new_e2e_closed w s Hw HF Hn) as (s' & n & nl & sg & d & p & sb & sm & oc & G & _ & -> & -> & Rest).
  exists (len s), (if len s =? 0 then 0 else (msb (maxN s) + 1 + 1) / 2), sg, d, p, sb, sm, oc.
  rewrite <- g_qwt256_new_unfold in G. rewrite G.
  split; [reflexivity|]. split; [reflexivity|]. split; [reflexivity|]. split; [reflexivity|]. exact Rest.
Qed.

Theorem g_qwt512_ctors_correct : forall k w s, width_ok w -> Forall (fun x => x < 2 ^ w) s -> len s < RSQ_MAXN ->
  exists n nl sg d p sb sm oc,
    qwt512_ctor k w s = Val (n, nl, sg, d, p, sb, sm, oc) /\
    g_qwt512_len n = Val (len s) /\ g_qwt512_is_empty n = Val (len s =? 0) /\
    g_qwt512_n_levels nl = Val (if len s =? 0 then 0 else (msb (maxN s) + 1 + 1) / 2) /\
    (forall i, g_qwt512_get w n nl d p sb oc i = Val (nthN s i)) /\
    (forall c i, c < 2 ^ w ->
       g_qwt512_rank w n nl sg d sb oc c i
       = Val (if negb (len s =? 0) && (i <=? len s) && (c <=? maxN s) then Some (rank_spec s c i) else None)) /\
    (forall c k fuel, c < 2 ^ w -> k < 2 ^ 64 -> (S (S (N.to_nat (len s / (8 * 512)))) <= fuel)%nat ->
       g_qwt512_select fuel w n nl sg d p sb sm oc c k
       = Val (if negb (len s =? 0) && (c <=? maxN s) then select_spec s c k else None)) /\
    (forall i x, nthN s i = Some x -> g_qwt512_get_unchecked w nl d p sb oc i = Val x) /\
    (forall c i, 0 < len s -> c <= maxN s -> i <= len s ->
       g_qwt512_rank_unchecked w nl d sb oc c i = Val (rank_spec s c i)) /\
    (forall c k p' fuel, c < 2 ^ w -> select_spec s c k = Some p' ->
       (S (S (N.to_nat (len s / (8 * 512)))) <= fuel)%nat ->
       g_qwt512_select_unchecked fuel w n nl sg d p sb sm oc c k = Val p').
Proof.
  intros k w s Hw HF Hn. rewrite qwt512_ctor_new.
  destruct (g_qwt512_new_e2e_closed w s Hw HF Hn) as (s' & n & nl & sg & d & p & sb & sm & oc & G & _ & -> & -> & Rest).
  exists (len s), (if len s =? 0 then 0 else (msb (maxN s) + 1 + 1) / 2), sg, d, p, sb, sm, oc.
  rewrite <- g_qwt512_new_unfold in G. rewrite G.
  split; [reflexivity|]. split; [reflexivity|]. split; [reflexivity|]. split; [reflexivity|]. exact Rest.
Qed.

(* non-vacuity (vm_compute), 40 u8 symbols *)
Definition wrap_example_input : list N := map (fun i => (i * i * 7 + 3 * i) mod 200) (seqN 0 40).

Example quad_wrappers_example :
  len wrap_example_input = 40 /\
  is_val (qwt256_ctor 0 8 wrap_example_input) = true /\
  qwt256_ctor 1 8 wrap_example_input = qwt256_ctor 0 8 wrap_example_input /\
  qwt256_ctor 2 8 wrap_example_input = qwt256_ctor 0 8 wrap_example_input /\
  qwt512_ctor 1 8 wrap_example_input = qwt512_ctor 0 8 wrap_example_input /\
  qwt512_ctor 2 8 wrap_example_input = qwt512_ctor 0 8 wrap_example_input /\
  match g_rsq256_new 8 wrap_example_input, nthN wrap_example_input 3 with
  | Val (d, p, _, _, _), Some x => g_rsq256_get d p 3 = Val (Some (x mod 4)) /\ x = 72
  | _, _ => False
  end.
Proof.
  (* the two constructors are evaluated once each; as they stand, every occurrence would be evaluated on its own *)
  pose (v256 := g_qwt256_new 8 wrap_example_input). pose (v512 := g_qwt512_new 8 wrap_example_input).
  assert (E256 : g_qwt256_new 8 wrap_example_input = v256) by reflexivity.
  assert (E512 : g_qwt512_new 8 wrap_example_input = v512) by reflexivity.
  vm_compute in (value of v256). vm_compute in (value of v512).
  unfold qwt256_ctor, qwt512_ctor, g_qwt256_from_vec, g_qwt256_from_iter, g_qwt512_from_vec, g_qwt512_from_iter.
  rewrite E256, E512. vm_compute. repeat split; reflexivity.
Qed.

Print Assumptions g_qwt256_new_sim_closed.
Print Assumptions g_qwt512_new_sim_closed.
Print Assumptions g_qwt256_new_e2e_closed.
Print Assumptions g_qwt512_new_e2e_closed.
Print Assumptions g_qwt256_ctors_correct.
Print Assumptions g_qwt512_ctors_correct.
Print Assumptions quad_wrappers_example.
