(* The word view of a quad DataLine (Model/Words.v: four u128 words, two bit planes, the
   shifts / xor-with-repeated-symbol / masked popcount of the code) implements the list view
   (Model/QVec.v: a line is a list of 256 symbols) for ALL lines and arguments. *)
From Coq Require Import ZArith Lia ZifyBool ZifyN ZifyNat.
From QwtModel Require Import ListX Consts Words QVec ListXP NBits OutcomeP ConstsOk WordsP BitsLib.
Arguments N.ones : simpl never.

Definition line_ok (l : list N) : Prop := len l = 256 /\ Forall (fun x => x < 4) l.

Lemma countb_map_eqb c l : countb (map (fun s => s =? c) l) = countN c l.
Proof. induction l as [|x l IH]; cbn [map countb countN]; [reflexivity|]. now rewrite IH. Qed.

Lemma firstn128 {A} (l : list A) : firstn 128 l = firstnN 128 l.
Proof. rewrite firstnN_firstn. reflexivity. Qed.
Lemma skipn128 {A} (l : list A) : skipn 128 l = skipnN 128 l.
Proof. rewrite skipnN_skipn. reflexivity. Qed.

Lemma nth4_0 {A} (a b c d : A) : nthN [a; b; c; d] 0 = Some a. Proof. reflexivity. Qed.
Lemma nth4_1 {A} (a b c d : A) : nthN [a; b; c; d] 1 = Some b. Proof. reflexivity. Qed.
Lemma nth4_2 {A} (a b c d : A) : nthN [a; b; c; d] 2 = Some c. Proof. reflexivity. Qed.
Lemma nth4_3 {A} (a b c d : A) : nthN [a; b; c; d] 3 = Some d. Proof. reflexivity. Qed.
Lemma set4_0 {A} (a b c d v : A) : setN [a; b; c; d] 0 v = [v; b; c; d]. Proof. reflexivity. Qed.
Lemma set4_1 {A} (a b c d v : A) : setN [a; b; c; d] 1 v = [a; v; c; d]. Proof. reflexivity. Qed.
Lemma set4_2 {A} (a b c d v : A) : setN [a; b; c; d] 2 v = [a; b; v; d]. Proof. reflexivity. Qed.
Lemma set4_3 {A} (a b c d v : A) : setN [a; b; c; d] 3 v = [a; b; c; v]. Proof. reflexivity. Qed.

(* the symbol bit read by a plane: b = 1 for the high plane, b = 0 for the low plane *)
Definition tb (b : N) (s : N) : bool := N.testbit s b.

Lemma hi_bit s : N.shiftr s 1 mod 2 = N.b2n (tb 1 s).
Proof. unfold tb. rewrite <- N.bit0_mod, N.shiftr_spec'. reflexivity. Qed.
Lemma lo_bit s : s mod 2 = N.b2n (tb 0 s).
Proof. unfold tb. now rewrite N.bit0_mod. Qed.

Lemma plane_bits_value (bit : N -> N) (f : N -> bool) :
  (forall s, bit s = N.b2n (f s)) -> forall l, plane_bits bit l = bits_value (map f l).
Proof.
  intros Hb. induction l as [|s l IH]; cbn [plane_bits map bits_value]; [reflexivity|].
  now rewrite Hb, IH.
Qed.

Lemma lt2_b2n_eqb x : x < 2 -> x = N.b2n (x =? 1).
Proof. intros H. destruct (N.eqb_spec x 1) as [->|]; cbn [N.b2n]; lia. Qed.

Lemma plane_bits_testbit bit l j : (forall s, bit s < 2) ->
  N.testbit (plane_bits bit l) j = match nthN l j with Some s => bit s =? 1 | None => false end.
Proof.
  intros Hb. rewrite (plane_bits_value bit (fun s => bit s =? 1)) by (intros s; apply lt2_b2n_eqb, Hb).
  rewrite testbit_bits_value, nthN_map. now destruct (nthN l j).
Qed.
Lemma plane_bits_lt bit l : (forall s, bit s < 2) -> plane_bits bit l < 2 ^ len l.
Proof.
  intros Hb. rewrite (plane_bits_value bit (fun s => bit s =? 1)) by (intros s; apply lt2_b2n_eqb, Hb).
  rewrite <- (len_map (fun s => bit s =? 1)). apply bits_value_lt.
Qed.

Definition plane (b : N) (l : list N) : N := bits_value (map (tb b) l).

Lemma plane_testbit b l j :
  N.testbit (plane b l) j = match nthN l j with Some s => N.testbit s b | None => false end.
Proof. unfold plane. rewrite testbit_bits_value, nthN_map. now destruct (nthN l j). Qed.
Lemma plane_lt b l : plane b l < 2 ^ len l.
Proof. unfold plane. rewrite <- (len_map (tb b)). apply bits_value_lt. Qed.

Lemma plane_lt128 b l : len l = 128 -> plane b l < 2 ^ 128.
Proof. intros H. rewrite <- H. apply plane_lt. Qed.

Lemma pack_qline_planes l :
  pack_qline l = [plane 1 (firstnN 128 l); plane 1 (skipnN 128 l);
                  plane 0 (firstnN 128 l); plane 0 (skipnN 128 l)].
Proof.
  unfold pack_qline, plane. rewrite firstn128, skipn128.
  rewrite !(plane_bits_value _ (tb 1) hi_bit), !(plane_bits_value _ (tb 0) lo_bit). reflexivity.
Qed.

Lemma pack_qline_app A B : len A = 128 ->
  pack_qline (A ++ B) = [plane 1 A; plane 1 B; plane 0 A; plane 0 B].
Proof. intros H. rewrite pack_qline_planes, <- H, firstnN_app_exact, skipnN_app_exact. reflexivity. Qed.

Lemma halves l : line_ok l ->
  l = firstnN 128 l ++ skipnN 128 l /\ len (firstnN 128 l) = 128 /\ len (skipnN 128 l) = 128 /\
  (forall j s, nthN (firstnN 128 l) j = Some s -> s < 4) /\
  (forall j s, nthN (skipnN 128 l) j = Some s -> s < 4).
Proof.
  intros [Hl HF]. repeat split.
  - symmetry. apply firstnN_skipnN.
  - rewrite firstnN_len, Hl. reflexivity.
  - rewrite len_skipnN, Hl. reflexivity.
  - intros j s E. rewrite nthN_firstnN in E. destruct (j <? 128); [|discriminate E].
    exact (Forall_nthN _ _ _ _ HF E).
  - intros j s E. rewrite nthN_skipnN in E. exact (Forall_nthN _ _ _ _ HF E).
Qed.

Theorem pack_qline_words : forall l, line_ok l ->
  len (pack_qline l) = 4 /\ Forall (fun w => w < 2 ^ 128) (pack_qline l).
Proof.
  intros l H. destruct (halves l H) as (_ & HA & HB & _). rewrite pack_qline_planes. split; [reflexivity|].
  repeat constructor; apply plane_lt128; assumption.
Qed.

Lemma div_mod_128 i : i < 256 ->
  (i < 128 /\ i / 128 = 0 /\ i mod 128 = i) \/ (128 <= i /\ i / 128 = 1 /\ i mod 128 = i - 128).
Proof. intros H. lia. Qed.

Theorem pack_qline_bits : forall l i x, line_ok l -> nthN l i = Some x ->
  (exists wh wl, nthN (pack_qline l) (i / 128) = Some wh /\ nthN (pack_qline l) (i / 128 + 2) = Some wl /\
     N.testbit wh (i mod 128) = N.testbit x 1 /\ N.testbit wl (i mod 128) = N.testbit x 0).
Proof.
  intros l i x H E. pose proof (nthN_some_lt _ _ _ E) as Hi. destruct H as [Hl HF]. rewrite Hl in Hi.
  rewrite pack_qline_planes.
  destruct (div_mod_128 i Hi) as [(Hlt & -> & ->)|(Hge & -> & ->)].
  - exists (plane 1 (firstnN 128 l)), (plane 0 (firstnN 128 l)).
    change (0 + 2) with 2. rewrite nth4_0, nth4_2, !plane_testbit, nthN_firstnN.
    destruct (N.ltb_spec i 128); [|lia]. rewrite E. auto.
  - exists (plane 1 (skipnN 128 l)), (plane 0 (skipnN 128 l)).
    change (1 + 2) with 3. rewrite nth4_1, nth4_3, !plane_testbit, nthN_skipnN.
    replace (128 + (i - 128)) with i by lia. rewrite E. auto.
Qed.

Lemma shr7 x : N.shiftr x 7 = x / 128.
Proof. now rewrite N.shiftr_div_pow2. Qed.
Lemma land127 x : N.land x 127 = x mod 128.
Proof. change 127 with (N.ones 7). now rewrite N.land_ones. Qed.

Lemma QV_consts :
  QV_WORD_SHIFT = 7 /\ QVG_WORD_SHIFT = 7 /\ QVR_WORD_SHIFT = 7 /\
  QV_WORD_MASK = 127 /\ QVG_WORD_MASK = 127 /\ QVR_WORD_MASK = 127 /\
  QV_LOW_PLANE = 2 /\ QVG_LOW_PLANE = 2.
Proof. exact QV_WORD_sites. Qed.

Lemma lt4_cases x : x < 4 -> x = 0 \/ x = 1 \/ x = 2 \/ x = 3.
Proof. lia. Qed.

Lemma sym_of_bits x : x < 4 ->
  N.lor (N.shiftl (N.b2n (N.testbit x 1)) 1) (N.b2n (N.testbit x 0)) mod 256 = x.
Proof.
  intros H. destruct (lt4_cases x H) as [-> | [-> | [-> | ->]]]; reflexivity.
Qed.

Theorem qline_get_correct : forall l i x, line_ok l -> nthN l i = Some x ->
  qline_get_unchecked (pack_qline l) i = Val x.
Proof.
  intros l i x H E.
  destruct (pack_qline_bits l i x H E) as (wh & wl & E1 & E2 & B1 & B2).
  pose proof (nthN_some_lt _ _ _ E) as Hi. destruct H as [Hl HF]. rewrite Hl in Hi.
  pose proof (Forall_nthN _ _ _ _ HF E) as Hx.
  unfold qline_get_unchecked.
  destruct QV_consts as (_ & -> & _ & _ & -> & _ & _ & ->).
  rewrite shr7, land127. unfold uidx. rewrite E1, E2.
  rewrite bind_val; cbv beta. rewrite bind_val; cbv beta.
  rewrite !oshr_ok by (apply N.mod_lt; discriminate).
  rewrite bind_val; cbv beta. rewrite bind_val; cbv beta.
  rewrite !land1_b2n, !N.shiftr_spec', !N.add_0_l, B1, B2.
  now rewrite sym_of_bits.
Qed.

(* REPEATEDSYMB[b] as the code indexes it: all ones for b = 0 *)
Definition repm (b : N) : N := if b =? 0 then M128 - 1 else 0.

Lemma M128m1_ones : M128 - 1 = N.ones 128.
Proof. reflexivity. Qed.
Lemma ones_testbit n j : N.testbit (N.ones n) j = (j <? n).
Proof.
  destruct (N.ltb_spec j n).
  - now apply N.ones_spec_low.
  - now apply N.ones_spec_high.
Qed.
Lemma repm_testbit b j : N.testbit (repm b) j = (b =? 0) && (j <? 128).
Proof.
  unfold repm. destruct (b =? 0); cbn [andb].
  - rewrite M128m1_ones. apply ones_testbit.
  - apply N.bits_0.
Qed.

Lemma qline_normalize_val a b c d s : s <= 3 ->
  qline_normalize [a; b; c; d] s =
  Val (N.land (N.lxor a (repm (N.shiftr s 1))) (N.lxor c (repm (N.land s 1))),
       N.land (N.lxor b (repm (N.shiftr s 1))) (N.lxor d (repm (N.land s 1)))).
Proof.
  intros Hs. unfold qline_normalize.
  destruct (N.ltb_spec 1 (N.shiftr s 1)) as [Hc|_]; [rewrite shiftr1 in Hc; lia|].
  reflexivity.
Qed.

(* selecting the symbol: xor of each plane with the repeated query bit, and of the planes *)
Lemma eq_sym_bits s c : s < 4 -> c <= 3 ->
  xorb (N.testbit s 1) (N.shiftr c 1 =? 0) && xorb (N.testbit s 0) (N.land c 1 =? 0) = (s =? c).
Proof.
  intros Hs Hc.
  destruct (lt4_cases s Hs) as [-> | [-> | [-> | ->]]];
    destruct (lt4_cases c ltac:(lia)) as [-> | [-> | [-> | ->]]]; reflexivity.
Qed.

Lemma norm_word A c : len A = 128 -> (forall j s, nthN A j = Some s -> s < 4) -> c <= 3 ->
  N.land (N.lxor (plane 1 A) (repm (N.shiftr c 1))) (N.lxor (plane 0 A) (repm (N.land c 1)))
  = bits_value (map (fun s => s =? c) A).
Proof.
  intros HA H4 Hc. apply N.bits_inj. intros j.
  rewrite N.land_spec, !N.lxor_spec, !plane_testbit, !repm_testbit, testbit_bits_value, nthN_map.
  destruct (nthN A j) as [s|] eqn:E; cbn [option_map].
  - pose proof (nthN_some_lt _ _ _ E). destruct (N.ltb_spec j 128); [|lia].
    rewrite !andb_true_r. apply eq_sym_bits; [eapply H4; eassumption|assumption].
  - assert (len A <= j).
    { destruct (N.ltb_spec j (len A)) as [Hj|]; [|assumption].
      apply nthN_lt_len in Hj. congruence. }
    destruct (N.ltb_spec j 128); [lia|]. now rewrite !andb_false_r.
Qed.

Lemma mask_word (f : N -> bool) A m i : len A <= 128 ->
  (forall j, j < 128 -> N.testbit m j = (j <? i)) ->
  N.land (bits_value (map f A)) m = bits_value (map f (firstnN i A)).
Proof.
  intros HA Hm. apply N.bits_inj. intros j.
  rewrite N.land_spec, !testbit_bits_value, !nthN_map, nthN_firstnN.
  destruct (nthN A j) as [s|] eqn:E; cbn [option_map].
  - pose proof (nthN_some_lt _ _ _ E). rewrite Hm by lia.
    destruct (j <? i); cbn [option_map]; [apply andb_true_r|apply andb_false_r].
  - now destruct (j <? i).
Qed.

Lemma rank_word A c m i : len A = 128 -> (forall j s, nthN A j = Some s -> s < 4) -> c <= 3 ->
  (forall j, j < 128 -> N.testbit m j = (j <? i)) ->
  popcount (N.land (N.land (N.lxor (plane 1 A) (repm (N.shiftr c 1)))
                           (N.lxor (plane 0 A) (repm (N.land c 1)))) m)
  = countN c (firstnN i A).
Proof.
  intros HA H4 Hc Hm. rewrite norm_word by assumption.
  rewrite (mask_word _ A m i) by (try lia; exact Hm). rewrite popcount_bits_value. apply countb_map_eqb.
Qed.

Lemma mask_offset_val o : o < 128 ->
  (let! one_sh := oshl 128 1 o in osub one_sh 1) = Val (N.ones o).
Proof.
  intros Ho. rewrite oshl_ok by assumption. rewrite bind_val; cbv beta.
  rewrite N.shiftl_1_l, N.mod_small by (apply N.pow_lt_mono_r; lia).
  pose proof (NBits.pow2_pos o). rewrite osub_ok by lia.
  now rewrite N.ones_equiv, N.sub_1_r.
Qed.

Theorem qline_rank_correct : forall l c i, line_ok l -> c <= 3 -> i <= 256 ->
  qline_rank_unchecked (pack_qline l) c i = Val (countN c (firstnN i l)).
Proof.
  intros l c i H Hc Hi. destruct (halves l H) as (El & HA & HB & FA & FB).
  rewrite pack_qline_planes. revert El HA HB FA FB.
  generalize (firstnN 128 l) as A, (skipnN 128 l) as B. intros A B El HA HB FA FB.
  subst l. clear H.
  rewrite firstnN_app, countN_app, HA.
  unfold qline_rank_unchecked.
  destruct (N.leb_spec c 3); [|lia]. destruct (N.leb_spec i 256); [|lia].
  unfold odebug_assert. rewrite bind_val; cbv beta. rewrite bind_val; cbv beta.
  rewrite qline_normalize_val by assumption. rewrite bind_val; cbv beta iota.
  destruct QV_consts as (_ & _ & -> & _ & _ & -> & _ & _).
  rewrite shr7, land127.
  assert (Ho : i mod 128 < 128) by (apply N.mod_lt; discriminate).
  pose proof (mask_offset_val _ Ho) as Hm.
  destruct (oshl 128 1 (i mod 128)) as [one_sh|f]; [|discriminate Hm].
  rewrite bind_val in Hm |- *; cbv beta in Hm |- *.
  rewrite Hm. rewrite bind_val; cbv beta. rewrite M128m1_ones.
  do 2 f_equal.
  - apply rank_word; try assumption; try lia. intros j Hj.
    destruct (N.eqb_spec (i / 128) 0) as [E|E]; rewrite ones_testbit.
    + replace (i mod 128) with i by lia. reflexivity.
    + destruct (N.ltb_spec j 128), (N.ltb_spec j i); try lia; reflexivity.
  - apply rank_word; try assumption; try lia. intros j Hj.
    destruct (N.eqb_spec (i / 128) 1) as [E|E].
    + rewrite ones_testbit. replace (i mod 128) with (i - 128) by lia. reflexivity.
    + destruct (N.eqb_spec (i / 128) 2) as [E2|E2].
      * rewrite N.mul_1_r, ones_testbit.
        destruct (N.ltb_spec j 128), (N.ltb_spec j (i - 128)); try lia; reflexivity.
      * rewrite N.mul_0_r, N.bits_0. destruct (N.ltb_spec j (i - 128)); try lia; reflexivity.
Qed.

Lemma shl_bit_testbit b j n : j < 128 ->
  N.testbit (N.shiftl (N.b2n b) j mod 2 ^ 128) n = b && (n =? j).
Proof.
  intros Hj. destruct (N.ltb_spec n 128) as [Hn|Hn].
  - rewrite N.mod_pow2_bits_low by assumption.
    destruct (N.ltb_spec n j) as [Hnj|Hnj].
    + rewrite N.shiftl_spec_low by assumption. destruct (N.eqb_spec n j); [lia|]. now rewrite andb_false_r.
    + rewrite N.shiftl_spec_high' by assumption. rewrite testbit_b2n.
      destruct (N.eqb_spec (n - j) 0), (N.eqb_spec n j); try lia; reflexivity.
  - rewrite N.mod_pow2_bits_high by assumption. destruct (N.eqb_spec n j); [lia|]. now rewrite andb_false_r.
Qed.

Lemma set_word b A j old x : j < 128 -> nthN A j = Some old ->
  N.lor (plane b A) (N.shiftl (N.b2n (N.testbit x b)) j mod 2 ^ 128) = plane b (setN A j (N.lor old x)).
Proof.
  intros Hj E. pose proof (nthN_some_lt _ _ _ E) as HjA. apply N.bits_inj. intros n.
  rewrite N.lor_spec, !plane_testbit, shl_bit_testbit by assumption. rewrite nthN_setN.
  destruct (N.ltb_spec j (len A)); [|lia]. rewrite andb_true_r.
  destruct (N.eqb_spec n j) as [->|Hn].
  - rewrite E, N.lor_spec, andb_true_r. reflexivity.
  - now rewrite andb_false_r, orb_false_r.
Qed.

Lemma sym_hi_b2n x : x < 4 -> N.shiftr x 1 = N.b2n (N.testbit x 1).
Proof.
  intros H. destruct (lt4_cases x H) as [-> | [-> | [-> | ->]]]; reflexivity.
Qed.

(* general form (any u8-or-wider symbol argument, any slot): the words OR the two symbol bits in *)
Theorem qline_set_general : forall l i s old, line_ok l -> i < 256 -> nthN l i = Some old ->
  qline_set_symbol (pack_qline l) s i = Val (pack_qline (setN l i (N.lor old (s mod 4)))).
Proof.
  intros l i s old H Hi E. destruct (halves l H) as (El & HA & HB & _ & _).
  revert El HA HB. generalize (firstnN 128 l) as A, (skipnN 128 l) as B. intros A B El HA HB.
  subst l. clear H. rewrite (pack_qline_app A B HA).
  assert (Hx : s mod 4 < 4) by (apply N.mod_lt; discriminate).
  unfold qline_set_symbol.
  destruct QV_consts as (-> & _ & _ & -> & _ & _ & -> & _).
  rewrite QV_SYM_MASK_ok, shr7, land127, land3. set (x := s mod 4) in *.
  rewrite (sym_hi_b2n x Hx), land1_b2n. set (y := N.lor old x).
  assert (Ho : i mod 128 < 128) by (apply N.mod_lt; discriminate).
  rewrite !oshl_ok by assumption. unfold idx.
  destruct (div_mod_128 i Hi) as [(Hlt & -> & ->)|(Hge & -> & ->)].
  - rewrite nthN_app1 in E by lia. rewrite setN_app1, pack_qline_app by (try rewrite setN_len; lia).
    change (0 + 2) with 2.
    rewrite nth4_0. rewrite bind_val; cbv beta. rewrite bind_val; cbv beta.
    rewrite set4_0, nth4_2. rewrite bind_val; cbv beta. rewrite bind_val; cbv beta.
    rewrite set4_2. rewrite !(set_word _ _ _ old) by assumption. reflexivity.
  - rewrite nthN_app2, HA in E by lia. rewrite setN_app2, HA, pack_qline_app by lia.
    assert (Hlt : i - 128 < 128) by lia. change (1 + 2) with 3.
    rewrite nth4_1. rewrite bind_val; cbv beta. rewrite bind_val; cbv beta.
    rewrite set4_1, nth4_3. rewrite bind_val; cbv beta. rewrite bind_val; cbv beta.
    rewrite set4_3. rewrite !(set_word _ _ _ old) by assumption. reflexivity.
Qed.

Theorem qline_set_correct : forall l i s, line_ok l -> i < 256 -> s < 256 -> nthN l i = Some 0 ->
  qline_set_symbol (pack_qline l) s i = Val (pack_qline (setN l i (s mod 4))).
Proof.
  intros l i s H Hi _ E. rewrite (qline_set_general l i s 0 H Hi E). now rewrite N.lor_0_l.
Qed.

Theorem pack_zero_line : pack_qline (repeat 0 256) = [0; 0; 0; 0].
Proof. vm_compute. reflexivity. Qed.

Corollary line_view_refined : forall l, line_ok l ->
  (forall i, i < 256 -> exists x, line_get_unchecked l i = Val x /\ qline_get_unchecked (pack_qline l) i = Val x) /\
  (forall c i, c <= 3 -> i <= 256 -> line_rank_unchecked l c i = qline_rank_unchecked (pack_qline l) c i).
Proof.
  intros l H. split.
  - intros i Hi. destruct H as [Hl HF]. destruct (nthN_lt_some l i) as (x & E); [rewrite Hl; exact Hi|].
    exists x. split.
    + unfold line_get_unchecked, uidx. now rewrite E.
    + apply qline_get_correct; [split; assumption|exact E].
  - intros c i Hc Hi. rewrite qline_rank_correct by assumption.
    unfold line_rank_unchecked. rewrite LINE_SYMS_val.
    destruct (N.leb_spec c 3); [|lia]. destruct (N.leb_spec i 256); [|lia]. reflexivity.
Qed.

(* the write, list view vs word view, any slot (both views OR the masked symbol in) *)
Corollary line_set_refined : forall l i s, line_ok l -> i < 256 ->
  qline_set_symbol (pack_qline l) s i = Val (pack_qline (line_set_symbol l s i)).
Proof.
  intros l i s H Hi. destruct (nthN_lt_some l i) as (old & E); [destruct H as [-> _]; exact Hi|].
  rewrite (qline_set_general l i s old H Hi E).
  unfold line_set_symbol. rewrite E, land3. reflexivity.
Qed.

Definition ex_line : list N := map (fun i => (i * 7 + i / 5) mod 4) (seqN 0 256).

Example ex_line_ok : len ex_line = 256 /\ forallb (fun x => x <? 4) ex_line = true.
Proof. vm_compute. split; reflexivity. Qed.

Example ex_get :
  map (fun i => qline_get_unchecked (pack_qline ex_line) i) [0; 1; 5; 127; 128; 129; 200; 255]
  = map (fun i => uidx ex_line i) [0; 1; 5; 127; 128; 129; 200; 255].
Proof. vm_compute. reflexivity. Qed.

Example ex_rank :
  forallb (fun c => forallb (fun i =>
     match qline_rank_unchecked (pack_qline ex_line) c i with
     | Val r => r =? countN c (firstnN i ex_line)
     | Fault _ => false
     end) [0; 1; 127; 128; 129; 255; 256]) [0; 1; 2; 3] = true.
Proof. vm_compute. reflexivity. Qed.

Example ex_rank_values :
  map (fun c => map (fun i => qline_rank_unchecked (pack_qline ex_line) c i) [0; 1; 127; 128; 129; 255; 256]) [0; 1; 2; 3]
  = map (fun c => map (fun i => Val (countN c (firstnN i ex_line))) [0; 1; 127; 128; 129; 255; 256]) [0; 1; 2; 3].
Proof. vm_compute. reflexivity. Qed.

(* one set on a fresh slot of a half-filled line, symbol given as a u8 with high bits *)
Definition ex_half : list N := firstnN 130 ex_line ++ repeat 0 126.
Example ex_set :
  qline_set_symbol (pack_qline ex_half) 251 130 = Val (pack_qline (setN ex_half 130 3)) /\
  qline_get_unchecked (pack_qline (setN ex_half 130 3)) 130 = Val 3.
Proof. vm_compute. split; reflexivity. Qed.

Print Assumptions pack_qline_words.
Print Assumptions pack_qline_bits.
Print Assumptions qline_get_correct.
Print Assumptions qline_rank_correct.
Print Assumptions qline_set_general.
Print Assumptions qline_set_correct.
Print Assumptions pack_zero_line.
Print Assumptions line_view_refined.
Print Assumptions line_set_refined.
Print Assumptions plane_bits_testbit.
Print Assumptions plane_bits_lt.
