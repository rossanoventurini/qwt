(* select of the RSQVector model against the list specification *)
From Coq Require Import ZArith Lia ZifyBool ZifyN ZifyNat.
From QwtModel Require Import ListX Seq Consts QVec RSQ ListXP NBits SeqP QVecP RSQBits RSQWord RSQList RSQBuild RSQRank.

Lemma dir_counter bsize s rs c j : bsz bsize -> len s < RSQ_MAXN -> dir_ok bsize s rs -> c <= 3 ->
  j <= len s / (8 * bsize) ->
  exists sb, nthN (rs_superblocks rs) j = Some sb /\
             sb_get_superblock_counter sb c = Val (rk s c (j * (8 * bsize))).
Proof.
  intros Hb Hn Hd Hc Hj. pose proof (maxn_lt_43 _ Hn) as H43.
  eexists. split; [apply dir_sb; eassumption|].
  unfold W. rewrite sb_get_superblock_counter_rec; [reflexivity|exact Hc|now apply fld_bound|now apply rk_lt44].
Qed.

Lemma rss_scan_spec rs c i last step (cnt : N -> N) :
  1 <= step ->
  (forall j, j < last -> exists sb, nthN (rs_superblocks rs) j = Some sb /\
                                    sb_get_superblock_counter sb c = Val (cnt j)) ->
  forall fuel first, 1 + (last - first) <= N.of_nat fuel ->
  exists r, rss_scan rs c i first last step fuel = Val r /\
    (r = first \/ exists p, r = p + step /\ first <= p /\ p < last /\ cnt p < i) /\
    (last <= r \/ (r < last /\ i <= cnt r)).
Proof.
  intros Hstep Hsb. induction fuel as [|fuel IH]; intros first Hf; [lia|].
  cbn [rss_scan]. destruct (N.ltb_spec first last) as [Hlt|Hge].
  - destruct (Hsb first Hlt) as (sb & E1 & E2). unfold idx. rewrite E1. cbn [bind]. rewrite E2. cbn [bind].
    destruct (N.leb_spec i (cnt first)) as [Hle|Hgt].
    + exists first. split; [reflexivity|]. split; [now left|right; lia].
    + destruct (IH (first + step) ltac:(lia)) as (r & E & Hr & Hend).
      exists r. split; [exact E|]. split; [|exact Hend]. right.
      destruct Hr as [Hr|(p & Hp1 & Hp2 & Hp3 & Hp4)].
      * exists first. repeat split; try lia.
      * exists p. repeat split; try lia.
  - exists first. split; [reflexivity|]. split; [now left|left; lia].
Qed.

Lemma samples_bracket bsize s c L k : bsz bsize -> fsamp_ok bsize s c L -> k < countN c s ->
  exists x0 x1, nthN L (k / 8192) = Some x0 /\ nthN L (k / 8192 + 1) = Some x1 /\
    x0 <= x1 /\ x1 <= len s / (8 * bsize) /\ rk s c (x0 * (8 * bsize)) <= k /\
    (x1 = len s / (8 * bsize) \/ k < rk s c ((x1 + 1) * (8 * bsize))).
Proof.
  intros Hb (H1 & H2) Hk. remember (k / 8192) as q eqn:Eq.
  destruct (H1 q ltac:(lia)) as (x0 & E0 & Hx0 & Hlo0 & Hhi0).
  destruct (N.lt_ge_cases ((q + 1) * 8192) (countN c s)) as [Hc|Hc].
  - destruct (H1 (q + 1) Hc) as (x1 & E1 & Hx1 & Hlo1 & Hhi1). exists x0, x1.
    split; [exact E0|]. split; [exact E1|]. split; [|split; [exact Hx1|split; [lia|right; lia]]].
    destruct (N.le_gt_cases x0 x1) as [|Hgt]; [assumption|]. exfalso.
    pose proof (rk_mono s c ((x1 + 1) * (8 * bsize)) (x0 * (8 * bsize)) ltac:(apply N.mul_le_mono_r; lia)). lia.
  - exists x0, (len s / (8 * bsize)).
    split; [exact E0|]. split; [|split; [exact Hx0|split; [lia|split; [lia|now left]]]].
    replace (q + 1) with ((countN c s + 8191) / 8192) by lia. apply H2. lia.
Qed.

Lemma block_locate bsize s c k j b : bsz bsize -> j <= len s / (8 * bsize) ->
  rk s c (j * (8 * bsize)) <= k -> k < countN c s ->
  (j = len s / (8 * bsize) \/ k < rk s c ((j + 1) * (8 * bsize))) -> b <= 7 ->
  (forall m, 1 <= m <= b -> fld bsize s (len s + bsize) j m c < k + 1 - rk s c (j * (8 * bsize))) ->
  (b < 7 -> k + 1 - rk s c (j * (8 * bsize)) <= fld bsize s (len s + bsize) j (b + 1) c) ->
  rk s c (j * (8 * bsize)) + (if b =? 0 then 0 else fld bsize s (len s + bsize) j b c)
    = rk s c (j * (8 * bsize) + b * bsize) /\
  rk s c (j * (8 * bsize) + b * bsize) <= k /\ k < rk s c (j * (8 * bsize) + b * bsize + bsize).
Proof.
  intros Hb Hj Hlo Hk Hhi Hb7 Hlt Hnext. pose proof (bsz_pos _ Hb) as HB.
  assert (Hmono : forall x, rk s c (j * (8 * bsize)) <= rk s c (j * (8 * bsize) + x))
    by (intros x; apply rk_mono; lia).
  assert (Hset : 1 <= b -> 8 * j + b <= (len s + bsize) / bsize).
  { intros Hb1. rewrite div_add_blk by exact HB. rewrite sb_div in Hj by exact HB.
    destruct (N.le_gt_cases (8 * j + b) (len s / bsize + 1)) as [|Hgt]; [assumption|]. exfalso.
    (* otherwise j is the last superblock and the last block set in it is among its first b: its field counts
       all occurrences from the start of the superblock on *)
    pose proof (blk_pos bsize (len s / bsize)) as P. pose proof (lt_div_mul_succ (len s) bsize HB) as L.
    specialize (Hlt ((len s / bsize) mod 8 + 1) ltac:(lia)).
    rewrite fld_set in Hlt; [|exact HB|rewrite div_add_blk by exact HB; lia].
    replace j with (len s / bsize / 8) in * by lia.
    rewrite (rk_all s c (_ + _)) in Hlt by lia. lia. }
  assert (Hrkb : rk s c (j * (8 * bsize)) + (if b =? 0 then 0 else fld bsize s (len s + bsize) j b c)
                 = rk s c (j * (8 * bsize) + b * bsize) /\ rk s c (j * (8 * bsize) + b * bsize) <= k).
  { destruct (N.eqb_spec b 0) as [->|Hnz].
    - rewrite N.mul_0_l, !N.add_0_r. split; [reflexivity|exact Hlo].
    - specialize (Hlt b ltac:(lia)). rewrite fld_set in * by (try apply Hset; lia).
      pose proof (Hmono (b * bsize)). lia. }
  split; [apply Hrkb|]. split; [apply Hrkb|].
  destruct (N.lt_ge_cases b 7) as [Hb6|Hb6].
  - specialize (Hnext Hb6). replace (j * (8 * bsize) + b * bsize + bsize) with (j * (8 * bsize) + (b + 1) * bsize) by lia.
    destruct (N.le_gt_cases (8 * j + (b + 1)) ((len s + bsize) / bsize)).
    + rewrite fld_set in Hnext by assumption. pose proof (Hmono ((b + 1) * bsize)). lia.
    + rewrite fld_unset in Hnext by assumption. lia.
  - replace b with 7 by lia. replace (j * (8 * bsize) + 7 * bsize + bsize) with ((j + 1) * (8 * bsize)) by lia.
    destruct Hhi as [->|Hhi]; [|exact Hhi].
    rewrite rk_all; [exact Hk|]. pose proof (lt_div_mul_succ (len s) (8 * bsize)). lia.
Qed.

Lemma rss_select_block_ok bsize s rs c k : bsz bsize -> len s < RSQ_MAXN -> dir_ok bsize s rs ->
  c <= 3 -> k < countN c s ->
  exists pos, rss_select_block bsize rs c (k + 1) = Val (pos, rk s c pos) /\
    pos mod bsize = 0 /\ rk s c pos <= k /\ k < rk s c (pos + bsize).
Proof.
  intros Hb Hn Hd Hc Hk. pose proof Hd as (Hlen & Hsbs & sm & Hsm & Hsamp).
  unfold rss_select_block. unfold osub at 1. replace (1 <=? k + 1) with true by lia. cbn [bind].
  replace (k + 1 - 1) with k by lia. rewrite SELECT_NUM_SAMPLES_val, RS_BLOCKS_IN_SB_val.
  rewrite Hsm, idx_vec4 by assumption. cbn [bind].
  destruct (samples_bracket bsize s c (sm c) k Hb (Hsamp c Hc) Hk)
    as (x0 & x1 & E0 & E1 & H01 & Hx1 & Hlo & Hhi).
  unfold idx at 1. rewrite E0. cbn [bind]. unfold idx at 1. rewrite E1. cbn [bind].
  unfold osub at 1. replace (x0 <=? 1 + x1) with true by lia. cbn [bind].
  remember (N.sqrt (1 + x1 - x0) + 1) as step eqn:Estep.
  assert (Hstep : 1 <= step) by lia.
  assert (Hcnt : forall j, j < 1 + x1 -> exists sb, nthN (rs_superblocks rs) j = Some sb /\
            sb_get_superblock_counter sb c = Val ((fun j => rk s c (j * (8 * bsize))) j)).
  { intros j Hj. apply dir_counter; try assumption. lia. }
  assert (Hlen' : N.of_nat (length (rs_superblocks rs)) = len s / (8 * bsize) + 1) by exact Hlen.
  destruct (rss_scan_spec rs c (k + 1) (1 + x1) step _ Hstep Hcnt (S (length (rs_superblocks rs))) x0
              ltac:(lia)) as (r1 & Er1 & Hr1 & Hend1).
  rewrite Er1. cbn [bind]. cbv beta in Hr1, Hend1.
  destruct Hr1 as [->|(p & -> & Hp0 & Hp1 & Hpc)]; [exfalso; lia|].
  unfold osub at 1. replace (step <=? p + step) with true by lia. cbn [bind].
  replace (p + step - step) with p by lia.
  destruct (rss_scan_spec rs c (k + 1) (1 + x1) 1 _ ltac:(lia) Hcnt
              (S (N.to_nat step) + S (length (rs_superblocks rs))) p ltac:(lia)) as (r2 & Er2 & Hr2 & Hend2).
  rewrite Er2. cbn [bind]. cbv beta in Hr2, Hend2.
  destruct Hr2 as [->|(j & -> & Hj0 & Hj1 & Hjc)]; [exfalso; lia|].
  unfold osub at 1. replace (1 <=? j + 1) with true by lia. cbn [bind].
  replace (j + 1 - 1) with j by lia.
  assert (Hjj : j <= len s / (8 * bsize)) by lia.
  unfold idx at 1. rewrite (dir_sb bsize s rs j Hd Hjj). cbn [bind]. unfold W.
  rewrite sb_get_superblock_counter_rec
    by (try assumption; try (now apply fld_bound); apply rk_lt44, maxn_lt_43, Hn). cbn [bind].
  unfold osub at 1. replace (rk s c (j * (8 * bsize)) <=? k + 1) with true by lia. cbn [bind].
  destruct (sb_block_predecessor_rec (fun c => rk s c (j * (8 * bsize)))
              (fun c k => fld bsize s (len s + bsize) j k c) c (k + 1 - rk s c (j * (8 * bsize))) Hc
              (fld_bound bsize s _ j c Hb)) as (b & Eb & Hb7 & Hlt & Hnext).
  rewrite Eb. cbn [bind].
  assert (Hhi' : j = len s / (8 * bsize) \/ k < rk s c ((j + 1) * (8 * bsize))).
  { destruct Hend2 as [He|He]; [|right; lia]. assert (j = x1) by lia. subst j. exact Hhi. }
  destruct (block_locate bsize s c k j b Hb Hjj ltac:(lia) Hk Hhi' Hb7 Hlt Hnext) as (R1 & R2 & R3).
  exists (j * (8 * bsize) + b * bsize). split; [|split; [|split; assumption]].
  - replace (j * bsize * 8) with (j * (8 * bsize)) by lia. now rewrite R1.
  - replace (j * (8 * bsize) + b * bsize) with ((8 * j + b) * bsize) by lia. apply N.mod_mul.
    pose proof (bsz_pos _ Hb). lia.
Qed.

Lemma locate_final s z c p k : nthN (s ++ z) p = Some c -> rk (s ++ z) c p = k -> k < countN c s ->
  nthN s p = Some c /\ rk s c p = k.
Proof.
  intros Hn Hr Hk. destruct (N.lt_ge_cases p (len s)) as [H|H].
  - rewrite nthN_app1 in Hn by assumption. rewrite rk_app_le in Hr by lia. now split.
  - exfalso. rewrite rk_app, rk_all in Hr by assumption. lia.
Qed.

(* an occurrence found in line j at offset p is the one of s at 256 j + p, if it is not among the padding *)
Lemma qvb_locate q s c j d p k : qvb_inv q s -> nthN (qv_data q) j = Some d -> p < 256 -> nthN d p = Some c ->
  rk (concat (qv_data q)) c (256 * j) + rk d c p = k -> k < countN c s ->
  nthN s (256 * j + p) = Some c /\ rk s c (256 * j + p) = k.
Proof.
  intros (_ & Hall & _ & pad & Hcat) Ed Hp Hn Hr Hk.
  apply (locate_final s (repeat 0 pad)); [| |exact Hk]; rewrite <- Hcat.
  - rewrite (nthN_concat_uniform 256) by (try exact Hall; lia).
    replace ((256 * j + p) / 256) with j by lia. rewrite Ed.
    replace ((256 * j + p) mod 256) with p by lia. exact Hn.
  - rewrite (rk_line c _ Hall j p) by lia. now rewrite Ed.
Qed.

Lemma rsq_select_intra_ok bsize q s rs os c k pos : bsz bsize -> qvb_inv q s -> c <= 3 ->
  pos mod bsize = 0 -> rk s c pos <= k -> k < rk s c (pos + bsize) -> k < countN c s ->
  exists off, rsq_select_intra_block bsize (mk_rsq q rs os) c (k - rk s c pos + 1) pos = Val off /\
    nthN s (pos + off) = Some c /\ rk s c (pos + off) = k.
Proof.
  intros Hb Hq Hc Hpm Hlo Hhi Hk. pose proof Hq as (_ & Hall & Hlen & _).
  unfold rsq_select_intra_block. cbn [rsq_qv]. rewrite shiftr8.
  unfold osub. replace (1 <=? k - rk s c pos + 1) with true by lia. cbn [bind].
  replace (k - rk s c pos + 1 - 1) with (k - rk s c pos) by lia.
  assert (Hposn : pos < len s).
  { destruct (N.lt_ge_cases pos (len s)); [assumption|]. rewrite rk_all in Hlo by assumption. lia. }
  assert (Epos : pos = 256 * (pos / 256)) by (destruct Hb as [-> | ->]; lia).
  revert Epos. generalize (pos / 256) as j0. intros j0 Epos. subst pos.
  destruct (nthN_lt_some (qv_data q) j0) as (d0 & Ed0); [rewrite Hlen; lia|].
  pose proof (Forall_nthN _ _ _ _ Hall Ed0) as Ld0. cbv beta in Ld0.
  unfold uidx at 1. rewrite Ed0. cbn [bind].
  pose proof (qvb_rk q s c (256 * j0) Hq ltac:(lia)) as R0.
  pose proof (rk_line c (qv_data q) Hall j0 256 ltac:(lia)) as L0. rewrite Ed0, (rk_all d0) in L0 by lia.
  destruct (N.lt_ge_cases (k - rk s c (256 * j0)) (countN c d0)) as [Ht|Ht].
  - destruct (sel_line_found c d0 _ 0 Ld0 Ht) as (p & a & b & E & Hp & Hnp & Hrp). rewrite E. cbv beta iota.
    exists (0 + p). split; [reflexivity|]. rewrite N.add_0_l.
    apply (qvb_locate q s c j0 d0); try assumption. lia.
  - (* not in the first line: the block has a second one, and the occurrence is there *)
    rewrite (sel_line_notfound c d0 _ 0 Ld0 Ht). cbv beta iota.
    destruct Hb as [-> | ->].
    + exfalso. pose proof (qvb_rk_le q s c (256 * j0 + 256) Hq). lia.
    + change (512 =? 256) with false. cbv iota.
      pose proof (rk_line c (qv_data q) Hall (j0 + 1) 256 ltac:(lia)) as L1.
      replace (256 * (j0 + 1)) with (256 * j0 + 256) in L1 by lia.
      replace (256 * j0 + 256 + 256) with (256 * j0 + 512) in L1 by lia.
      pose proof (qvb_rk_le q s c (256 * j0 + 512) Hq) as HS512.
      destruct (nthN (qv_data q) (j0 + 1)) as [d1|] eqn:Ed1; [|exfalso; lia].
      pose proof (Forall_nthN _ _ _ _ Hall Ed1) as Ld1. cbv beta in Ld1.
      unfold uidx. rewrite Ed1. cbn [bind]. rewrite (rk_all d1) in L1 by lia.
      destruct (sel_line_found c d1 (k - rk s c (256 * j0) - countN c d0) (0 + 256) Ld1 ltac:(lia))
        as (p & a & b & E & Hp & Hnp & Hrp). rewrite E. cbv beta iota.
      exists (0 + 256 + p). split; [reflexivity|].
      replace (256 * j0 + (0 + 256 + p)) with (256 * (j0 + 1) + p) by lia.
      apply (qvb_locate q s c (j0 + 1) d1); try assumption.
      replace (256 * (j0 + 1)) with (256 * j0 + 256) by lia. lia.
Qed.

Lemma rsq_select_ok bsize q s rs c k : bsz bsize -> len s < RSQ_MAXN -> qvb_inv q s ->
  dir_ok bsize s rs -> k < 2 ^ 64 ->
  rsq_select bsize (mk_rsq q rs (occs_smaller_of s)) c k =
  Val (if c <=? 3 then select_spec s c k else None).
Proof.
  intros Hb Hn Hq Hd Hk64. unfold rsq_select.
  destruct (N.leb_spec c 3) as [Hc|Hc]; [|now replace (3 <? c) with true by lia].
  replace (3 <? c) with false by lia. rewrite rsq_occs_unchecked_ok by assumption. cbn [bind].
  destruct (N.leb_spec (countN c s) k) as [Hge|Hk]; [now rewrite select_spec_none|].
  pose proof (countN_le_len c s) as Hcl. pose proof (maxn_lt_64 _ Hn) as H64.
  unfold oadd at 1. replace (k + 1 <? 2 ^ 64) with true by lia. cbn [bind rsq_rs].
  destruct (rss_select_block_ok bsize s rs c k Hb Hn Hd Hc Hk) as (pos & E & Hpm & Hlo & Hhi).
  rewrite E. cbn [bind]. unfold osub at 1. replace (rk s c pos <=? k) with true by lia. cbn [bind].
  unfold oadd at 1. replace (k - rk s c pos + 1 <? 2 ^ 64) with true by lia. cbn [bind].
  destruct (rsq_select_intra_ok bsize q s rs (occs_smaller_of s) c k pos Hb Hq Hc Hpm Hlo Hhi Hk)
    as (off & Eo & Hn1 & Hr1).
  rewrite Eo. cbn [bind]. f_equal. symmetry. apply select_spec_some_iff. now rewrite rank_spec_rk.
Qed.
