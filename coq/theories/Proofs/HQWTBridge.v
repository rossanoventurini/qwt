(* Huffman-shaped wavelet trees (Model/Huff.v), part 1: the bridge between the code table and the
   digit / code length functions of Theory/Codes.v, for codes cut into fragments of [frag] bits
   (2 for the quad tree, 1 for the binary one: Section Code), and the construction of the quad
   tree: the levels hq_levels builds are rank/select quad vectors of the digit lists [hwm_levels]
   of the theory. *)
From Coq Require Import ZArith Lia ZifyBool ZifyN ZifyNat.
From QwtModel Require Import ListX Seq QVec RSQ Huff ListXP NBits QVecP RSQBuild RSQP.
From QwtModel Require Import WaveletMatrix HuffWM Codes QWTArith QWTBuild.

Lemma pick_tagged {A} (t : A -> N) d l :
  map snd (filter (fun p : N * A => fst p =? d) (map (fun a => (t a, a)) l)) =
  filter (fun a => t a =? d) l.
Proof.
  induction l as [|a l IH]; cbn [map filter fst]; [reflexivity|].
  destruct (t a =? d); cbn [map snd]; now rewrite IH.
Qed.

Lemma flat_opt_filter {A B} (p : A -> bool) (g : A -> B) l :
  flat_map (fun o : option B => match o with Some d => [d] | None => [] end)
           (map (fun s => if p s then Some (g s) else None) l) = map g (filter p l).
Proof.
  induction l as [|a l IH]; cbn [map flat_map filter]; [reflexivity|].
  destruct (p a); cbn [app map]; now rewrite IH.
Qed.

Lemma hwm_levels_map {A} a (dg : nat -> A -> N) cl s : forall n l0,
  hwm_levels A a dg cl l0 n s = map (fun l => map (dg l) (Q A a dg cl l s)) (seq l0 n).
Proof.
  induction n as [|n IH]; intros l0; cbn [hwm_levels seq map]; [reflexivity|]. now rewrite IH.
Qed.

Section RsqProj.
Variables (bsize : N) (r : rsq) (s : list N).
Hypothesis H : rsq_spec bsize r s.
Lemma rs_rank c i : rsq_rank bsize r c i =
  Val (if (c <=? 3) && (i <=? len s) then Some (rank_spec s c i) else None).
Proof. apply H. Qed.
Lemma rs_select c k : k < 2 ^ 64 -> rsq_select bsize r c k = Val (if c <=? 3 then select_spec s c k else None).
Proof. apply H. Qed.
Lemma rs_rank_u c i : c <= 3 -> i <= len s -> rsq_rank_unchecked bsize r c i = Val (rank_spec s c i).
Proof. apply H. Qed.
Lemma rs_get_u i x : nthN s i = Some x -> rsq_get_unchecked r i = Val x.
Proof. apply H. Qed.
Lemma rs_occs_u c : c <= 3 -> rsq_occs_smaller_unchecked r c = Val (count_lt c s).
Proof. apply H. Qed.
Lemma rs_block c i : c <= 3 -> i <= len s ->
  exists v, rss_rank_block bsize (rsq_rs r) c i = Val v /\ v <= rank_spec s c i.
Proof. apply H. Qed.
End RsqProj.

Section Code.
Variables (frag : N) (a : nat).
Hypothesis Ha : N.of_nat a = 2 ^ frag.
Variable tab : list pcode.
Notation dig := (code_dig frag tab).
Notation clen := (code_clen frag tab).
Set Default Proof Using "All".

Lemma code_dig_lt : forall l x, dig l x < N.of_nat a.
Proof.
  intros l x. unfold code_dig. rewrite Ha. destruct (nthN tab (sym_index x)); [|apply pow2_pos].
  rewrite <- N.pred_sub, <- N.ones_equiv. apply land_ones_lt.
Qed.

Variable seq : list N.
Hypothesis Htab : len tab < 2 ^ 64.
Hypothesis Hwf : forall x, In x seq -> exists c, nthN tab x = Some c /\ code_wf frag c = true.
Notation QQ l := (Q N a dig clen l seq).

Lemma code_sym_index x : In x seq -> sym_index x = x.
Proof.
  intros H. destruct (Hwf x H) as (c & Hc & _). apply nthN_some_lt in Hc.
  unfold sym_index. apply N.mod_small. lia.
Qed.

Record code_entry (x : N) (c : pcode) : Prop := {
  ce_nth : nthN tab (sym_index x) = Some c;
  ce_pos : 0 < pc_len c;
  ce_le : pc_len c <= 32;
  ce_frag : pc_len c mod frag = 0;
  ce_content : pc_content c < 2 ^ pc_len c }.

Lemma code_in_seq x : In x seq -> exists c, code_entry x c.
Proof.
  intros H. destruct (Hwf x H) as (c & Hc & W). exists c. unfold code_wf in W.
  apply andb_prop in W as [W W4]. apply andb_prop in W as [W W3]. apply andb_prop in W as [W1 W2].
  constructor; [rewrite (code_sym_index x H); exact Hc|lia|lia|lia|lia].
Qed.

(* a positive length that is 0 modulo frag excludes frag = 0 *)
Lemma code_frag_pos x c : code_entry x c -> 0 < frag.
Proof. intros [_ H2 _ H4 _]. lia. Qed.

Lemma code_clen_len x c : code_entry x c -> pc_len c = frag * N.of_nat (clen x) /\ (0 < clen x)%nat.
Proof.
  intros HF. pose proof (code_frag_pos x c HF) as Hf. destruct HF as [H1 H2 H3 H4 H5].
  unfold code_clen. rewrite H1. apply N.div_exact in H4; [nia|lia].
Qed.

Lemma code_clen_pos x : In x seq -> (0 < clen x)%nat.
Proof. intros H. destruct (code_in_seq x H) as (c & HF). exact (proj2 (code_clen_len x c HF)). Qed.

Lemma code_Q_in l x : In x (QQ l) -> In x seq /\ (l < clen x)%nat.
Proof.
  intros H. apply (Q_In N a dig code_dig_lt clen) in H. destruct H as [H1 H2]. split; [exact H1|].
  pose proof (code_clen_pos x H1). lia.
Qed.

(* the construction pushes a function g of the digit (the digit itself, or whether it is 1) *)
Lemma code_level_val {B} (g : N -> B) l x shift mask :
  shift = frag * (N.of_nat l + 1) -> mask = 2 ^ frag - 1 -> In x seq ->
  (let! code := idx tab (sym_index x) in
   if shift <=? pc_len code
   then Val (Some (g (N.land (N.shiftr (pc_content code) (pc_len code - shift)) mask)))
   else Val None) = Val (if (l <? clen x)%nat then Some (g (dig l x)) else None).
Proof.
  intros -> -> H. destruct (code_in_seq x H) as (c & HF). destruct (code_clen_len x c HF) as [HL _].
  pose proof (code_frag_pos x c HF) as Hf. unfold idx, code_dig. rewrite (ce_nth x c HF). cbn [bind].
  destruct (N.leb_spec (frag * (N.of_nat l + 1)) (pc_len c)), (Nat.ltb_spec l (clen x));
    try reflexivity; nia.
Qed.

(* the tag part_with_codes gives x: its digit, or the arity when the code of x ends at level l *)
Definition code_tag (l : nat) (x : N) : N := if (S l <? clen x)%nat then dig l x else N.of_nat a.

Lemma code_tag_val l x nb shift : nb = N.of_nat a -> shift = frag * (N.of_nat l + 1) -> In x seq ->
  (let! code := idx tab (sym_index x) in
   if pc_len code <=? shift then Val (nb, x)
   else let! d := osub (pc_len code) shift in
        Val (N.land (N.shiftr (pc_content code) d) (nb - 1), x)) = Val (code_tag l x, x).
Proof.
  intros -> -> H. destruct (code_in_seq x H) as (c & HF). destruct (code_clen_len x c HF) as [HL _].
  pose proof (code_frag_pos x c HF) as Hf. unfold idx, code_tag, code_dig. rewrite (ce_nth x c HF), Ha. cbn [bind].
  destruct (N.leb_spec (pc_len c) (frag * (N.of_nat l + 1))), (Nat.ltb_spec (S l) (clen x));
    try reflexivity; try nia.
  unfold osub. destruct (N.leb_spec (frag * (N.of_nat l + 1)) (pc_len c)); [reflexivity|lia].
Qed.

Lemma code_tag_pick l k lst : k < N.of_nat a ->
  filter (fun x => code_tag l x =? k) lst = filter (fun x => (S l <? clen x)%nat && (dig l x =? k)) lst.
Proof.
  intros Hk. apply filter_ext. intros x. unfold code_tag.
  destruct (S l <? clen x)%nat; cbn [andb]; [reflexivity|]. destruct (N.eqb_spec (N.of_nat a) k); [lia|reflexivity].
Qed.

Lemma code_tag_rest l nb lst : nb = N.of_nat a ->
  filter (fun x => code_tag l x =? nb) lst = filter (fun x => negb (S l <? clen x)%nat) lst.
Proof.
  intros ->. apply filter_ext. intros x. unfold code_tag.
  destruct (S l <? clen x)%nat; cbn [negb]; [|apply N.eqb_refl].
  pose proof (code_dig_lt l x). destruct (N.eqb_spec (dig l x) (N.of_nat a)); [lia|reflexivity].
Qed.

(* the model's sequence at level l is Q l seq followed by symbols whose code has ended *)
Definition code_fin_tail (l : nat) (F : list N) : Prop := forall x, In x F -> In x seq /\ (clen x <= l)%nat.

Lemma code_level_seq_in l F : code_fin_tail l F -> forall x, In x (QQ l ++ F) -> In x seq.
Proof.
  intros HF x Hx. apply in_app_or in Hx as [Hx|Hx]; [exact (proj1 (code_Q_in l x Hx))|exact (proj1 (HF x Hx))].
Qed.

Lemma code_level_digits l F : code_fin_tail l F ->
  filter (fun x => (l <? clen x)%nat) (QQ l ++ F) = QQ l.
Proof.
  intros HF. rewrite filter_app, filter_all, filter_none; [apply app_nil_r| |].
  - intros x Hx. destruct (HF x Hx) as [_ H]. apply Nat.ltb_ge. exact H.
  - intros x Hx. destruct (code_Q_in l x Hx) as [_ H]. apply Nat.ltb_lt. exact H.
Qed.

Lemma code_level_next l F : code_fin_tail l F ->
  exists F', code_fin_tail (S l) F' /\
    parts N dig l a (filter (fun x => (S l <? clen x)%nat) (QQ l ++ F)) ++
    filter (fun x => negb (S l <? clen x)%nat) (QQ l ++ F) = QQ (S l) ++ F'.
Proof.
  intros HF. exists (filter (fun x => negb (S l <? clen x)%nat) (QQ l ++ F)). split.
  - intros x Hx. apply filter_In in Hx as [Hx Hc]. split; [exact (code_level_seq_in l F HF x Hx)|].
    destruct (Nat.ltb_spec (S l) (clen x)); [discriminate|lia].
  - f_equal. rewrite filter_app.
    rewrite (filter_none _ F), app_nil_r; [reflexivity|].
    intros x Hx. destruct (HF x Hx) as [_ H]. apply Nat.ltb_ge. lia.
Qed.

End Code.

Definition dig_lt := code_dig_lt 2 4 eq_refl.
Definition code_facts := code_entry 2.
Definition in_seq_code := code_in_seq 2 4 eq_refl.
Definition clen_pos := code_clen_pos 2 4 eq_refl.
Definition fin_tail := code_fin_tail 2.
Definition level_seq_in := code_level_seq_in 2 4 eq_refl.
Definition level_digits := code_level_digits 2 4 eq_refl.
Definition level_next := code_level_next 2 4 eq_refl.

Section Bridge.
Variable tab : list pcode.
Notation dig := (code_dig 2 tab).
Notation clen := (code_clen 2 tab).

Lemma dig_le3 l x : dig l x <= 3.
Proof. pose proof (dig_lt tab l x) as H. change (N.of_nat 4) with 4 in H. lia. Qed.
Lemma clen_eq x c : nthN tab (sym_index x) = Some c -> clen x = N.to_nat (pc_len c / 2).
Proof. intros H. unfold code_clen. now rewrite H. Qed.
Lemma dig_eq x c l : nthN tab (sym_index x) = Some c ->
  dig l x = N.land (N.shiftr (pc_content c) (pc_len c - 2 * (N.of_nat l + 1))) 3.
Proof. intros H. unfold code_dig. now rewrite H. Qed.

Variable seq : list N.
Hypothesis Htab : len tab < 2 ^ 64.
Hypothesis Hwf : forall x, In x seq -> exists c, nthN tab x = Some c /\ code_wf 2 c = true.
Notation QQ l := (Q N 4 dig clen l seq).
Notation LV l0 n := (hwm_levels N 4 dig clen l0 n seq).
Set Default Proof Using "All".

Lemma level_digit_val l a : In a seq ->
  (let! code := idx tab (sym_index a) in
   if 2 * (N.of_nat l + 1) <=? pc_len code
   then Val (Some (N.land (N.shiftr (pc_content code) (pc_len code - 2 * (N.of_nat l + 1))) 3))
   else Val None) = Val (if (l <? clen a)%nat then Some (dig l a) else None).
Proof. exact (code_level_val 2 4 eq_refl tab seq Htab Hwf (fun d => d) l a _ _ eq_refl eq_refl). Qed.

Lemma part_with_codes_ok l lst : (forall x, In x lst -> In x seq) ->
  part_with_codes 4 lst (2 * (N.of_nat l + 1)) tab =
  Val (parts N dig l 4 (filter (fun x => (S l <? clen x)%nat) lst) ++
       filter (fun x => negb (S l <? clen x)%nat) lst).
Proof.
  intros Hin. unfold part_with_codes.
  rewrite (mapo_val _ (fun x => (code_tag 2 4 tab l x, x)))
    by (intros x Hx; apply (code_tag_val 2 4 eq_refl tab seq Htab Hwf); [reflexivity|reflexivity|apply Hin, Hx]).
  cbn [bind]. change (4 =? 4) with true. cbv iota. rewrite !pick_tagged. f_equal.
  cbn [parts app]. change (N.of_nat 0) with 0. change (N.of_nat 1) with 1.
  change (N.of_nat 2) with 2. change (N.of_nat 3) with 3.
  rewrite !filter_filter, <- !app_assoc, !(code_tag_pick 2 4 eq_refl tab seq Htab Hwf l) by reflexivity.
  do 4 f_equal. now apply (code_tag_rest 2 4 eq_refl tab seq Htab Hwf).
Qed.

Section Build.
Variable bsize : N.
Hypothesis Hb : bsize = 256 \/ bsize = 512.
Hypothesis Hn : len seq < RSQ_MAXN.

Lemma hq_levels_ok : forall k l F, fin_tail tab seq l F ->
  exists rs lens, hq_levels bsize (QQ l ++ F) tab (2 * (N.of_nat l + 1)) k = Val (rs, lens) /\
    Forall2 (rsq_spec bsize) rs (LV l k) /\ lens = map (@len N) (LV l k).
Proof.
  induction k as [|k IH]; intros l F HF.
  - exists [], []. cbn [hq_levels hwm_levels map]. repeat split. constructor.
  - cbn [hq_levels].
    rewrite (mapo_val _ (fun a => if (l <? clen a)%nat then Some (dig l a) else None))
      by (intros a Ha; apply level_digit_val, (level_seq_in tab seq Htab Hwf l F HF a Ha)).
    cbn [bind]. rewrite flat_opt_filter, (level_digits tab seq Htab Hwf l F HF).
    destruct (qvb_push_all_inv (map (dig l) (QQ l)) qvb_new [] qvb_inv_new) as (q & Eq & Hq).
    rewrite Eq. cbn [bind app] in *.
    assert (HD : Forall (fun x => x < 4) (map (dig l) (QQ l))).
    { apply Forall_forall. intros d Hd. apply in_map_iff in Hd as (x & <- & _).
      pose proof (dig_le3 l x). lia. }
    rewrite (map_sym4_id _ HD) in Hq.
    assert (HL : len (map (dig l) (QQ l)) < RSQ_MAXN).
    { rewrite len_map. pose proof (Q_len_le N 4 dig (dig_lt tab) clen l seq). lia. }
    destruct (rsq_from_qv_correct bsize q _ Hb Hq HD HL) as (r & Er & Hr).
    rewrite Er. cbn [bind].
    rewrite (part_with_codes_ok l _ (level_seq_in tab seq Htab Hwf l F HF)). cbn [bind].
    destruct (level_next tab seq Htab Hwf l F HF) as (F' & HF' & E'). rewrite E'.
    destruct (IH (S l) F' HF') as (rs & lens & E & H1 & H2).
    replace (2 * (N.of_nat l + 1) + 2) with (2 * (N.of_nat (S l) + 1)) by lia.
    rewrite E. cbn [bind].
    exists (r :: rs), (qv_len q :: lens). split; [reflexivity|].
    cbn [hwm_levels map]. split; [constructor; assumption|].
    rewrite (qv_len_inv q _ Hq), H2. reflexivity.
Qed.

End Build.

Lemma LV_nth n l0 j : (j < n)%nat ->
  nthN (LV l0 n) (N.of_nat j) = Some (map (dig (l0 + j)%nat) (QQ (l0 + j)%nat)).
Proof using Htab.
  intros Hj. rewrite hwm_levels_map, nthN_nth_error, Nnat.Nat2N.id, nth_error_map, nth_error_nth' with (d := O), seq_nth;
    [reflexivity|lia|rewrite seq_length; lia].
Qed.

End Bridge.
