(* C09: prefetch support (Model/Prefetch.v: PrefetchSupport::new, approx_rank_unchecked and the
   estimation phase of rank_prefetch on QWT*Pfs / HQWT*Pfs trees).

   PROPERTY: prefetching never changes an answer and never causes a fault; the estimates may be
   arbitrarily imprecise.

   FINDINGS (none is a reachable fault):
   * npush D = |D|/2048 + 1 (+1 when |D| mod 2048 >= 2) for |D| >= 1, and 0 for |D| = 0
     ([npush_formula], [npush_boundary]); position i = |D| -- and every position up to |D| + 2046 --
     is below the panic bound ([npush_slack]); tight for |D| = 1 mod 2048 ([slack_tight]).
   * approx_rank_unchecked may EXCEED the exact rank by one ([pfs_val_above_rank]: a symbol that
     completes a multiple of 2048 exactly at an index that is a multiple of 2048), so in the
     Huffman-shaped tree the approximate position may leave the next (shorter) level by up to one
     position per level walked; it stays inside the 2047 positions of slack because a code has at
     most 16 fragments (the argument needs: number of fragments - 1 <= 2046).
   * approx_rank_unchecked on the support of an EMPTY level panics for every argument
     ([pfs_empty_level_panics]); no walk reaches an empty level: all levels of the plain tree have
     len seq >= 1 symbols (rank_prefetch answers None for the empty tree before the estimation),
     and level l of the Huffman-shaped tree contains the queried symbol itself for l < code length
     ([exact_inside] in PrefetchH.v). *)
From Coq Require Import ZArith Lia ZifyBool ZifyN ZifyNat.
From QwtModel Require Import ListX Seq RSQ QWT Huff Prefetch ListXP RSQList RSQBuild RSQP.
From QwtModel Require Import QWTBuild QWTWalk QWTP HuffWM Codes HQWTBridge HQWTP.
From QwtModel Require Import PrefetchL PrefetchV PrefetchQ PrefetchH.

(* an upper bound of approx_rank_unchecked(c, i): never above the occurrences of c, never more
   than one above the exact rank (the exact value is [pfs_val], PrefetchV.v) *)
Definition pfs_upper (D : list N) (c i : N) : N := N.min (countN c D) (rk D c i + 1).

Lemma pfs_val_le_upper D c i : pfs_val D c i <= pfs_upper D c i.
Proof.
  unfold pfs_upper. pose proof (pfs_val_le_count D c i). pose proof (pfs_val_le_rank1 D c i). lia.
Qed.

(* the excess over the exact rank is real *)
Definition above_D : list N := 1 :: repeat 0 2048.
Lemma pfs_val_above_rank : pfs_val above_D 0 2048 = 2048 /\ rk above_D 0 2048 = 2047 /\
  2048 < pfs_bound above_D.
Proof. vm_compute. repeat split; reflexivity. Qed.

Lemma npush_boundary :
  map (fun n => npush (repeat 0 (N.to_nat n))) [0; 1; 2; 2047; 2048; 2049; 2050; 4095; 4096; 4097; 4098] =
  [0; 1; 2; 2; 2; 2; 3; 3; 3; 3; 4].
Proof. vm_compute. reflexivity. Qed.
(* the slack of npush_slack cannot be improved: |D| = 2049 has 2 pushes, bound 4096 = |D| + 2047 *)
Lemma slack_tight : pfs_bound (repeat 0 2049) = len (repeat 0 2049) + 2047.
Proof. vm_compute. reflexivity. Qed.

Section Prefetch.
Hypothesis select_in_word_correct : forall w k, w < 2 ^ 64 -> k < 128 ->
  select_in_word w k = Val (match select_spec (bits_of 64 w) 1 k with Some p => p | None => 64 end).
Hypothesis popcount_correct : forall n x, x < 2 ^ N.of_nat n -> popcount x = countN 1 (bits_of n x).

Notation PNEW := (pfs_new_spec select_in_word_correct popcount_correct).

(* pfs_bound D = 2048 * npush D is the FIRST position at which approx_rank_unchecked panics, hence
   the strict inequality (for an empty level pfs_bound D = 0: no position is admitted) *)
Theorem pfs_new_ok : forall D, Forall (fun x => x < 4) D -> len D < 2 ^ 43 ->
  exists p, pfs_new D 11 = Val p /\ pf_shift p = 11 /\ len (pf_samples p) = 4 /\
  forall c i, c < 4 -> i < pfs_bound D ->
    exists v, pfs_approx_rank p c i = Val v /\ v = pfs_val D c i /\ v <= pfs_upper D c i.
Proof.
  intros D HF Hlen. destruct (PNEW D HF Hlen) as (p & Ep & Hs & Hl & Hp).
  exists p. split; [exact Ep|]. split; [exact Hs|]. split; [exact Hl|].
  intros c i Hc Hi. exists (pfs_val D c i). rewrite (Hp c i Hc).
  destruct (N.ltb_spec i (pfs_bound D)); [|lia].
  split; [reflexivity|]. split; [reflexivity|apply pfs_val_le_upper].
Qed.

Lemma pfs_new_val_spec D p : Forall (fun x => x < 4) D -> len D < 2 ^ 43 -> pfs_new D 11 = Val p -> pfs_spec p D.
Proof.
  intros HF Hlen Ep. destruct (PNEW D HF Hlen) as (p' & Ep' & H). rewrite Ep in Ep'. injection Ep' as <-. exact H.
Qed.

Theorem pfs_approx_rank_mono : forall D p, Forall (fun x => x < 4) D -> len D < 2 ^ 43 -> pfs_new D 11 = Val p ->
  forall c i j, c < 4 -> i <= j -> j < pfs_bound D ->
  exists a b, pfs_approx_rank p c i = Val a /\ pfs_approx_rank p c j = Val b /\ a <= b.
Proof.
  intros D p HF Hlen Ep c i j Hc Hij Hj. destruct (pfs_new_val_spec D p HF Hlen Ep) as (_ & _ & Hp).
  exists (pfs_val D c i), (pfs_val D c j). rewrite !Hp by exact Hc.
  destruct (N.ltb_spec i (pfs_bound D)); [|lia]. destruct (N.ltb_spec j (pfs_bound D)); [|lia].
  split; [reflexivity|]. split; [reflexivity|now apply pfs_val_mono].
Qed.

(* beyond the bound: None.unwrap() *)
Theorem pfs_approx_rank_out_of_range : forall D p, Forall (fun x => x < 4) D -> len D < 2 ^ 43 ->
  pfs_new D 11 = Val p -> forall c i, c < 4 -> pfs_bound D <= i -> pfs_approx_rank p c i = Fault Panic.
Proof.
  intros D p HF Hlen Ep c i Hc Hi. destruct (pfs_new_val_spec D p HF Hlen Ep) as (_ & _ & Hp).
  rewrite Hp by exact Hc.
  destruct (N.ltb_spec i (pfs_bound D)); [lia|reflexivity].
Qed.
Corollary pfs_empty_level_panics : forall p, pfs_new [] 11 = Val p ->
  forall c i, c < 4 -> pfs_approx_rank p c i = Fault Panic.
Proof.
  intros p Ep c i Hc. apply (pfs_approx_rank_out_of_range [] p); try assumption; [constructor|reflexivity|].
  change (pfs_bound []) with 0. lia.
Qed.
Corollary pfs_len_in_range : forall D, D <> [] -> len D + 2046 < pfs_bound D.
Proof. intros D HD. pose proof (npush_slack D HD). unfold pfs_bound. lia. Qed.

Theorem qwt_pfs_new_total : forall w seq, QWTP.width_ok w -> Forall (fun x => x < 2 ^ w) seq ->
  len seq < RSQ_MAXN -> exists pfs, qwt_pfs_new w seq = Val pfs.
Proof.
  intros w seq Hwok HF Hn. destruct seq as [|x0 seq']; [exists []; reflexivity|].
  destruct (qwt_pfs_new_ok select_in_word_correct popcount_correct w _ Hwok HF Hn ltac:(discriminate)) as (pfs & E & _).
  exists pfs. exact E.
Qed.

Theorem qwt_rank_prefetch_pfs_correct : forall w bsize seq t pfs, QWTP.width_ok w ->
  (bsize = 256 \/ bsize = 512) ->
  Forall (fun x => x < 2 ^ w) seq -> len seq < RSQ_MAXN ->
  qwt_new w bsize seq = Val t -> qwt_pfs_new w seq = Val pfs ->
  forall c i, c < 2 ^ w -> qwt_rank_prefetch_pfs w bsize t pfs c i = qwt_rank w bsize t c i.
Proof.
  intros w bsize seq t pfs Hwok Hb HF Hn Et Ep c i _.
  destruct seq as [|x0 seq'] eqn:Eseq.
  - (* empty tree: None before any estimation *)
    unfold qwt_new in Et. destruct (rsq_default bsize) as [d|f]; cbn [bind] in Et; [|discriminate Et].
    injection Et as <-. unfold qwt_rank_prefetch_pfs, qwt_rank. cbn [q_n].
    change (0 =? 0) with true. rewrite !orb_true_r. reflexivity.
  - rewrite <- Eseq in *. assert (Hne : seq <> []) by (rewrite Eseq; discriminate).
    assert (Hlen0 : len seq <> 0) by (rewrite Eseq, len_cons; lia).
    destruct (qwt_pfs_new_ok select_in_word_correct popcount_correct w seq Hwok HF Hn Hne) as (pfs' & Ep' & HP).
    rewrite Ep in Ep'. injection Ep' as <-.
    clear Eseq x0 seq'. destruct (levels_shift w seq Hwok HF) as (HL & HLN & Hw).
    rewrite (qwt_new_cons w bsize seq Hne) in Et. cbv zeta in *. set (L := N.to_nat (levels_of seq)) in *.
    destruct (qwt_levels_tree w bsize L seq Hb Hn HL Hw) as (qvs & Eq & HT & _).
    rewrite Eq in Et. cbn [bind] in Et. injection Et as <-.
    assert (Hlen64 : len seq < 2 ^ 64).
    { rewrite RSQ_MAXN_val in Hn. change (2 ^ 64) with 18446744073709551616. lia. }
    unfold qwt_rank_prefetch_pfs, qwt_rank. cbn [q_n q_sigma].
    destruct (N.ltb_spec (len seq) i) as [Hgt|Hi]; [reflexivity|]. cbn [orb].
    destruct ((maxN seq <? c) || (len seq =? 0)); [reflexivity|].
    set (t := {| q_n := len seq; q_n_levels := levels_of seq; q_sigma := maxN seq; q_qvs := qvs |}).
    destruct (qwt_pfs_estimate_ok select_in_word_correct popcount_correct w bsize L seq qvs pfs HT HP HL Hw
                Hlen0 c i t HLN eq_refl Hi) as (v & Ev).
    rewrite Ev. cbn [bind].
    rewrite (prefetch_unchecked_eq w bsize L seq qvs HT HL Hw Hlen64 c i t HLN eq_refl Hi). reflexivity.
Qed.

Theorem hq_pfs_new_total : forall w seq tab, HQWTP.width_ok w -> Forall (fun x => x < 2 ^ w) seq ->
  len seq < RSQ_MAXN -> table_ok seq tab -> exists pfs, hq_pfs_new seq tab = Val pfs.
Proof.
  intros w seq tab _ _ Hn (Htab & Hwf & _). destruct seq as [|x0 seq']; [exists []; reflexivity|].
  destruct (hq_pfs_new_ok select_in_word_correct popcount_correct tab _ Htab Hwf Hn ltac:(discriminate)) as (pfs & E & _).
  exists pfs. exact E.
Qed.

Theorem hq_rank_prefetch_pfs_correct : forall w bsize seq tab t pfs, HQWTP.width_ok w ->
  (bsize = 256 \/ bsize = 512) ->
  Forall (fun x => x < 2 ^ w) seq -> len seq < RSQ_MAXN -> table_ok seq tab ->
  hq_build bsize seq tab = Val t -> hq_pfs_new seq tab = Val pfs ->
  forall c i, c < 2 ^ w -> hq_rank_prefetch_pfs bsize t pfs c i = hq_rank bsize t c i.
Proof.
  intros w bsize seq tab t pfs _ Hb HF Hn (Htab & Hwf & Hocc & Hok & Hdist) Et Ep c i _.
  destruct seq as [|x0 seq'].
  - (* empty tree: no symbol has a code *)
    unfold hq_build in Et. destruct (rsq_default bsize) as [d|f]; cbn [bind] in Et; [|discriminate Et].
    injection Et as <-.
    assert (EC : hq_code_of (mk_hq 0 0 [] [] [d] [0]) c = None).
    { unfold hq_code_of. cbn [h_codes]. change (len (@nil pcode)) with 0.
      destruct (N.leb_spec 0 (sym_index c)); [|lia]. now rewrite orb_true_r. }
    unfold hq_rank_prefetch_pfs, hq_rank. now rewrite EC.
  - rewrite hq_build_cons in Et. set (s := x0 :: seq') in *.
    set (M := N.to_nat (maxN (map pc_len tab) / 2)) in *.
    assert (Hne : s <> []) by discriminate.
    specialize (Hok s (fun x H => H)).
    assert (HT : fin_tail tab s 0 []) by (intros x []).
    destruct (hq_levels_ok tab s Htab Hwf bsize Hb Hn M 0%nat [] HT) as (qvs & lens & E & H1 & H2).
    cbn [Q] in E. rewrite app_nil_r in E. change (2 * (N.of_nat 0 + 1)) with 2 in E.
    rewrite E in Et. cbn [bind] in Et. injection Et as <-.
    pose proof (LV_nth tab s Htab M 0%nat) as LV0. cbn [Nat.add] in LV0.
    assert (LOK : forall l, (l < M)%nat -> exists r, nthN qvs (N.of_nat l) = Some r /\
              rsq_spec bsize r (map (code_dig 2 tab l) (Q N 4 (code_dig 2 tab) (code_clen 2 tab) l s))).
    { intros l Hl. destruct (Forall2_nthN _ _ _ H1 _ _ (LV0 l Hl)) as (r & Er & Hr). eauto. }
    assert (LENS : forall l, (l < M)%nat ->
              nthN lens (N.of_nat l) = Some (len (Q N 4 (code_dig 2 tab) (code_clen 2 tab) l s))).
    { intros l Hl. rewrite H2, nthN_map, (LV0 l Hl). cbn [option_map]. now rewrite len_map. }
    destruct (hq_pfs_new_ok select_in_word_correct popcount_correct tab s Htab Hwf Hn Hne) as (pfs' & Ep' & POK).
    rewrite Ep in Ep'. injection Ep' as <-.
    unfold hq_rank_prefetch_pfs, hq_rank. cbn [h_n].
    destruct (N.ltb_spec (len s) i) as [Hgt|Hi]; [reflexivity|].
    destruct (in_dec N.eq_dec c s) as [Hc|Hc].
    + destruct (in_seq_code tab s Htab Hwf c Hc) as (code & HFc).
      rewrite (code_of_in w bsize tab s Hb HF Hn Htab Hwf Hocc Hok Hdist qvs lens LOK LENS c code Hc HFc).
      pose proof (clen_le_M w bsize tab s Hb HF Hn Htab Hwf Hocc Hok Hdist qvs lens LOK LENS c Hc) as HcM.
      destruct (hq_pfs_estimate_ok select_in_word_correct popcount_correct tab s Htab Hwf Hn bsize qvs pfs
                  M LOK POK Hok c code i (maxN (map pc_len tab) / 2) (decode_tables tab (maxN (map pc_len tab))) lens
                  Hc HFc HcM Hi) as (v & Ev).
      rewrite Ev. cbn [bind].
      rewrite (rank_prefetch_unchecked_ok w bsize tab s Hb HF Hn Htab Hwf Hocc Hok Hdist qvs lens LOK LENS c i Hc Hi).
      rewrite (rank_unchecked_ok w bsize tab s Hb HF Hn Htab Hwf Hocc Hok Hdist qvs lens LOK LENS c i Hc Hi).
      reflexivity.
    + rewrite (code_of_notin w bsize tab s Hb HF Hn Htab Hwf Hocc Hok Hdist qvs lens LOK LENS c Hc).
      reflexivity.
Qed.

End Prefetch.

(* 5000 symbols below 60: 3 levels, 3 pushes per vector; u8 *)
Definition pf_ex_seq : list N := map (fun i => (i * i * 7 + 3 * i) mod 60) (seqN 0 5000).
Definition pf_ex_queries : list (N * N) :=
  [(10, 5000); (54, 3000); (0, 2048); (0, 2049); (3, 4097); (58, 1); (25, 4096); (25, 4999); (33, 0);
   (60, 10); (7, 5001)].
Definition pf_ex_checks (bsize : N) : Prop :=
  match qwt_new 8 bsize pf_ex_seq, qwt_pfs_new 8 pf_ex_seq with
  | Val t, Val pfs =>
      q_n_levels t = 3 /\ len pfs = 3 /\
      map (fun '(c, i) => qwt_rank_prefetch_pfs 8 bsize t pfs c i) pf_ex_queries =
      map (fun '(c, i) => qwt_rank 8 bsize t c i) pf_ex_queries /\
      map (fun '(c, i) => qwt_rank 8 bsize t c i) pf_ex_queries =
      map (fun '(c, i) => if (i <=? 5000) && (c <=? maxN pf_ex_seq) then Val (Some (rank_spec pf_ex_seq c i)) else Val None)
          pf_ex_queries /\
      (* the estimation itself returns a value *)
      map (fun '(c, i) => is_val (qwt_pfs_estimate 8 t pfs c i)) [(10, 5000); (25, 4096); (0, 2048)] = [true; true; true]
  | _, _ => False
  end.
Example pf_example_256 : pf_ex_checks 256.
Proof. vm_compute. repeat split; reflexivity. Qed.
Example pf_example_512 : pf_ex_checks 512.
Proof. vm_compute. repeat split; reflexivity. Qed.

(* Huffman-shaped: 7500 symbols, levels of 7500 and 2500 symbols *)
Definition pf_hex_seq : list N := concat (repeat hq_ex_seq 250).
Definition pf_hex_queries : list (N * N) :=
  [(0, 7500); (2, 4096); (2, 4097); (5, 2048); (9, 7500); (0, 6145); (1, 10); (0, 7501)].
Example pf_hex_example :
  match hq_build 256 pf_hex_seq hq_ex_tab, hq_pfs_new pf_hex_seq hq_ex_tab with
  | Val t, Val pfs =>
      h_lens t = [7500; 2500] /\ len pfs = 2 /\
      map (fun '(c, i) => hq_rank_prefetch_pfs 256 t pfs c i) pf_hex_queries =
      map (fun '(c, i) => hq_rank 256 t c i) pf_hex_queries /\
      hq_rank 256 t 0 7500 = Val (Some 1250) /\
      map (fun '(c, i) => is_val (hq_pfs_estimate t pfs c i)) [(0, 7500); (2, 4096)] = [true; true]
  | _, _ => False
  end.
Proof. vm_compute. repeat split; reflexivity. Qed.

Print Assumptions pfs_new_ok.
Print Assumptions pfs_approx_rank_mono.
Print Assumptions pfs_approx_rank_out_of_range.
Print Assumptions pfs_empty_level_panics.
Print Assumptions pfs_len_in_range.
Print Assumptions qwt_pfs_new_total.
Print Assumptions qwt_rank_prefetch_pfs_correct.
Print Assumptions hq_pfs_new_total.
Print Assumptions hq_rank_prefetch_pfs_correct.
Print Assumptions pfs_val_above_rank.
Print Assumptions npush_boundary.
Print Assumptions npush_count.
Print Assumptions pf_example_256.
Print Assumptions pf_example_512.
Print Assumptions pf_hex_example.
