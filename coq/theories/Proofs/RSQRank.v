(* rank, occs and get of the RSQVector model against the list specification, from the
   closed form of the directory ([dir_ok], Proofs/RSQBuild.v) and the quad vector invariant. *)
From Coq Require Import ZArith Lia ZifyBool ZifyN ZifyNat.
From QwtModel Require Import ListX Seq Consts QVec RSQ ListXP NBits ConstsOk QVecP RSQBits RSQWord RSQList RSQBuild.

Lemma dir_sb bsize s rs j : dir_ok bsize s rs -> j <= len s / (8 * bsize) ->
  nthN (rs_superblocks rs) j = Some (W bsize s (len s + bsize) j).
Proof. intros (_ & H & _) Hj. now apply H. Qed.

Lemma rss_rank_block_ok bsize s rs c i : bsz bsize -> len s < RSQ_MAXN -> dir_ok bsize s rs -> c <= 3 ->
  i <= len s -> rss_rank_block bsize rs c i = Val (rk s c (i / bsize * bsize)).
Proof.
  intros Hb Hn Hd Hc Hi. pose proof (bsz_pos _ Hb) as HB. pose proof (maxn_lt_43 _ Hn) as H43.
  unfold rss_rank_block, rss_superblock_index, rss_block_index.
  replace (c <=? 3) with true by lia. cbn [odebug_assert bind].
  rewrite RS_BLOCKS_IN_SB_val, RANK_BLOCK_MASK_val, land7, (N.mul_comm bsize 8).
  unfold uidx. rewrite (dir_sb bsize s rs _ Hd) by (apply N.div_le_mono; lia). cbn [bind]. unfold W.
  pose proof (N.mod_lt (i / bsize) 8 ltac:(discriminate)) as Hb8.
  rewrite sb_get_rank_rec; [|exact Hc|now apply fld_bound|lia|now apply rk_lt44].
  f_equal. pose proof (blk_pos bsize (i / bsize)) as E. rewrite <- sb_div in E by exact HB.
  destruct (N.eqb_spec ((i / bsize) mod 8) 0) as [Hz|Hnz].
  - rewrite Hz, N.mul_0_l, N.add_0_r in E. rewrite E. apply N.add_0_r.
  - rewrite fld_set, E.
    + pose proof (rk_mono s c (i / (8 * bsize) * (8 * bsize)) (i / bsize * bsize)
                    ltac:(rewrite <- E; apply N.le_add_r)). lia.
    + exact HB.
    + rewrite sb_div, div_add_blk by exact HB. pose proof (N.div_le_mono i (len s) bsize ltac:(lia) Hi). lia.
Qed.

Lemma line_rank_ok d c x : c <= 3 -> x <= 256 -> line_rank_unchecked d c x = Val (rk d c x).
Proof.
  intros Hc Hx. unfold line_rank_unchecked. rewrite LINE_SYMS_val.
  replace (c <=? 3) with true by lia. replace (x <=? 256) with true by lia. reflexivity.
Qed.

Lemma line_rank_opt (data : list (list N)) j c x : c <= 3 -> x <= 256 ->
  match nthN data j with Some d => line_rank_unchecked d c x | None => Val 0 end =
  Val (match nthN data j with Some d => rk d c x | None => 0 end).
Proof. intros Hc Hx. destruct (nthN data j); [now apply line_rank_ok|reflexivity]. Qed.

Lemma rsq_rank_intra_ok bsize q s rs os c i : bsz bsize -> qvb_inv q s -> c <= 3 -> i <= len s ->
  rsq_rank_intra_block bsize (mk_rsq q rs os) c i = Val (rk s c i - rk s c (i / bsize * bsize)).
Proof.
  intros Hb Hq Hc Hi. unfold rsq_rank_intra_block. cbn [rsq_qv].
  replace (c <=? 3) with true by lia. cbn [odebug_assert bind].
  destruct Hb as [-> | ->].
  - change (256 =? 256) with true. cbv iota. rewrite shiftr8, land255, line_rank_opt by lia. f_equal.
    pose proof (qvb_rk_line q s c (i / 256) (i mod 256) Hq) as L.
    rewrite <- N.div_mod in L by discriminate. rewrite (N.mul_comm _ 256), L by lia. lia.
  - (* the block is the two lines j and j + 1; the second is read only for offsets beyond 256 *)
    change (512 =? 256) with false. cbv iota. rewrite shiftr9, land511.
    assert (E : i = 256 * (i / 512 * 2) + i mod 512) by lia.
    replace (i / 512 * 512) with (256 * (i / 512 * 2)) by lia.
    assert (Ho : i mod 512 < 512) by lia.
    revert E Ho. generalize (i mod 512) as off, (i / 512 * 2) as j. intros off j E Ho.
    destruct (N.leb_spec off 256) as [Hle|Hgt].
    + replace (256 <? off) with false by lia. rewrite line_rank_opt by lia. cbn [bind]. f_equal.
      pose proof (qvb_rk_line q s c j off Hq Hle ltac:(lia)) as L. rewrite <- E in L. lia.
    + replace (256 <? off) with true by lia. rewrite !line_rank_opt by lia. cbn [bind]. f_equal.
      pose proof (qvb_rk_line q s c j 256 Hq ltac:(lia) ltac:(lia)) as L1.
      pose proof (qvb_rk_line q s c (j + 1) (off - 256) Hq ltac:(lia) ltac:(lia)) as L2.
      replace (256 * (j + 1) + (off - 256)) with i in L2 by lia.
      replace (256 * (j + 1)) with (256 * j + 256) in L2 by lia. lia.
Qed.

Lemma rsq_rank_unchecked_ok bsize q s rs os c i : bsz bsize -> len s < RSQ_MAXN -> qvb_inv q s ->
  dir_ok bsize s rs ->
  c <= 3 -> i <= len s -> rsq_rank_unchecked bsize (mk_rsq q rs os) c i = Val (rk s c i).
Proof.
  intros Hb Hn Hq Hd Hc Hi. unfold rsq_rank_unchecked. replace (c <=? 3) with true by lia.
  cbn [odebug_assert bind rsq_rs]. rewrite (rss_rank_block_ok bsize s rs c i Hb Hn Hd Hc Hi). cbn [bind].
  rewrite (rsq_rank_intra_ok bsize q s rs os c i Hb Hq Hc Hi). cbn [bind]. f_equal.
  pose proof (rk_mono s c _ i (div_mul_le i bsize)). lia.
Qed.

Lemma rsq_rank_ok bsize q s rs os c i : bsz bsize -> len s < RSQ_MAXN -> qvb_inv q s -> dir_ok bsize s rs ->
  rsq_rank bsize (mk_rsq q rs os) c i =
  Val (if (c <=? 3) && (i <=? len s) then Some (rank_spec s c i) else None).
Proof.
  intros Hb Hn Hq Hd. unfold rsq_rank, rsq_len. cbn [rsq_qv]. rewrite (qv_len_inv q s Hq).
  destruct (N.leb_spec c 3) as [Hc|Hc]; [|now replace (3 <? c) with true by lia].
  replace (3 <? c) with false by lia. cbn [orb andb].
  destruct (N.leb_spec i (len s)) as [Hi|Hi]; [|now replace (len s <? i) with true by lia].
  replace (len s <? i) with false by lia.
  rewrite (rsq_rank_unchecked_ok bsize q s rs os c i Hb Hn Hq Hd Hc Hi). cbn [bind].
  now rewrite rank_spec_rk.
Qed.

Lemma count_lt_2 l : count_lt 2 l = countN 0 l + countN 1 l.
Proof. pose proof (count_lt_succ 1 l) as H. change (1 + 1) with 2 in H. rewrite count_lt_1 in H. lia. Qed.
Lemma count_lt_3 l : count_lt 3 l = countN 0 l + countN 1 l + countN 2 l.
Proof. pose proof (count_lt_succ 2 l) as H. change (2 + 1) with 3 in H. rewrite count_lt_2 in H. lia. Qed.

Lemma count_lt_4 l : count_lt 4 l = countN 0 l + countN 1 l + countN 2 l + countN 3 l.
Proof. pose proof (count_lt_succ 3 l) as H. change (3 + 1) with 4 in H. rewrite count_lt_3 in H. lia. Qed.

Lemma occs_smaller_idx s c : c <= 4 -> idx (occs_smaller_of s) c = Val (count_lt c s).
Proof.
  intros Hc. unfold occs_smaller_of.
  assert (C : c = 0 \/ c = 1 \/ c = 2 \/ c = 3 \/ c = 4) by lia.
  destruct C as [->|[->|[->|[->| ->]]]].
  - now rewrite count_lt_0.
  - now rewrite count_lt_1.
  - now rewrite count_lt_2.
  - now rewrite count_lt_3.
  - now rewrite count_lt_4.
Qed.

Lemma rsq_occs_smaller_unchecked_ok q rs s c : c <= 3 ->
  rsq_occs_smaller_unchecked (mk_rsq q rs (occs_smaller_of s)) c = Val (count_lt c s).
Proof.
  intros Hc. unfold rsq_occs_smaller_unchecked. cbn [rsq_occs_smaller].
  replace (c <=? 3) with true by lia. cbn [odebug_assert bind]. apply occs_smaller_idx. lia.
Qed.

Lemma rsq_occs_unchecked_ok q rs s c : c <= 3 ->
  rsq_occs_unchecked (mk_rsq q rs (occs_smaller_of s)) c = Val (countN c s).
Proof.
  intros Hc. unfold rsq_occs_unchecked. cbn [rsq_occs_smaller].
  replace (c <=? 3) with true by lia. cbn [odebug_assert bind].
  rewrite N.mod_small, !occs_smaller_idx by lia. cbn [bind]. rewrite count_lt_succ.
  unfold osub. replace (_ <=? _) with true by lia. f_equal. lia.
Qed.

Lemma rsq_occs_ok q rs s c :
  rsq_occs (mk_rsq q rs (occs_smaller_of s)) c = Val (if c <=? 3 then Some (countN c s) else None).
Proof.
  unfold rsq_occs. destruct (N.leb_spec c 3) as [Hc|Hc]; [|now replace (3 <? c) with true by lia].
  replace (3 <? c) with false by lia. now rewrite rsq_occs_unchecked_ok.
Qed.

Lemma rsq_occs_smaller_ok q rs s c :
  rsq_occs_smaller_q (mk_rsq q rs (occs_smaller_of s)) c = Val (if c <=? 3 then Some (count_lt c s) else None).
Proof.
  unfold rsq_occs_smaller_q. destruct (N.leb_spec c 3) as [Hc|Hc]; [|now replace (3 <? c) with true by lia].
  replace (3 <? c) with false by lia. now rewrite rsq_occs_smaller_unchecked_ok.
Qed.
