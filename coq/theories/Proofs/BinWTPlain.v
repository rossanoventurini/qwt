(* The queries of the plain binary wavelet tree, on a tree whose levels satisfy [btree_ok] over
   the digit lists of the generic wavelet matrix (arity 2, digit [bdig L]): get / rank / select
   and their unchecked twins answer like the list specification. *)
From Coq Require Import ZArith Lia ZifyBool ZifyN ZifyNat.
From QwtModel Require Import ListX Seq QWT BitVec RSBin Huff ListXP RSQList.
From QwtModel Require Import WaveletMatrix QWTArith HQWTWalks BinWTBase BinWTWalks BinWTBuild.

Section Plain.
Variables (w : N) (L : nat) (s : list N) (bvs : list rswide) (lens : list N).
Hypothesis HT : btree_ok (fun j => bD L j s) L bvs lens.
Hypothesis HL : (0 < L)%nat.
Hypothesis Hw : N.of_nat L <= w.
Hypothesis Hne : 0 < len s.
Hypothesis Hxw : forall x, In x s -> x < 2 ^ w.
Hypothesis Hm : maxN s < 2 ^ N.of_nat L.
Set Default Proof Using "All".

Notation dg := (bdig L).
Notation Ds := (fun j => bD L j s).
Notation t := (mk_bwt (len s) (N.of_nat L) (Some (maxN s)) None None bvs lens).

Lemma LOK : forall l, (l < L)%nat -> exists r, nthN bvs (N.of_nat l) = Some r /\ lvl_spec r (Ds l).
Proof. intros l Hl. exact (proj1 (HT l Hl)). Qed.

Lemma LVs_wm l0 n : map Ds (seq l0 n) = wm_levels N 2 dg l0 n s.
Proof. symmetry. apply (wm_levels_map 2 dg s n l0). Qed.

Lemma DGs_wm c m : map (fun l => dg l c) (seq 0 m) = digits_of N dg 0 m c.
Proof. reflexivity. Qed.

Lemma Hx2 x : In x s -> x < 2 ^ N.of_nat L.
Proof. intros Hx. pose proof (maxN_ge s x Hx). lia. Qed.

Lemma BIT c repr : forall l, (l < L)%nat ->
  wt_bit_at w false c repr (N.of_nat L) (N.of_nat l) = Val (dg l c =? 1) /\ dg l c < 2.
Proof.
  intros l Hl. split; [|apply bdig_lt2]. unfold wt_bit_at, osub.
  destruct (N.leb_spec (N.of_nat l + 1) (N.of_nat L)); [|lia]. cbn [bind].
  replace (N.of_nat L - (N.of_nat l + 1)) with (N.of_nat (L - 1 - l)) by lia.
  rewrite one_bit_bdig by lia. reflexivity.
Qed.

Lemma rank_final c i : i <= len s ->
  wt_rank_unchecked w false t c i = Val (len (filter (pre N dg L c) (firstnN i s))).
Proof.
  intros Hi. unfold wt_rank_unchecked. cbn [w_n_levels w_bvs bind]. rewrite Nnat.Nat2N.id.
  pose proof (wt_rank_walk_ok w bvs Ds L LOK false c 0 (N.of_nat L) (fun l => dg l c) L (le_n _)
                (BIT c 0) L 0%nat 0 i (le_n _)) as W.
  change (N.of_nat 0) with 0 in W. rewrite W; clear W.
  - rewrite LVs_wm, DGs_wm.
    pose proof (wm_rank_correct N 2 dg (bdig_lt L) L s c i Hi) as HC. cbv zeta in HC.
    destruct (rank_walk _ _ 0 i) as [p' i']. cbn [fst snd] in HC. destruct HC as (H1 & H2 & H3).
    cbn [bind]. unfold osub. destruct (N.leb_spec p' i'); [|lia]. now rewrite H3.
  - intros m Hmm. rewrite LVs_wm, DGs_wm.
    pose proof (wm_rank_correct N 2 dg (bdig_lt L) m s c i Hi) as HC. cbv zeta in HC.
    rewrite bD_len. lia.
Qed.

Lemma wt_rank_unchecked_ok c i : c <= maxN s -> i <= len s ->
  wt_rank_unchecked w false t c i = Val (rank_spec s c i).
Proof.
  intros Hc Hi. rewrite (rank_final c i Hi). f_equal.
  rewrite (filter_ext_in _ (fun x => x =? c)).
  - rewrite len_filter_eqb, rank_spec_rk. reflexivity.
  - intros x Hx. apply bpre_eq; [|lia]. apply Hx2. eapply In_firstnN. exact Hx.
Qed.

Lemma wt_get_unchecked_ok i x : nthN s i = Some x -> wt_get_unchecked w false t i = Val x.
Proof.
  intros Hi. assert (Hx : In x s) by exact (nthN_In _ _ _ Hi).
  pose proof (nthN_some_lt _ _ _ Hi) as Hlt.
  unfold wt_get_unchecked. cbn [w_n_levels]. rewrite Nnat.Nat2N.id.
  pose proof (wt_get_walk_false w bvs Ds L LOK t eq_refl L 0%nat i 0 0 0 (le_n _)) as G.
  change (N.of_nat 0) with 0 in G. rewrite G; clear G.
  - cbn [bind]. rewrite LVs_wm, (wm_get_correct N 2 dg (bdig_lt L) L s i x Hi).
    rewrite (accw_fold w L x (Hxw x Hx) (Hx2 x Hx) L (le_n _)), Nat.sub_diag.
    change (2 ^ N.of_nat 0) with 1. now rewrite N.div_1_r.
  - rewrite LVs_wm, <- get_walk_pos_length.
    exact (proj1 (get_walk_positions N 2 dg (bdig_lt L) L s i Hlt)).
Qed.

Lemma wt_select_ok c k : c <= maxN s ->
  wt_select w false t c k = Val (select_spec s c k).
Proof.
  intros Hc. unfold wt_select, wt_valid. cbn [w_n w_sigma w_n_levels w_bvs ounwrap bind].
  destruct (N.eqb_spec (len s) 0); [lia|]. destruct (N.ltb_spec (maxN s) c); [lia|]. cbn [bind].
  rewrite Nnat.Nat2N.id.
  assert (HB : Forall2 (fun '(b, rb) l => b <= len (Ds l) /\ rb <= b)
            (select_down (map Ds (seq 0 L)) (map (fun l => dg l c) (seq 0 L)) 0) (seq 0 L)).
  { rewrite LVs_wm, DGs_wm.
    pose proof (select_down_bounds N 2 dg (bdig_lt L) L s c) as HB.
    assert (HLen : length (select_down (wm_levels N 2 dg 0 L s) (digits_of N dg 0 L c) 0) = L).
    { rewrite select_down_length; rewrite <- LVs_wm, map_length, seq_length; [reflexivity|].
      unfold digits_of. now rewrite map_length, seq_length. }
    set (SD := select_down (wm_levels N 2 dg 0 L s) (digits_of N dg 0 L c) 0) in *.
    replace (seq 0 L) with (seq 0 (length SD)) by now rewrite HLen.
    apply (Forall_Forall2_seq (fun '(b, rb) => b <= len s /\ rb <= b)); [exact HB|].
    intros [b rb] j Hbr. now rewrite bD_len. }
  pose proof (wt_select_walks_ok w bvs Ds L LOK false c 0 (N.of_nat L) (fun l => dg l c) L (le_n _) (BIT c 0) k HB) as W.
  cbv zeta in W. cbv zeta. rewrite W. clear W HB.
  rewrite LVs_wm, DGs_wm.
  rewrite (wm_select_correct N 2 dg (bdig_lt L) L s c k HL). f_equal.
  unfold select_spec. apply select_pred_eqb. intros x Hx. apply bpre_eq; [now apply Hx2|lia].
Qed.

Lemma wt_select_big c k : maxN s < c -> wt_select w false t c k = Val None.
Proof.
  intros Hc. unfold wt_select, wt_valid. cbn [w_n w_sigma ounwrap bind].
  destruct (N.eqb_spec (len s) 0); [lia|]. destruct (N.ltb_spec (maxN s) c); [|lia]. reflexivity.
Qed.

Lemma wt_rank_ok c i :
  wt_rank w false t c i =
  Val (if (i <=? len s) && (c <=? maxN s) then Some (rank_spec s c i) else None).
Proof.
  unfold wt_rank, wt_valid. cbn [w_n w_sigma w_n_levels ounwrap bind].
  destruct (N.eqb_spec (len s) 0); [lia|]. cbn [orb].
  destruct (N.ltb_spec (len s) i), (N.leb_spec i (len s)); try lia; cbn [andb]; [reflexivity|].
  destruct (N.ltb_spec (maxN s) c), (N.leb_spec c (maxN s)); try lia; cbn [bind]; [reflexivity|].
  rewrite wt_rank_unchecked_ok by assumption. reflexivity.
Qed.

Lemma wt_get_ok i : wt_get w false t i = Val (nthN s i).
Proof.
  unfold wt_get. cbn [w_n]. destruct (N.leb_spec (len s) i) as [Hi|Hi].
  - now rewrite nthN_none.
  - destruct (nthN_lt_some s i Hi) as (x & Ex). rewrite Ex, (wt_get_unchecked_ok i x Ex). reflexivity.
Qed.

End Plain.
