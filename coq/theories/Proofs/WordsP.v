(* Correctness of the word-level leaf functions of Model/Words.v: popcount, popcnt_wide, msb,
   the in-byte select table and the broadword select (Vigna) on u64 / u128.
   Every statement is for ALL inputs.  A word is the list of its bytes ([dv]); what a SWAR step does to
   one byte is established by complete enumeration of the 256 byte values (vm_compute of a forallb,
   lifted by forallb_forall) and carried over to the word by induction on the list of bytes. *)
From Coq Require Import ZArith Lia ZifyBool ZifyN ZifyNat.
From QwtModel Require Import ListX Consts SelTable Seq Words ListXP NBits OutcomeP BitsLib SeqP.
Arguments N.log2 : simpl never.

Lemma forall_below (P : N -> bool) (n : nat) :
  forallb P (seqN 0 n) = true -> forall b, b < N.of_nat n -> P b = true.
Proof.
  intros H b Hb. rewrite forallb_forall in H. apply H. apply in_seqN. lia.
Qed.

Lemma pow2_pos k : 0 < 2 ^ k.
Proof. exact (NBits.pow2_pos k). Qed.

Lemma bits_of_app n m x :
  bits_of (n + m) x = bits_of n (x mod 2 ^ N.of_nat n) ++ bits_of m (x / 2 ^ N.of_nat n).
Proof.
  unfold bits_of. rewrite seqN_app, map_app. f_equal.
  - apply map_ext_in. intros i Hi. apply in_seqN in Hi.
    rewrite N.mod_pow2_bits_low by lia. reflexivity.
  - rewrite seqN_shift, map_map. apply map_ext. intros i.
    rewrite N.div_pow2_bits. reflexivity.
Qed.

Lemma split_mod k a x : a < 2 ^ k -> (a + 2 ^ k * x) mod 2 ^ k = a.
Proof.
  intros H. rewrite (N.mul_comm (2 ^ k)), N.mod_add by apply pow2_nz. now apply N.mod_small.
Qed.
Lemma split_div k a x : a < 2 ^ k -> (a + 2 ^ k * x) / 2 ^ k = x.
Proof.
  intros H. rewrite (N.mul_comm (2 ^ k)), N.div_add by apply pow2_nz.
  rewrite N.div_small by assumption. lia.
Qed.

Lemma bits_of_split n m a x : a < 2 ^ N.of_nat n ->
  bits_of (n + m) (a + 2 ^ N.of_nat n * x) = bits_of n a ++ bits_of m x.
Proof. intros H. rewrite bits_of_app, split_mod, split_div by assumption. reflexivity. Qed.

Lemma popcount_b2 b y : b < 2 -> popcount (b + 2 * y) = b + popcount y.
Proof.
  intros H. assert (Hb : b = 0 \/ b = 1) by lia.
  destruct Hb as [-> | ->]; destruct y; reflexivity.
Qed.

Lemma popcount_step x : popcount x = x mod 2 + popcount (x / 2).
Proof.
  rewrite <- popcount_b2 by (apply N.mod_lt; discriminate).
  f_equal. rewrite N.add_comm. apply N.div_mod. discriminate.
Qed.

Theorem popcount_correct : forall n x, x < 2 ^ N.of_nat n -> popcount x = countN 1 (bits_of n x).
Proof. intros n x Hx. rewrite bits_of_bools_of, countN_b2n. now apply popcount_bools_of. Qed.

Lemma popcount_split (k : nat) a x : a < 2 ^ N.of_nat k ->
  popcount (a + 2 ^ N.of_nat k * x) = popcount a + popcount x.
Proof.
  revert a. induction k as [|k IH]; intros a Ha.
  - change (2 ^ N.of_nat 0) with 1 in *. replace a with 0 by lia. now rewrite N.mul_1_l.
  - rewrite pow2_of_nat_S in *. rewrite (popcount_step a).
    replace (a + 2 * 2 ^ N.of_nat k * x) with (a mod 2 + 2 * (a / 2 + 2 ^ N.of_nat k * x)) by lia.
    rewrite popcount_b2, IH by lia. lia.
Qed.

Lemma popcount_byte_le b : b < 256 -> popcount b <= 8.
Proof. exact (popcount_le_bits 8 b). Qed.

Theorem popcnt_wide_correct : forall n data, popcnt_wide n data = sumN (map popcount (firstn n data)).
Proof. reflexivity. Qed.

Theorem popcnt_wide_bits : forall n data, Forall (fun x => x < 2 ^ 64) data ->
  popcnt_wide n data = countN 1 (concat (map (bits_of 64) (firstn n data))).
Proof.
  intros n data H. unfold popcnt_wide.
  assert (HF : Forall (fun x => x < 2 ^ 64) (firstn n data)).
  { clear -H. revert n. induction H as [|x l Hx HF IH]; intros [|n]; cbn [firstn]; auto. }
  induction HF as [|x l Hx HF IH]; [reflexivity|].
  cbn [map sumN concat]. rewrite countN_app, IH. f_equal.
  apply popcount_correct. exact Hx.
Qed.

Theorem msb_w_correct : forall w v, 0 < w -> v < 2 ^ w ->
  msb_w w v = Val (if v =? 0 then 0 else N.log2 v) /\ (v <> 0 -> 2 ^ N.log2 v <= v < 2 ^ (N.log2 v + 1)).
Proof.
  intros w v Hw Hv. split.
  - unfold msb_w. destruct (N.eqb_spec v 0) as [->|Hn]; [reflexivity|].
    assert (Hl : N.log2 v < w) by (apply N.log2_lt_pow2; lia).
    rewrite osub_ok by lia. f_equal. lia.
  - intros Hn. rewrite N.add_1_r. apply N.log2_spec. lia.
Qed.

Lemma select_from_bounds l c k pos p : select_from l c k pos = Some p -> pos <= p < pos + len l.
Proof.
  rewrite select_from_shift. fold (select_spec l c k). destruct (select_spec l c k) as [q|] eqn:E; [|discriminate].
  intros [= <-]. apply select_spec_some_lt in E. lia.
Qed.

Lemma select_spec_bounds l c k p : select_spec l c k = Some p -> p < len l.
Proof. apply select_spec_some_lt. Qed.

Definition sel8 (b r : N) : N :=
  match select_spec (bits_of 8 b) 1 r with Some p => p | None => 8 end.

(* The table holds one row of 256 bytes for each rank.  Both sides are evaluated once and compared
   entry by entry; looking up each of the 2048 indices with nthN would walk the table 2048 times. *)
Lemma sel_table_rows : sel_table = concat (map (fun r => map (fun b => sel8 b r) (seqN 0 256)) (seqN 0 8)).
Proof. vm_compute. reflexivity. Qed.

Lemma sel_table_ok : forall b r, b < 256 -> r < 8 ->
  nthN sel_table (b + 256 * r) = Some (match select_spec (bits_of 8 b) 1 r with Some p => p | None => 8 end).
Proof.
  intros b r Hb Hr. rewrite sel_table_rows, (nthN_concat_uniform 256); [|reflexivity|].
  - replace ((b + 256 * r) / 256) with r by lia. replace ((b + 256 * r) mod 256) with b by lia.
    rewrite nthN_map, nthN_seqN. destruct (N.ltb_spec r (N.of_nat 8)); [|lia]. cbn [option_map].
    rewrite nthN_map, nthN_seqN. destruct (N.ltb_spec b (N.of_nat 256)); [|lia].
    rewrite !N.add_0_l. reflexivity.
  - apply Forall_map, Forall_forall. intros r' _. now rewrite len_map, len_seqN.
Qed.

Lemma sel8_some b r : b < 256 -> r < popcount b ->
  exists p, select_spec (bits_of 8 b) 1 r = Some p /\ p < 8.
Proof.
  intros Hb Hr. destruct (select_spec_lt (bits_of 8 b) 1 r) as (p & Ep).
  { now rewrite <- (popcount_correct 8). }
  exists p. split; [exact Ep|]. apply select_spec_bounds in Ep. now rewrite len_bits_of in Ep.
Qed.

Lemma testbit_split k a x n : a < 2 ^ k ->
  N.testbit (a + 2 ^ k * x) n = if n <? k then N.testbit a n else N.testbit x (n - k).
Proof.
  intros Ha. destruct (N.ltb_spec n k) as [Hn|Hn].
  - rewrite <- (N.mod_pow2_bits_low (a + 2 ^ k * x) k n) by assumption.
    now rewrite split_mod.
  - replace n with ((n - k) + k) at 1 by lia. rewrite <- N.div_pow2_bits.
    now rewrite split_div.
Qed.

Lemma land_split k a b x y : a < 2 ^ k -> b < 2 ^ k ->
  N.land (a + 2 ^ k * x) (b + 2 ^ k * y) = N.land a b + 2 ^ k * N.land x y.
Proof.
  intros Ha Hb. apply N.bits_inj. intros n.
  rewrite N.land_spec, !testbit_split by auto using land_lt_r.
  rewrite !N.land_spec. destruct (n <? k); reflexivity.
Qed.

Lemma land_split8 a b x y : a < 256 -> b < 256 ->
  N.land (a + 256 * x) (b + 256 * y) = N.land a b + 256 * N.land x y.
Proof. exact (land_split 8 a b x y). Qed.

Lemma lor_disjoint a b : N.land a b = 0 -> N.lor a b = a + b.
Proof. intros H. rewrite N.add_nocarry_lxor by assumption. symmetry. now apply N.lxor_lor. Qed.

Lemma lor_low8 a y : a < 256 -> N.lor a (256 * y) = a + 256 * y.
Proof. intros Ha. rewrite N.lor_comm, N.add_comm, (N.mul_comm 256). exact (lor_add y 8 a Ha). Qed.

Lemma land_low4 a y : a < 16 -> N.land (a + 16 * y) 15 = a.
Proof.
  intros Ha. pose proof (land_split 4 a 15 y 0 Ha eq_refl) as H.
  change (2 ^ 4) with 16 in H. rewrite N.mul_0_r, N.add_0_r, N.land_0_r, N.mul_0_r, N.add_0_r in H.
  rewrite H. change 15 with (N.ones 4). rewrite N.land_ones. apply N.mod_small. exact Ha.
Qed.

Lemma shiftr_mul c s x : c = 2 ^ s -> N.shiftr (c * x) s = x.
Proof. intros ->. rewrite N.shiftr_div_pow2, N.mul_comm. apply N.div_mul, pow2_nz. Qed.

Fixpoint dv (l : list N) : N :=
  match l with [] => 0 | a :: r => a + 256 * dv r end.

Lemma dv_lt l : Forall (fun a => a < 256) l -> dv l < 256 ^ len l.
Proof.
  induction 1 as [|a l Ha HF IH]; [reflexivity|].
  cbn [dv]. rewrite len_cons, N.pow_add_r. change (256 ^ 1) with 256. nia.
Qed.

Lemma dv_scale c (f : N -> N) l : dv (map (fun a => c * f a) l) = c * dv (map f l).
Proof. induction l as [|a l IH]; cbn [map dv]; [lia|]. rewrite IH. lia. Qed.
Lemma dv_plus (f g : N -> N) l : dv (map (fun a => f a + g a) l) = dv (map f l) + dv (map g l).
Proof. induction l as [|a l IH]; cbn [map dv]; [reflexivity|]. rewrite IH. lia. Qed.
Lemma dv_rep_sub c l : Forall (fun p => p <= c) l ->
  dv (repeat c (length l)) = dv l + dv (map (fun p => c - p) l).
Proof. induction 1 as [|p l Hp HF IH]; cbn [length repeat map dv]; [reflexivity|]. rewrite IH. lia. Qed.

Lemma dv_land_rep m n l : m < 256 -> length l = n -> Forall (fun a => a < 256) l ->
  N.land (dv l) (dv (repeat m n)) = dv (map (fun a => N.land a m) l).
Proof.
  intros Hm <- HF. induction HF as [|a l Ha HF IH]; [reflexivity|].
  cbn [length repeat dv map]. rewrite land_split8, IH by assumption. reflexivity.
Qed.

Lemma map_bytes (f g : N -> N) l : Forall (fun a => a < 256) l ->
  (forall a, a < 256 -> f a = g a) -> map f l = map g l.
Proof. intros HF H. apply map_ext_Forall. revert HF. apply Forall_impl. exact H. Qed.
Lemma dv_map_lt (f : N -> N) l : Forall (fun a => a < 256) l ->
  (forall a, a < 256 -> f a < 256) -> dv (map f l) < 256 ^ len l.
Proof.
  intros HF H. rewrite <- (len_map f). apply dv_lt, Forall_map. revert HF. apply Forall_impl. exact H.
Qed.

Lemma dv_nth l : forall t, Forall (fun a => a < 256) l ->
  N.land (N.shiftr (dv l) (N.of_nat t * 8)) 255 = nth t l 0.
Proof.
  induction l as [|a l IH]; intros t HF.
  - cbn [dv]. rewrite N.shiftr_0_l. now destruct t.
  - inversion HF as [|? ? Ha HF']; subst. destruct t as [|t]; cbn [nth dv].
    + change (N.of_nat 0 * 8) with 0. rewrite N.shiftr_0_r, land255. exact (split_mod 8 a _ Ha).
    + replace (N.of_nat (S t) * 8) with (8 + N.of_nat t * 8) by lia.
      rewrite <- N.shiftr_shiftr, (N.shiftr_div_pow2 _ 8), (split_div 8) by assumption. now apply IH.
Qed.

Lemma popcount_dv l : Forall (fun a => a < 256) l -> popcount (dv l) = sumN (map popcount l).
Proof.
  induction 1 as [|a l Ha HF IH]; [reflexivity|].
  cbn [dv map sumN]. rewrite (popcount_split 8) by assumption. now rewrite IH.
Qed.

Lemma bits_of_dv l : Forall (fun a => a < 256) l ->
  bits_of (8 * length l) (dv l) = concat (map (bits_of 8) l).
Proof.
  induction 1 as [|a l Ha HF IH]; [reflexivity|].
  cbn [dv map concat length]. replace (8 * S (length l))%nat with (8 + 8 * length l)%nat by lia.
  rewrite (bits_of_split 8) by assumption. now rewrite IH.
Qed.

Lemma countN_bytes l : Forall (fun a => a < 256) l ->
  countN 1 (concat (map (bits_of 8) l)) = sumN (map popcount l).
Proof.
  induction 1 as [|a l Ha HF IH]; [reflexivity|].
  cbn [map concat sumN]. rewrite countN_app, IH, <- (popcount_correct 8) by exact Ha. reflexivity.
Qed.

Lemma bytes_of_word n : forall w, w < 256 ^ N.of_nat n ->
  exists l, length l = n /\ Forall (fun a => a < 256) l /\ w = dv l.
Proof.
  induction n as [|n IH]; intros w Hw.
  - exists []. change (256 ^ N.of_nat 0) with 1 in Hw. repeat split; [constructor|cbn [dv]; lia].
  - destruct (IH (w / 256)) as (l & Hl & HF & E).
    { replace (N.of_nat (S n)) with (1 + N.of_nat n) in Hw by lia.
      rewrite N.pow_add_r in Hw. change (256 ^ 1) with 256 in Hw.
      apply N.div_lt_upper_bound; [discriminate|assumption]. }
    exists (w mod 256 :: l). split; [cbn [length]; lia|]. split.
    + constructor; [apply N.mod_lt; discriminate|assumption].
    + cbn [dv]. rewrite <- E. rewrite N.add_comm. apply N.div_mod. discriminate.
Qed.

(* one byte through the SWAR popcount of select_in_word: be b after the first step (counts of bit pairs),
   bg b after the second (counts of nibbles), blo b and bhi b its two nibbles *)
Definition bh1 (b : N) : N := N.land b 170 / 2.
Definition be (b : N) : N := b - bh1 b.
Definition bq3 (b : N) : N := N.land (be b) 204 / 4.
Definition bg (b : N) : N := N.land (be b) 51 + bq3 b.
Definition blo (b : N) : N := bg b mod 16.
Definition bhi (b : N) : N := bg b / 16.

Definition byte_check (b : N) : bool :=
  (N.land b 170 =? 2 * bh1 b) && (bh1 b <=? b) && (N.land (be b) 204 =? 4 * bq3 b) &&
  (blo b <=? 4) && (bhi b <=? 4) && (blo b + bhi b =? popcount b) &&
  (N.land b 128 =? (if 128 <=? b then 128 else 0)).
Lemma byte_check_all : forallb byte_check (seqN 0 256) = true.
Proof. vm_compute. reflexivity. Qed.

Lemma byte_facts b : b < 256 ->
  N.land b 170 = 2 * bh1 b /\ bh1 b <= b /\ N.land (be b) 204 = 4 * bq3 b /\
  blo b <= 4 /\ bhi b <= 4 /\ blo b + bhi b = popcount b /\
  N.land b 128 = (if 128 <=? b then 128 else 0).
Proof.
  intros Hb. pose proof (forall_below _ 256 byte_check_all b Hb) as H.
  unfold byte_check in H. rewrite !andb_true_iff, !N.eqb_eq, !N.leb_le in H. tauto.
Qed.

Lemma bg_split b : bg b = blo b + 16 * bhi b.
Proof. unfold blo, bhi. lia. Qed.
Lemma bg_lt b : b < 256 -> bg b < 256.
Proof. intros Hb. rewrite bg_split. destruct (byte_facts b Hb) as (_ & _ & _ & ? & ? & _). lia. Qed.

Lemma M1_val : SIW_M1 * K_ONES_STEP4 = dv (repeat 170 8). Proof. reflexivity. Qed.
Lemma M2_val : SIW_M2 * K_ONES_STEP4 = dv (repeat 51 8). Proof. reflexivity. Qed.
Lemma M2'_val : 3 * K_ONES_STEP4 = N.shiftr (dv (repeat 204 8)) 2. Proof. reflexivity. Qed.
Lemma M3_val : SIW_M3 * K_ONES_STEP8 = dv (repeat 15 8). Proof. reflexivity. Qed.
Lemma K8_val : K_ONES_STEP8 = 72340172838076673. Proof. reflexivity. Qed.
Lemma L8_val : K_LAMBDAS_STEP8 = dv (repeat 128 8). Proof. reflexivity. Qed.
Lemma p256_8 : 256 ^ N.of_nat 8 = 2 ^ 64. Proof. reflexivity. Qed.

(* pairs of bits: b = bh1 b + be b with bh1 b the odd bits shifted down *)
Lemma step1 bs : length bs = 8%nat -> Forall (fun a => a < 256) bs ->
  osub (dv bs) (N.shiftr (N.land (dv bs) (SIW_M1 * K_ONES_STEP4)) 1) = Val (dv (map be bs)).
Proof.
  intros Hl HF. rewrite M1_val, (dv_land_rep 170 8) by (assumption || reflexivity).
  rewrite (map_bytes _ (fun a => 2 * bh1 a) bs HF) by (intros a Ha; apply (byte_facts a Ha)).
  rewrite dv_scale, (shiftr_mul 2 1) by reflexivity.
  assert (E : dv (map bh1 bs) + dv (map be bs) = dv bs).
  { rewrite <- dv_plus, (map_bytes _ (fun a => a) bs HF), map_id; [reflexivity|].
    intros a Ha. unfold be. destruct (byte_facts a Ha) as (_ & ? & _). lia. }
  rewrite osub_ok by lia. f_equal. lia.
Qed.

(* nibbles: bg b = (low pair + next pair) in each half of the byte *)
Lemma step2 bs : length bs = 8%nat -> Forall (fun a => a < 256) bs ->
  oadd 64 (N.land (dv (map be bs)) (SIW_M2 * K_ONES_STEP4))
          (N.land (N.shiftr (dv (map be bs)) 2) (3 * K_ONES_STEP4)) = Val (dv (map bg bs)).
Proof.
  intros Hl HF.
  assert (HFe : Forall (fun a => a < 256) (map be bs)).
  { apply Forall_map. revert HF. apply Forall_impl. intros a Ha. unfold be. lia. }
  rewrite M2'_val, <- N.shiftr_land, M2_val.
  rewrite !(dv_land_rep _ 8), !map_map by (reflexivity || assumption || now rewrite map_length).
  rewrite (map_bytes (fun a => N.land (be a) 204) (fun a => 4 * bq3 a) bs HF)
    by (intros a Ha; apply (byte_facts a Ha)).
  rewrite dv_scale, (shiftr_mul 4 2) by reflexivity.
  rewrite oadd_ok; rewrite <- dv_plus; [reflexivity|].
  rewrite <- p256_8, <- Hl. apply (dv_map_lt bg bs HF bg_lt).
Qed.

(* bytes: adding the word to itself shifted by a nibble leaves the popcount of each byte in its low
   nibble; the high nibble receives bhi of this byte and blo of the next one, at most 8, so no carry *)
Lemma nibble_sums bs : Forall (fun a => a < 256) bs ->
  dv (map bg bs) + dv (map bg bs) / 16 < 256 ^ len bs /\
  N.land (dv (map bg bs) + dv (map bg bs) / 16) (dv (repeat 15 (length bs))) = dv (map popcount bs).
Proof.
  induction 1 as [|a l Ha HF IH]; [split; reflexivity|].
  destruct IH as [IH1 IH2]. cbn [map dv length repeat]. set (R := dv (map bg l)) in *.
  assert (HR : R mod 16 <= 4).
  { subst R. destruct HF as [|b l Hb _]; cbn [map dv]; [lia|].
    pose proof (bg_split b). destruct (byte_facts b Hb) as (_ & _ & _ & ? & ? & _). lia. }
  pose proof (bg_split a) as Ea. destruct (byte_facts a Ha) as (_ & _ & _ & Hlo & Hhi & Hpc & _).
  assert (E : bg a + 256 * R + (bg a + 256 * R) / 16 =
              (popcount a + 16 * (bhi a + R mod 16)) + 256 * (R + R / 16)) by lia.
  rewrite E. split.
  - rewrite len_cons, N.pow_add_r. change (256 ^ 1) with 256. lia.
  - rewrite land_split8, IH2, land_low4 by lia. reflexivity.
Qed.

Lemma step3 bs : length bs = 8%nat -> Forall (fun a => a < 256) bs ->
  exists t, oadd 64 (dv (map bg bs)) (N.shiftr (dv (map bg bs)) 4) = Val t /\
            N.land t (SIW_M3 * K_ONES_STEP8) = dv (map popcount bs).
Proof.
  intros Hl HF. destruct (nibble_sums bs HF) as [Hlt Hland].
  unfold len in Hlt. rewrite Hl, p256_8 in Hlt. rewrite Hl in Hland.
  eexists. rewrite N.shiftr_div_pow2. change (2 ^ 4) with 16. rewrite oadd_ok by exact Hlt.
  split; [reflexivity|]. rewrite M3_val. exact Hland.
Qed.

Fixpoint psums (acc : N) (l : list N) : list N :=
  match l with [] => [] | c :: r => (acc + c) :: psums (acc + c) r end.

Lemma psums_app acc l1 l2 : psums acc (l1 ++ l2) = psums acc l1 ++ psums (acc + sumN l1) l2.
Proof.
  revert acc. induction l1 as [|c l1 IH]; intros acc; cbn [app psums sumN].
  - now rewrite N.add_0_r.
  - now rewrite IH, N.add_assoc.
Qed.
Lemma psums_range l : forall acc, Forall (fun p => acc <= p <= acc + sumN l) (psums acc l).
Proof.
  induction l as [|c l IH]; intros acc; cbn [psums sumN]; constructor; [lia|].
  generalize (IH (acc + c)). apply Forall_impl. intros p Hp. lia.
Qed.
Lemma psums_length l : forall acc, length (psums acc l) = length l.
Proof. induction l as [|c l IH]; intros acc; cbn [psums length]; [reflexivity|]. now rewrite IH. Qed.
Lemma psums_nth l1 l2 : forall acc, nth (length l1) (acc :: psums acc (l1 ++ l2)) 0 = acc + sumN l1.
Proof.
  induction l1 as [|c l1 IH]; intros acc; cbn [length app psums sumN].
  - cbn [nth]. now rewrite N.add_0_r.
  - etransitivity; [exact (IH (acc + c))|lia].
Qed.

Lemma sumN_bound m l : Forall (fun c => c <= m) l -> sumN l <= m * len l.
Proof. induction 1 as [|c l Hc HF IH]; cbn [sumN]; [lia|]. rewrite len_cons. lia. Qed.

(* multiplying by 0x0101..01 puts the sum of bytes 0..i into byte i *)
Lemma step_bsums cs : length cs = 8%nat -> Forall (fun p => p < 256) (psums 0 cs) ->
  (dv cs * K_ONES_STEP8) mod M64 = dv (psums 0 cs).
Proof.
  intros Hl HF.
  destruct cs as [|c0 [|c1 [|c2 [|c3 [|c4 [|c5 [|c6 [|c7 [|]]]]]]]]]; try discriminate Hl.
  symmetry. unfold M64. apply N.mod_unique with
    (q := dv [c1 + c2 + c3 + c4 + c5 + c6 + c7; c2 + c3 + c4 + c5 + c6 + c7; c3 + c4 + c5 + c6 + c7;
              c4 + c5 + c6 + c7; c5 + c6 + c7; c6 + c7; c7]).
  - rewrite <- p256_8. apply (dv_lt _ HF).
  - rewrite K8_val, p64. cbn [psums dv]. lia.
Qed.

Lemma step_kmul k : k < 128 -> omul 64 k K_ONES_STEP8 = Val (dv (repeat k 8)).
Proof.
  intros Hk. rewrite omul_ok; [f_equal|]; rewrite K8_val; [|rewrite p64]; cbn [repeat dv]; lia.
Qed.

Lemma step_lor k : k < 128 -> N.lor (dv (repeat k 8)) K_LAMBDAS_STEP8 = dv (repeat (k + 128) 8).
Proof.
  intros Hk. rewrite L8_val. rewrite lor_disjoint.
  - cbn [repeat dv]. lia.
  - rewrite (dv_land_rep 128 8) by (reflexivity || (repeat constructor; lia)). cbn [repeat map].
    destruct (byte_facts k) as (_ & _ & _ & _ & _ & _ & ->); [lia|].
    destruct (N.leb_spec 128 k); [lia|]. reflexivity.
Qed.

Lemma land128 p k : p <= 128 -> k < 128 ->
  N.land (k + 128 - p) 128 = if p <=? k then 128 else 0.
Proof.
  intros Hp Hk. destruct (byte_facts (k + 128 - p)) as (_ & _ & _ & _ & _ & _ & ->); [lia|].
  destruct (N.leb_spec 128 (k + 128 - p)), (N.leb_spec p k); try reflexivity; lia.
Qed.

(* bit 7 of byte i of (k + 128) - p_i says whether p_i <= k *)
Lemma step_geq k ps : k < 128 -> length ps = 8%nat -> Forall (fun p => p <= 64) ps ->
  exists d, osub (dv (repeat (k + 128) 8)) (dv ps) = Val d /\
            N.land d K_LAMBDAS_STEP8 = dv (map (fun p => if p <=? k then 128 else 0) ps).
Proof.
  intros Hk Hl HF. exists (dv (map (fun p => k + 128 - p) ps)).
  assert (E : dv (repeat (k + 128) 8) = dv ps + dv (map (fun p => k + 128 - p) ps)).
  { rewrite <- Hl. apply dv_rep_sub. revert HF. apply Forall_impl. intros p Hp. lia. }
  split.
  - rewrite osub_ok by lia. f_equal. lia.
  - rewrite L8_val, (dv_land_rep 128 8), map_map.
    + f_equal. apply map_ext_Forall. revert HF. apply Forall_impl. intros p Hp. apply land128; lia.
    + reflexivity.
    + now rewrite map_length.
    + apply Forall_map. revert HF. apply Forall_impl. intros p Hp. lia.
Qed.

Lemma count_flags k ps1 ps2 : Forall (fun p => p <= k) ps1 -> Forall (fun p => k < p) ps2 ->
  popcount (dv (map (fun p => if p <=? k then 128 else 0) (ps1 ++ ps2))) = len ps1.
Proof.
  intros H1 H2. rewrite popcount_dv, map_map, map_app, sumN_app.
  - assert (E1 : sumN (map (fun p => popcount (if p <=? k then 128 else 0)) ps1) = len ps1).
    { induction H1 as [|p l Hp HF IH]; cbn [map sumN]; [reflexivity|].
      rewrite IH, len_cons. destruct (N.leb_spec p k); [|lia]. change (popcount 128) with 1. lia. }
    assert (E2 : sumN (map (fun p => popcount (if p <=? k then 128 else 0)) ps2) = 0).
    { induction H2 as [|p l Hp HF IH]; cbn [map sumN]; [reflexivity|].
      rewrite IH. destruct (N.leb_spec p k); [lia|]. reflexivity. }
    rewrite E1, E2. lia.
  - apply Forall_map, Forall_forall. intros p _. now destruct (p <=? k).
Qed.

Lemma rank_split (f : N -> N) l : forall k,
  sumN (map f l) <= k \/
  exists pre b post, l = pre ++ b :: post /\ sumN (map f pre) <= k < sumN (map f pre) + f b.
Proof.
  induction l as [|b l IH]; intros k; cbn [map sumN]; [left; lia|].
  destruct (N.ltb_spec k (f b)) as [Hk|Hk].
  - right. exists [], b, l. split; [reflexivity|]. cbn [map sumN]. lia.
  - destruct (IH (k - f b)) as [H|(pre & b' & post & -> & H)]; [left; lia|].
    right. exists (b :: pre), b', post. split; [reflexivity|]. cbn [map sumN]. lia.
Qed.

Lemma select_bytes_found pre b post k : Forall (fun a => a < 256) (pre ++ b :: post) ->
  sumN (map popcount pre) <= k < sumN (map popcount pre) + popcount b ->
  select_spec (concat (map (bits_of 8) (pre ++ b :: post))) 1 k =
  option_map (N.add (8 * len pre)) (select_spec (bits_of 8 b) 1 (k - sumN (map popcount pre))).
Proof.
  intros HF Hk. pose proof (Forall_elt _ _ _ HF) as Hb. apply Forall_app in HF. destruct HF as [Hpre _].
  rewrite map_app, concat_app. cbn [map concat].
  rewrite select_spec_app, countN_bytes by assumption.
  destruct (N.ltb_spec k (sumN (map popcount pre))); [lia|].
  rewrite select_spec_app, <- (popcount_correct 8) by exact Hb.
  destruct (N.ltb_spec (k - sumN (map popcount pre)) (popcount b)); [|lia].
  rewrite (len_concat_uniform 8), len_map; [reflexivity|apply (bits_of_uniform 8)].
Qed.

Lemma shl8_small x : x < 128 -> N.shiftl x 8 mod 2 ^ 64 = 256 * x.
Proof.
  intros H. rewrite N.shiftl_mul_pow2. change (2 ^ 8) with 256. rewrite p64.
  rewrite N.mod_small; lia.
Qed.

Lemma byte_mod y s : s + 8 <= 64 -> N.land (N.shiftr (y mod 2 ^ 64) s) 255 = N.land (N.shiftr y s) 255.
Proof.
  intros H. apply N.bits_inj. intros j. rewrite !N.land_spec, !N.shiftr_spec'. change 255 with (N.ones 8).
  destruct (N.ltb_spec j 8).
  - now rewrite N.mod_pow2_bits_low by lia.
  - rewrite N.ones_spec_high by assumption. now rewrite !andb_false_r.
Qed.

Lemma bind_val {A B} (a : A) (f : A -> outcome B) : bind (Val a) f = f a.
Proof. reflexivity. Qed.
Ltac bind_step := rewrite bind_val; cbv beta.

(* the part of select_in_word after the comparison with k *)
Definition siw_tail (word k byte_sums geq_k_step8 : N) : outcome N :=
  let! place := omul 32 (popcount geq_k_step8) SIW_PLACE_MUL in
  if place =? SIW_NOTFOUND then Val 64
  else
    let! sh := oshl 64 byte_sums 8 in
    let! sr := oshr 64 sh place in
    let! byte_rank := osub k (N.land sr SIW_BYTE_MASK) in
    let! wsh := oshr 64 word place in
    let! br8 := oshl 64 byte_rank 8 in
    let! tv := idx sel_table (N.lor (N.land wsh 255) br8) in
    oadd 32 place tv.

Definition bsums (bs : list N) : list N := psums 0 (map popcount bs).

Lemma bsums_le bs : length bs = 8%nat -> Forall (fun a => a < 256) bs -> Forall (fun p => p <= 64) (bsums bs).
Proof.
  intros Hl HF.
  assert (Hs : sumN (map popcount bs) <= 8 * len (map popcount bs)).
  { apply sumN_bound, Forall_map. revert HF. apply Forall_impl, popcount_byte_le. }
  unfold len in Hs. rewrite map_length, Hl in Hs.
  generalize (psums_range (map popcount bs) 0). apply Forall_impl. intros p Hp. lia.
Qed.

(* all eight sums are <= k: the popcount of the flags is 8, place is 64 *)
Lemma siw_tail_none k bs : length bs = 8%nat -> sumN (map popcount bs) <= k ->
  siw_tail (dv bs) k (dv (bsums bs)) (dv (map (fun p => if p <=? k then 128 else 0) (bsums bs))) = Val 64.
Proof.
  intros Hl Hk. pose proof (count_flags k (bsums bs) []) as E. rewrite app_nil_r in E.
  unfold siw_tail. rewrite E.
  - unfold len, bsums. rewrite psums_length, map_length, Hl. reflexivity.
  - generalize (psums_range (map popcount bs) 0). apply Forall_impl. intros p Hp. lia.
  - constructor.
Qed.

(* the count passes k in byte b: place is 8 * length pre; there, byte_sums << 8 has the count before b
   and the word has b; the table gives the position inside b *)
Lemma siw_tail_found k pre b post : k < 128 -> length (pre ++ b :: post) = 8%nat ->
  Forall (fun a => a < 256) (pre ++ b :: post) ->
  sumN (map popcount pre) <= k < sumN (map popcount pre) + popcount b ->
  siw_tail (dv (pre ++ b :: post)) k (dv (bsums (pre ++ b :: post)))
           (dv (map (fun p => if p <=? k then 128 else 0) (bsums (pre ++ b :: post)))) =
  Val (match option_map (N.add (8 * len pre)) (select_spec (bits_of 8 b) 1 (k - sumN (map popcount pre)))
       with Some p => p | None => 64 end).
Proof.
  intros Hk Hl HF Hr. set (A := sumN (map popcount pre)) in *. set (ps := bsums (pre ++ b :: post)).
  pose proof (Forall_elt _ _ _ HF) as Hb. cbv beta in Hb.
  assert (Ht : N.of_nat (length pre) < 8).
  { rewrite app_length in Hl. cbn [length] in Hl. lia. }
  assert (HFp : Forall (fun p => p <= 64) ps) by now apply bsums_le.
  assert (Ecount : popcount (dv (map (fun p => if p <=? k then 128 else 0) ps)) = len pre).
  { unfold ps, bsums. rewrite map_app, psums_app, count_flags.
    - unfold len. now rewrite psums_length, map_length.
    - generalize (psums_range (map popcount pre) 0). apply Forall_impl. intros p Hp. fold A in Hp. lia.
    - fold A. cbn [map psums]. constructor; [lia|].
      generalize (psums_range (map popcount post) (0 + A + popcount b)). apply Forall_impl. intros p Hp. lia. }
  unfold siw_tail. rewrite Ecount. unfold len.
  change SIW_PLACE_MUL with 8. change SIW_NOTFOUND with 64. change SIW_BYTE_MASK with 255.
  rewrite omul_ok by (rewrite p32; lia). bind_step.
  destruct (N.eqb_spec (N.of_nat (length pre) * 8) 64); [lia|].
  rewrite oshl_ok by reflexivity. bind_step. rewrite oshr_ok by lia. bind_step.
  rewrite byte_mod, N.shiftl_mul_pow2 by lia. change (2 ^ 8) with 256.
  replace (dv ps * 256) with (dv (0 :: ps)) by (cbn [dv]; lia).
  rewrite dv_nth by (constructor; [reflexivity|]; revert HFp; apply Forall_impl; intros p Hp; lia).
  unfold ps at 1, bsums. rewrite map_app, <- (map_length popcount pre), psums_nth, map_length, N.add_0_l.
  fold A. rewrite osub_ok by lia. bind_step. rewrite oshr_ok by lia. bind_step.
  rewrite dv_nth, nth_middle by assumption.
  rewrite oshl_ok by reflexivity. bind_step. rewrite shl8_small, lor_low8 by lia.
  pose proof (popcount_byte_le b Hb) as Hpc.
  unfold idx. rewrite sel_table_ok by lia. cbv iota. bind_step.
  destruct (sel8_some b (k - A) Hb) as (p & -> & Hp); [lia|]. cbn [option_map].
  rewrite oadd_ok by (rewrite p32; lia). f_equal. lia.
Qed.

Theorem select_in_word_correct : forall w k, w < 2 ^ 64 -> k < 128 ->
  select_in_word w k = Val (match select_spec (bits_of 64 w) 1 k with Some p => p | None => 64 end).
Proof.
  intros w k Hw Hk. rewrite <- p256_8 in Hw.
  destruct (bytes_of_word 8 w Hw) as (bs & Hl & HF & ->).
  replace 64%nat with (8 * length bs)%nat by (now rewrite Hl). rewrite bits_of_dv by assumption.
  pose proof (bsums_le bs Hl HF) as HFp.
  assert (Hlp : length (bsums bs) = 8%nat) by (unfold bsums; now rewrite psums_length, map_length).
  transitivity (siw_tail (dv bs) k (dv (bsums bs)) (dv (map (fun p => if p <=? k then 128 else 0) (bsums bs)))).
  - unfold select_in_word. cbv zeta.
    rewrite step1 by assumption. bind_step.
    rewrite step2 by assumption. bind_step.
    destruct (step3 bs Hl HF) as (t & Et & Es). rewrite Et. bind_step. rewrite Es. clear t Et Es.
    rewrite step_bsums; [|now rewrite map_length|revert HFp; apply Forall_impl; intros p Hp; lia].
    rewrite step_kmul by assumption. bind_step.
    rewrite step_lor by assumption.
    destruct (step_geq k (bsums bs) Hk Hlp HFp) as (d & Ed & Eg).
    fold (bsums bs). rewrite Ed. bind_step. rewrite Eg. reflexivity.
  - destruct (rank_split popcount bs k) as [Hall|(pre & b & post & E & Hr)].
    + rewrite siw_tail_none, select_spec_none by (rewrite ?countN_bytes; assumption). reflexivity.
    + subst bs. rewrite siw_tail_found, select_bytes_found by assumption. reflexivity.
Qed.

Theorem select_in_word_u128_correct : forall w k, w < 2 ^ 128 -> k < 128 ->
  select_in_word_u128 w k = Val (match select_spec (bits_of 128 w) 1 k with Some p => p | None => 128 end).
Proof.
  intros w k Hw Hk. unfold select_in_word_u128. cbv zeta.
  rewrite N.shiftr_div_pow2. unfold M64.
  set (lo := w mod 2 ^ 64). set (hi := w / 2 ^ 64).
  assert (Hlo : lo < 2 ^ 64) by (apply N.mod_lt, pow2_nz).
  assert (Hhi : hi < 2 ^ 64).
  { apply N.div_lt_upper_bound; [apply pow2_nz|]. rewrite <- N.pow_add_r. exact Hw. }
  rewrite (N.mod_small hi) by assumption.
  change 128%nat with (64 + 64)%nat. rewrite bits_of_app. change (N.of_nat 64) with 64.
  fold lo hi. rewrite select_spec_app, len_bits_of, <- (popcount_correct 64) by assumption.
  change (N.of_nat 64) with 64.
  destruct (N.ltb_spec k (popcount lo)) as [Hlt|Hge].
  - rewrite select_in_word_correct by assumption.
    destruct (select_spec_lt (bits_of 64 lo) 1 k) as (p & Ep).
    { rewrite <- (popcount_correct 64) by assumption. exact Hlt. }
    rewrite Ep. reflexivity.
  - rewrite osub_ok by assumption. bind_step.
    rewrite select_in_word_correct by (assumption || lia). bind_step.
    destruct (select_spec (bits_of 64 hi) 1 (k - popcount lo)) as [p|] eqn:Ep; cbn [option_map].
    + apply select_spec_bounds in Ep. rewrite len_bits_of in Ep. change (N.of_nat 64) with 64 in Ep.
      rewrite oadd_ok by (rewrite p32; lia). reflexivity.
    + reflexivity.
Qed.

(* either 64 (not found) or a checked u32 sum *)
Lemma select_in_word_lt w k s : select_in_word w k = Val s -> s < 2 ^ 32.
Proof.
  unfold select_in_word. cbv zeta. intros H.
  do 6 (apply bind_Val_inv in H; destruct H as (? & _ & H)).
  destruct (_ =? SIW_NOTFOUND); [apply Val_inj in H; subst s; reflexivity|].
  do 6 (apply bind_Val_inv in H; destruct H as (? & _ & H)).
  apply oadd_Val_inv in H. lia.
Qed.

Print Assumptions sel_table_ok.
Print Assumptions select_in_word_correct.
Print Assumptions select_in_word_u128_correct.
Print Assumptions popcount_correct.
Print Assumptions popcnt_wide_correct.
Print Assumptions popcnt_wide_bits.
Print Assumptions msb_w_correct.
