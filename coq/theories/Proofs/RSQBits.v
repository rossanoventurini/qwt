(* Word-level lemmas on the packed superblock word of Model/RSQ.v:
   w = sbc * 2^84 + f1 + f2 * 2^12 + ... + f7 * 2^72, that is, seven base-4096 digits below sbc *)
From Coq Require Import ZArith Lia ZifyBool ZifyN ZifyNat.
From QwtModel Require Import ListX Consts ListXP.
Arguments N.shiftl : simpl never.
Arguments N.pow : simpl never.
Arguments N.sqrt : simpl never.

(* replace closed powers of two by numerals *)
Ltac norm_pow :=
  repeat match goal with
  | |- context [N.pow 2 ?k] =>
      let v := eval vm_compute in (N.pow 2 k) in
      lazymatch v with N.pos _ => change (N.pow 2 k) with v end
  end.
Tactic Notation "norm_pow" "in" hyp(H) :=
  repeat match type of H with
  | context [N.pow 2 ?k] =>
      let v := eval vm_compute in (N.pow 2 k) in
      lazymatch v with N.pos _ => change (N.pow 2 k) with v in H end
  end.

Lemma SB_SHIFT_val : SB_SHIFT = 84. Proof. reflexivity. Qed.
Lemma SB_SHIFT_GR_val : SB_SHIFT_GR = 84. Proof. reflexivity. Qed.
Lemma SB_SHIFT_GC_val : SB_SHIFT_GC = 84. Proof. reflexivity. Qed.
Lemma BLK_BITS_GR_val : BLK_BITS_GR = 12. Proof. reflexivity. Qed.
Lemma BLK_MASK_GR_val : BLK_MASK_GR = 4095. Proof. reflexivity. Qed.
Lemma BLK_LIMIT_val : BLK_LIMIT = 4096. Proof. reflexivity. Qed.
Lemma SET_BLOCK_ID_LIMIT_val : SET_BLOCK_ID_LIMIT = 8. Proof. reflexivity. Qed.
Lemma BLK_BITS_val : BLK_BITS = 12. Proof. reflexivity. Qed.
Lemma BLK_MASK_BP_val : BLK_MASK_BP = 4095. Proof. reflexivity. Qed.
Lemma BLK_BITS_BP_val : BLK_BITS_BP = 12. Proof. reflexivity. Qed.
Lemma BLOCKS_IN_SB_val : BLOCKS_IN_SB = 8. Proof. reflexivity. Qed.
Lemma RS_BLOCKS_IN_SB_val : RS_BLOCKS_IN_SB = 8. Proof. reflexivity. Qed.
Lemma SELECT_NUM_SAMPLES_val : SELECT_NUM_SAMPLES = 8192. Proof. reflexivity. Qed.
Lemma MAX_LEN_val : MAX_LEN = 8796093022208. Proof. reflexivity. Qed.
Lemma RANK_BLOCK_MASK_val : RANK_BLOCK_MASK = 7. Proof. reflexivity. Qed.

Definition packw (sbc : N) (f : N -> N) : N :=
  sbc * 2 ^ 84 + f 1 + f 2 * 2 ^ 12 + f 3 * 2 ^ 24 + f 4 * 2 ^ 36 + f 5 * 2 ^ 48
  + f 6 * 2 ^ 60 + f 7 * 2 ^ 72.

Fixpoint digits (top : N) (f : N -> N) (k : N) (n : nat) : N :=
  match n with
  | O => top
  | S n' => digits top f (k + 1) n' * 4096 + f k
  end.

Lemma packw_digits sbc f : packw sbc f = digits sbc f 1 7.
Proof.
  change (digits sbc f 1 7) with
    (((((((sbc * 4096 + f 7) * 4096 + f 6) * 4096 + f 5) * 4096 + f 4) * 4096 + f 3) * 4096 + f 2) * 4096 + f 1).
  unfold packw. lia.
Qed.

Lemma digits_ext top f g : forall n k, (forall m, k <= m < k + N.of_nat n -> f m = g m) ->
  digits top f k n = digits top g k n.
Proof.
  induction n as [|n IH]; intros k H; cbn [digits]; [reflexivity|].
  rewrite (IH (k + 1)), (H k) by (try (intros m Hm; apply H); lia). reflexivity.
Qed.

Lemma shiftr12_digit q r : r < 4096 -> N.shiftr (q * 4096 + r) 12 = q.
Proof. intros H. rewrite N.shiftr_div_pow2. change (2 ^ 12) with 4096. lia. Qed.

Lemma digits_field top f : forall n k j, j < N.of_nat n -> (forall m, k <= m <= k + j -> f m < 4096) ->
  N.shiftr (digits top f k n) (12 * j) mod 4096 = f (k + j).
Proof.
  induction n as [|n IH]; intros k j Hj Hf; [lia|]. cbn [digits].
  destruct (N.eq_dec j 0) as [->|Hnz].
  - rewrite N.mul_0_r, N.shiftr_0_r, N.add_0_r. pose proof (Hf k). lia.
  - replace (12 * j) with (12 + 12 * (j - 1)) by lia.
    rewrite <- N.shiftr_shiftr, shiftr12_digit by (apply Hf; lia).
    rewrite IH by (try (intros m Hm; apply Hf); lia). f_equal. lia.
Qed.

Lemma digits_top top f : forall n k, (forall m, k <= m < k + N.of_nat n -> f m < 4096) ->
  N.shiftr (digits top f k n) (12 * N.of_nat n) = top.
Proof.
  induction n as [|n IH]; intros k Hf; cbn [digits]; [apply N.shiftr_0_r|].
  replace (12 * N.of_nat (S n)) with (12 + 12 * N.of_nat n) by lia.
  rewrite <- N.shiftr_shiftr, shiftr12_digit by (apply Hf; lia).
  apply IH. intros m Hm. apply Hf. lia.
Qed.

Lemma digits_lt top f t : top < 2 ^ t ->
  forall n k, (forall m, k <= m < k + N.of_nat n -> f m < 4096) -> digits top f k n < 2 ^ (t + 12 * N.of_nat n).
Proof.
  intros Ht. induction n as [|n IH]; intros k Hf; cbn [digits].
  - now rewrite N.mul_0_r, N.add_0_r.
  - replace (t + 12 * N.of_nat (S n)) with (t + 12 * N.of_nat n + 12) by lia.
    rewrite N.pow_add_r. change (2 ^ 12) with 4096.
    pose proof (IH (k + 1) ltac:(intros m Hm; apply Hf; lia)). pose proof (Hf k ltac:(lia)). lia.
Qed.

Definition fbound (f : N -> N) : Prop := forall k, 1 <= k <= 7 -> f k < 4096.

Lemma packw_ext sbc f g : (forall k, 1 <= k <= 7 -> f k = g k) -> packw sbc f = packw sbc g.
Proof. intros H. rewrite !packw_digits. apply digits_ext. intros m Hm. apply H. lia. Qed.

Lemma packw_zero sbc : packw sbc (fun _ => 0) = sbc * 2 ^ 84.
Proof. unfold packw. lia. Qed.

Lemma packw_sbc sbc f : fbound f -> N.shiftr (packw sbc f) 84 = sbc.
Proof. intros H. rewrite packw_digits. apply (digits_top sbc f 7). intros m Hm. apply H. lia. Qed.

Lemma packw_shift sbc f k : fbound f -> 1 <= k <= 7 ->
  N.shiftr (packw sbc f) (12 * (k - 1)) mod 4096 = f k.
Proof.
  intros H Hk. rewrite packw_digits, digits_field by (try (intros m Hm; apply H); lia).
  f_equal. lia.
Qed.

Lemma packw_lt sbc f : fbound f -> sbc < 2 ^ 44 -> packw sbc f < 2 ^ 128.
Proof.
  intros H Hs. rewrite packw_digits. apply (digits_lt sbc f 44 Hs 7). intros m Hm. apply H. lia.
Qed.
