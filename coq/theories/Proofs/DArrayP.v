(* darray (Model/DArrayM.v) against the list specification (Spec/Seq.v): construction never
   faults and select1 / select0 / get / len / counts answer exactly like the specification,
   for every bit vector.  The construction invariant is in Proofs/DArrayB.v. *)
From Coq Require Import ZArith Lia ZifyBool ZifyN ZifyNat.
From QwtModel Require Import ListX Words BitVec DArrayM Seq ListXP NBits BitsLib DArrayL DArrayB.

Definition bv_wf (b : bitvec) : Prop :=
  len (bv_words b) = 8 * ((bv_nbits b + 511) / 512) /\ Forall (fun w => w < 2 ^ 64) (bv_words b) /\
  (forall j, bv_nbits b <= j -> j < 64 * len (bv_words b) -> nthN (concat (map (bits_of 64) (bv_words b))) j = Some 0) /\
  bv_nbits b < 2 ^ 63.

(* positions of the elements equal to bit, increasing *)
Fixpoint positions_of (bit : bool) (l : list bool) (pos : N) : list N :=
  match l with
  | [] => []
  | x :: r => (if Bool.eqb x bit then [pos] else []) ++ positions_of bit r (pos + 1)
  end.

Lemma N_of_bool_eqb x bit : (N_of_bool x =? N_of_bool bit) = Bool.eqb x bit.
Proof. destruct x, bit; reflexivity. Qed.

Lemma positions_nth bit : forall s pos k,
  nthN (positions_of bit s pos) k = select_from (map N_of_bool s) (N_of_bool bit) k pos.
Proof.
  induction s as [|x s IH]; intros pos k; cbn [positions_of map select_from]; [reflexivity|].
  rewrite N_of_bool_eqb. destruct (Bool.eqb x bit); cbn [app].
  - cbn [nthN]. destruct (k =? 0); [reflexivity|apply IH].
  - apply IH.
Qed.

Lemma positions_len bit : forall s pos,
  len (positions_of bit s pos) = countN (N_of_bool bit) (map N_of_bool s).
Proof.
  induction s as [|x s IH]; intros pos; cbn [positions_of map countN]; [reflexivity|].
  rewrite N_of_bool_eqb, len_app, IH. destruct (Bool.eqb x bit); [rewrite len_cons|]; lens; lia.
Qed.

Lemma positions_len_le bit l pos : len (positions_of bit l pos) <= len l.
Proof. rewrite positions_len, <- (len_map N_of_bool l). apply countN_le_len. Qed.

Lemma positions_range bit : forall l pos,
  Forall (fun p => pos <= p < pos + len l) (positions_of bit l pos).
Proof.
  induction l as [|x l IH]; intros pos; cbn [positions_of]; [constructor|].
  rewrite len_cons. apply Forall_app. split.
  - destruct (Bool.eqb x bit); constructor; [lia|constructor].
  - eapply Forall_impl; [|apply IH]. cbv beta. intros a Ha. lia.
Qed.

Lemma count1_countb s : countN 1 (map N_of_bool s) = countb s.
Proof. induction s as [|x s IH]; cbn [map countN countb]; [reflexivity|]. rewrite IH. now destruct x. Qed.
Lemma count0_countb s : countN 0 (map N_of_bool s) + countb s = len s.
Proof.
  induction s as [|x s IH]; cbn [map countN countb]; [reflexivity|]. rewrite len_cons.
  destruct x; cbn [N_of_bool]; [replace (1 =? 0) with false by lia|replace (0 =? 0) with true by lia]; lia.
Qed.

Lemma select1_positions s k : select1_spec s k = nthN (positions_of true s 0) k.
Proof. now rewrite positions_nth. Qed.
Lemma select0_positions s k : select0_spec s k = nthN (positions_of false s 0) k.
Proof. now rewrite positions_nth. Qed.

Lemma positions_mono bit s pos : mono (positions_of bit s pos).
Proof.
  intros a b x y Hab Ha Hb. pose proof Ha as Ha'. pose proof Hb as Hb'.
  rewrite positions_nth in Ha', Hb'.
  apply select_from_inv in Ha'. apply select_from_inv in Hb'.
  destruct Ha' as (Ha1 & _ & Ha3). destruct Hb' as (Hb1 & _ & Hb3).
  destruct (N.le_gt_cases x y) as [H|H]; [exact H|]. exfalso.
  pose proof (countN_firstnN_mono (N_of_bool bit) (map N_of_bool s) (y - pos) (x - pos)) as Hm.
  assert (Eab : a = b) by lia. rewrite Eab in Ha. rewrite Ha in Hb. injection Hb as Hxy. lia.
Qed.

Definition BB (bv : bitvec) : list N := concat (map (bits_of 64) (bv_words bv)).
Definition wfor (bit : bool) (w : N) : N := if bit then w else notw w.
Definition fc (bit : bool) (x : N) : N := if x =? N_of_bool bit then 1 else 0.
(* the bits that select scans: the words themselves for ones, the complemented words for zeros *)
Definition EB (bit : bool) (bv : bitvec) : list N :=
  concat (map (bits_of 64) (map (wfor bit) (bv_words bv))).

Lemma bits_of_01 n w : Forall (fun x => x < 2) (bits_of n w).
Proof.
  unfold bits_of. apply Forall_forall. intros x Hx. apply in_map_iff in Hx.
  destruct Hx as (i & <- & _). destruct (N.testbit w i); cbn [N.b2n]; lia.
Qed.
Lemma BB_01 bv : Forall (fun x => x < 2) (BB bv).
Proof.
  unfold BB. apply Forall_concat. apply Forall_forall. intros l Hl. apply in_map_iff in Hl.
  destruct Hl as (w & <- & _). apply bits_of_01.
Qed.
Lemma map_01_id l : Forall (fun x => x < 2) l -> map N_of_bool (map (fun x => x =? 1) l) = l.
Proof.
  induction 1 as [|x l Hx HF IH]; cbn [map]; [reflexivity|]. rewrite IH. f_equal.
  assert (x = 0 \/ x = 1) as [->| ->] by lia; reflexivity.
Qed.
Lemma abs_bits bv : map N_of_bool (bv_abs bv) = firstnN (bv_nbits bv) (BB bv).
Proof. unfold bv_abs. fold (BB bv). apply map_01_id. apply Forall_firstnN. apply BB_01. Qed.

Lemma bits_lines_len (ws : list N) : Forall (fun l => len l = 64) (map (bits_of 64) ws).
Proof.
  apply Forall_forall. intros l Hl. apply in_map_iff in Hl. destruct Hl as (w & <- & _).
  rewrite len_bits_of. reflexivity.
Qed.
Lemma len_BB bv : len (BB bv) = 64 * len (bv_words bv).
Proof. unfold BB. rewrite (len_concat_uniform 64) by apply bits_lines_len. now rewrite len_map. Qed.
Lemma len_EB bit bv : len (EB bit bv) = 64 * len (bv_words bv).
Proof. unfold EB. rewrite (len_concat_uniform 64) by apply bits_lines_len. now rewrite !len_map. Qed.

Lemma abs_len bv : bv_wf bv -> len (bv_abs bv) = bv_nbits bv.
Proof.
  intros (Hl & _). unfold bv_abs. fold (BB bv). rewrite len_map, firstnN_len, len_BB. lia.
Qed.

Lemma bits_of_wfor bit w : bits_of 64 (wfor bit w) = map (fc bit) (bits_of 64 w).
Proof.
  unfold bits_of. rewrite map_map. apply map_ext_in. intros i Hi. apply in_seqN in Hi.
  destruct bit; unfold wfor, fc; cbn [N_of_bool].
  - destruct (N.testbit w i); reflexivity.
  - unfold notw. change (M64 - 1) with (N.ones 64). rewrite N.lxor_spec, N.ones_spec_low by lia.
    destruct (N.testbit w i); reflexivity.
Qed.
Lemma EB_map bit bv : EB bit bv = map (fc bit) (BB bv).
Proof.
  unfold EB, BB. rewrite concat_map, !map_map. f_equal. apply map_ext. intros w. apply bits_of_wfor.
Qed.
Lemma countN_fc bit l : countN 1 (map (fc bit) l) = countN (N_of_bool bit) l.
Proof.
  induction l as [|x l IH]; cbn [map countN]; [reflexivity|]. rewrite IH. f_equal.
  unfold fc. destruct (x =? N_of_bool bit); reflexivity.
Qed.

Lemma wfor_lt bit w : w < 2 ^ 64 -> wfor bit w < 2 ^ 64.
Proof.
  intros H. destruct bit; [exact H|]. unfold wfor, notw. apply bits_lt_pow2. intros m Hm.
  change (M64 - 1) with (N.ones 64).
  rewrite N.lxor_spec, (lt_pow2_bits w 64 H m Hm), N.ones_spec_high by exact Hm. reflexivity.
Qed.

(* occurrence number k of [bit] is at position p: what it means on the scanned bits *)
Lemma positions_EB bit bv k p :
  nthN (positions_of bit (bv_abs bv) 0) k = Some p ->
  p < bv_nbits bv /\ nthN (EB bit bv) p = Some 1 /\ countN 1 (firstnN p (EB bit bv)) = k.
Proof.
  intros H. rewrite positions_nth, abs_bits in H. apply select_from_inv in H.
  rewrite N.sub_0_r in H. destruct H as (_ & H2 & H3).
  rewrite nthN_firstnN in H2. destruct (N.ltb_spec p (bv_nbits bv)) as [Hp|Hp]; [|discriminate].
  rewrite firstnN_firstnN in H3 by lia.
  rewrite EB_map, nthN_map, H2, firstnN_map, countN_fc. cbn [option_map].
  unfold fc. rewrite N.eqb_refl. auto.
Qed.

(* the first word of the scan: bits below the start position are cleared *)
Lemma bits_mask e sh : sh < 64 ->
  bits_of 64 (N.land e (N.shiftl (M64 - 1) sh mod M64)) =
  repeat 0 (N.to_nat sh) ++ skipnN sh (bits_of 64 e).
Proof.
  intros Hsh. apply nthN_ext. intros x.
  rewrite nthN_app, len_repeat, Nnat.N2Nat.id, nthN_repeat_full, Nnat.N2Nat.id, nthN_skipnN.
  destruct (N.ltb_spec x 64) as [Hx|Hx].
  - rewrite nthN_bits_of_lt by lia. rewrite N.land_spec. unfold M64. rewrite N.mod_pow2_bits_low by exact Hx.
    change (2 ^ 64 - 1) with (N.ones 64).
    destruct (N.ltb_spec x sh) as [Hlt|Hge].
    + rewrite N.shiftl_spec_low by exact Hlt. now rewrite andb_false_r.
    + rewrite N.shiftl_spec_high' by exact Hge. rewrite N.ones_spec_low by lia. rewrite andb_true_r.
      replace (sh + (x - sh)) with x by lia. rewrite nthN_bits_of_lt by lia. reflexivity.
  - rewrite nthN_none by (rewrite len_bits_of; lia).
    replace (x <? sh) with false by lia. symmetry. apply nthN_none. rewrite len_bits_of. lia.
Qed.

Section DArray.

Hypothesis select_in_word_correct : forall w k, w < 2 ^ 64 -> k < 128 ->
  select_in_word w k = Val (match select_spec (bits_of 64 w) 1 k with Some p => p | None => 64 end).
Hypothesis popcount_correct : forall n x, x < 2 ^ N.of_nat n -> popcount x = countN 1 (bits_of n x).
Hypothesis pi_collect_new_correct : forall bit b fuel, bv_wf b -> bv_nbits b < N.of_nat fuel ->
  pi_collect bit b pi_new fuel = positions_of bit (bv_abs b) 0.
Hypothesis bv_get_correct : forall b i, bv_wf b -> bv_get b i = Val (nthN (bv_abs b) i).

(* q = position of the wanted occurrence, i = its number; (word, rem, j) = scan state, m = number
   of low bits of word j that have been cleared (non-zero only for the first word) *)
Lemma da_scan_ok bit bv q i :
  Forall (fun w => w < 2 ^ 64) (bv_words bv) ->
  nthN (EB bit bv) q = Some 1 -> countN 1 (firstnN q (EB bit bv)) = i ->
  forall fuel word rem j m w,
    nthN (bv_words bv) j = Some w ->
    bits_of 64 word = repeat 0 (N.to_nat m) ++ skipnN m (bits_of 64 (wfor bit w)) ->
    word < 2 ^ 64 -> m <= 64 ->
    rem + countN 1 (firstnN (64 * j + m) (EB bit bv)) = i ->
    64 * j + m <= q -> len (bv_words bv) < j + N.of_nat fuel ->
    exists word' rem' j', da_scan bit bv word rem j fuel = Val (word', rem', j') /\
      word' < 2 ^ 64 /\ rem' <= rem /\ 64 * j' <= q /\
      select_spec (bits_of 64 word') 1 rem' = Some (q - 64 * j').
Proof.
  intros HW Hq Hi. set (E := EB bit bv) in *.
  assert (Hqlt : q < 64 * len (bv_words bv)).
  { rewrite <- (len_EB bit bv). eapply nthN_some_lt. exact Hq. }
  induction fuel as [|f IH]; intros word rem j m w Hw Hbits Hword Hm Hrem Hjq Hfuel.
  { apply nthN_some_lt in Hw. lia. }
  cbn [da_scan].
  set (be := bits_of 64 (wfor bit w)) in *.
  assert (Hchunk : firstnN 64 (skipnN (64 * j) E) = be).
  { apply concat_chunk; [lia|apply bits_lines_len|]. rewrite !nthN_map, Hw. reflexivity. }
  assert (Hsk : skipnN m be = firstnN (64 - m) (skipnN (64 * j + m) E)).
  { rewrite <- Hchunk. replace 64 with (m + (64 - m)) at 1 by lia.
    rewrite skipnN_firstnN, skipnN_skipnN. reflexivity. }
  assert (Hpop : popcount word = countN 1 (skipnN m be)).
  { rewrite (popcount_correct 64%nat word) by exact Hword.
    rewrite Hbits, countN_app, countN_repeat_other by discriminate. lia. }
  assert (Hcnt : countN 1 (firstnN (64 * j + 64) E) =
                 countN 1 (firstnN (64 * j + m) E) + countN 1 (skipnN m be)).
  { replace (64 * j + 64) with ((64 * j + m) + (64 - m)) by lia.
    rewrite countN_firstnN_add, Hsk. reflexivity. }
  destruct (N.ltb_spec rem (popcount word)) as [Hfound|Hnot].
  - (* the wanted occurrence is in this word *)
    exists word, rem, j. split; [reflexivity|].
    assert (Hqj : q < 64 * j + 64).
    { destruct (N.lt_ge_cases q (64 * j + 64)) as [H|H]; [exact H|].
      pose proof (countN_firstnN_mono 1 E _ _ H). lia. }
    set (x := q - 64 * j).
    split; [exact Hword|]. split; [lia|]. split; [lia|].
    unfold select_spec. rewrite (select_from_hit _ 1 x rem 0); [f_equal; lia| |].
    + rewrite Hbits, nthN_app, len_repeat, Nnat.N2Nat.id.
      replace (x <? m) with false by lia. rewrite nthN_skipnN.
      replace (m + (x - m)) with x by lia. unfold be. fold be. rewrite <- Hchunk.
      rewrite nthN_firstnN. replace (x <? 64) with true by lia. rewrite nthN_skipnN.
      replace (64 * j + x) with q by lia. exact Hq.
    + rewrite Hbits, firstnN_app, firstnN_all by (rewrite len_repeat; lia).
      rewrite countN_app, countN_repeat_other, len_repeat, Nnat.N2Nat.id, Hsk by discriminate.
      rewrite firstnN_firstnN by lia.
      assert (Hc : countN 1 (firstnN q E) =
                   countN 1 (firstnN (64 * j + m) E) + countN 1 (firstnN (x - m) (skipnN (64 * j + m) E))).
      { replace q with ((64 * j + m) + (x - m)) at 1 by lia. apply countN_firstnN_add. }
      lia.
  - (* it is further on *)
    assert (Hqj : 64 * j + 64 <= q).
    { destruct (N.lt_ge_cases q (64 * j + 64)) as [H|H]; [|exact H].
      assert (H' : q + 1 <= 64 * j + 64) by lia.
      pose proof (countN_firstnN_mono 1 E _ _ H') as Hmono.
      rewrite (countN_firstnN_hit 1 E q Hq) in Hmono. lia. }
    destruct (nthN_lt_some (bv_words bv) (j + 1)) as (w' & Hw'); [lia|].
    unfold bv_get_word, idx. rewrite Hw'. cbn [bind].
    change (if bit then w' else notw w') with (wfor bit w').
    assert (Hw'lt : w' < 2 ^ 64) by exact (proj1 (Forall_forall _ _) HW _ (nthN_In _ _ _ Hw')).
    destruct (IH (wfor bit w') (rem - popcount word) (j + 1) 0 w') as (word' & rem' & j' & E1 & H1 & H2 & H3 & H4).
    + exact Hw'.
    + change (N.to_nat 0) with 0%nat. cbn [repeat app]. now rewrite skipnN_0.
    + apply wfor_lt. exact Hw'lt.
    + lia.
    + replace (64 * (j + 1) + 0) with (64 * j + 64) by lia. lia.
    + lia.
    + lia.
    + exists word', rem', j'. split; [exact E1|]. split; [exact H1|]. split; [lia|]. split; [exact H3|exact H4].
Qed.

Lemma da_select_ok bit bv inv :
  bv_wf bv ->
  inv_n_sets inv = len (positions_of bit (bv_abs bv) 0) ->
  (forall i, i < len (positions_of bit (bv_abs bv) 0) ->
     sel_ok (positions_of bit (bv_abs bv) 0) (inv_block inv) (inv_sub inv) (inv_overflow inv) i) ->
  forall i, da_select bit bv inv i = Val (nthN (positions_of bit (bv_abs bv) 0) i).
Proof.
  intros Hwf Hn Hsel i. set (P := positions_of bit (bv_abs bv) 0) in *.
  unfold da_select. rewrite Hn.
  destruct (N.leb_spec (len P) i) as [Hge|Hlt].
  { now rewrite nthN_none. }
  rewrite DA_BLOCK_val, DA_SUBBLOCK_val.
  change (1024 - 1) with (N.ones 10). change (32 - 1) with (N.ones 5). rewrite !N.land_ones.
  change (2 ^ 10) with 1024. change (2 ^ 5) with 32.
  destruct (Hsel i Hlt) as [(o & p & H1 & H2 & H3)|(first & sb & p & H1 & H2 & H3 & H4)];
    rewrite H1; cbn [bind].
  - (* sparse block *)
    replace (- Z.of_N o - 1 <? 0)%Z with true by lia.
    replace (Z.to_N (- (- Z.of_N o - 1) - 1)) with o by lia.
    unfold idx. rewrite H3. cbn [bind]. now rewrite H2.
  - (* dense block *)
    replace (Z.of_N first <? 0)%Z with false by lia. rewrite N2Z.id.
    unfold idx at 1. rewrite H2. cbn [bind]. rewrite H4.
    destruct (N.eqb_spec (i mod 32) 0) as [Hz|Hnz].
    { replace (nthN P i) with (nthN P (32 * (i / 32))) by (f_equal; lia). now rewrite H3. }
    destruct (nthN_lt_some P i Hlt) as (q & Hq). rewrite Hq.
    destruct (positions_EB bit bv _ _ H3) as (Hpn & Hp1 & Hp2).
    destruct (positions_EB bit bv _ _ Hq) as (Hqn & Hq1 & Hq2).
    destruct Hwf as (Hlen & HW & _ & _).
    assert (Hnw : bv_nbits bv <= 64 * len (bv_words bv)) by (rewrite Hlen; clear; lia).
    assert (Hpq : p < q).
    { destruct (N.lt_ge_cases p q) as [H|H]; [exact H|].
      pose proof (countN_firstnN_mono 1 (EB bit bv) _ _ H). lia. }
    rewrite shiftr6, land63.
    (* p = 64 * j + m is where the scan starts, r = i mod 32 the number of occurrences still to be passed *)
    pose proof (N.div_mod' p 64) as Ep. pose proof (N.mod_lt p 64) as Hm.
    pose proof (N.div_mod' i 32) as Ei. pose proof (N.mod_lt i 32) as Hr.
    set (j := p / 64) in *. set (m := p mod 64) in *. set (r := i mod 32) in *. set (i32 := i / 32) in *.
    clearbody j m r i32. clear Hlen.
    destruct (nthN_lt_some (bv_words bv) j) as (w & Hw); [lia|].
    unfold bv_get_word at 1. unfold idx at 1. rewrite Hw. cbn [bind].
    change (if bit then w else notw w) with (wfor bit w).
    set (word := N.land (wfor bit w) (N.shiftl (M64 - 1) m mod M64)).
    destruct (da_scan_ok bit bv q i HW Hq1 Hq2 (S (length (bv_words bv))) word r j m w)
      as (word' & rem' & j' & E1 & H5 & H6 & H7 & H8).
    + exact Hw.
    + apply bits_mask. lia.
    + apply land_lt_r. apply N.mod_lt. discriminate.
    + lia.
    + rewrite <- Ep. lia.
    + lia.
    + unfold len. lia.
    + rewrite E1. cbn [bind]. rewrite select_in_word_correct by lia. rewrite H8. cbn [bind].
      rewrite N.shiftl_mul_pow2. change (2 ^ 6) with 64. do 2 f_equal. lia.
Qed.

Lemma inv_new_ok bit bv : bv_wf bv ->
  exists inv, inv_new bit bv = Val inv /\
    inv_n_sets inv = len (positions_of bit (bv_abs bv) 0) /\
    forall i, da_select bit bv inv i = Val (nthN (positions_of bit (bv_abs bv) 0) i).
Proof.
  intros Hwf. unfold inv_new. cbv zeta.
  rewrite pi_collect_new_correct by (try exact Hwf; lia).
  destruct (inv_build _ (positions_mono bit (bv_abs bv) 0)) as (blk & sub & ovf & E & Hsel).
  rewrite E. eexists. split; [reflexivity|]. split; [reflexivity|].
  apply da_select_ok; [exact Hwf|reflexivity|exact Hsel].
Qed.

Definition da_spec (s0 : bool) (d : darray) (s : list bool) : Prop :=
  da_len d = len s /\ da_count_ones d = countb s /\ da_count_zeros d = Val (len s - countb s) /\
  (forall i, da_get d i = Val (nthN s i)) /\
  (forall k, da_select1 d k = Val (select1_spec s k)) /\
  (s0 = true -> forall k, da_select0 true d k = Val (select0_spec s k)) /\
  (* documented panic: select0 without select0 support *)
  (s0 = false -> forall k, da_select0 false d k = Fault Panic).

Theorem da_new_correct : forall s0 bv, bv_wf bv ->
  exists d, da_new s0 bv = Val d /\ da_bv d = bv /\ da_spec s0 d (bv_abs bv).
Proof.
  intros s0 bv Hwf.
  destruct (inv_new_ok true bv Hwf) as (ones & E1 & Hn1 & Hs1).
  assert (Hz : exists zeros, (if s0 then let! z := inv_new false bv in Val (Some z) else Val None) = Val zeros /\
                 (s0 = true -> exists z, zeros = Some z /\
                    forall i, da_select false bv z i = Val (nthN (positions_of false (bv_abs bv) 0) i))).
  { destruct s0.
    - destruct (inv_new_ok false bv Hwf) as (z & E0 & _ & Hs0). rewrite E0. cbn [bind].
      eexists. split; [reflexivity|]. intros _. eauto.
    - eexists. split; [reflexivity|]. discriminate. }
  destruct Hz as (zeros & Ez & Hzs).
  unfold da_new. rewrite E1. cbn [bind]. rewrite Ez. cbn [bind].
  eexists. split; [reflexivity|]. split; [reflexivity|].
  pose proof (abs_len bv Hwf) as Hlen.
  pose proof (countb_le_len (bv_abs bv)) as Hcl.
  unfold da_spec, da_len, da_count_ones, da_count_zeros, da_get, da_select1, da_select0, bv_len.
  cbn [da_bv da_ones da_zeros]. rewrite Hn1, positions_len, count1_countb. cbn [N_of_bool].
  split; [now rewrite Hlen|]. split; [reflexivity|]. split.
  { unfold osub. rewrite <- Hlen. replace (countb (bv_abs bv) <=? len (bv_abs bv)) with true by lia. reflexivity. }
  split; [intros i; now apply bv_get_correct|].
  split; [intros k; now rewrite Hs1, select1_positions|].
  split.
  - intros Hs k. destruct (Hzs Hs) as (z & -> & Hs0). cbn [oassert bind ounwrap].
    now rewrite Hs0, select0_positions.
  - intros _ k. reflexivity.
Qed.

(* position-list constructor: the documented panic when the list is not strictly increasing *)
Theorem da_from_positions_panics : forall s0 ps,
  strictly_increasing ps = false -> da_from_positions s0 ps = Fault Panic.
Proof. intros s0 ps H. unfold da_from_positions. rewrite H. reflexivity. Qed.

End DArray.

(* non-vacuity of da_spec, by evaluation *)
Definition opt_eqb (a b : option N) : bool :=
  match a, b with Some x, Some y => x =? y | None, None => true | _, _ => false end.
Definition out_is (a : outcome (option N)) (b : option N) : bool :=
  match a with Val x => opt_eqb x b | Fault _ => false end.
Fixpoint sample_bits (n : nat) (x : N) : list bool :=
  match n with O => [] | S m => N.testbit (x * x + 7 * x) 3 :: sample_bits m (x + 1) end.

(* 138 bits, 70 ones: every select1 / select0 query (including the out-of-range ones) agrees *)
Example da_example :
  let bs := sample_bits 138 0 in
  countb bs = 70 /\
  match da_from_bools true bs with
  | Val d =>
      da_len d = 138 /\ da_count_ones d = 70 /\ da_count_zeros d = Val 68 /\
      forallb (fun k => out_is (da_select1 d k) (select1_spec bs k) &&
                        out_is (da_select0 true d k) (select0_spec bs k)) (seqN 0 140) = true
  | Fault _ => False
  end.
Proof. vm_compute. repeat split; reflexivity. Qed.

(* a sparse block (two ones 66560 bits apart, then two more), on a word vector given directly *)
Example da_example_sparse :
  let bv := mk_bv ([1] ++ repeat 0 1039 ++ [2 ^ 63 + 5] ++ repeat 0 7) (64 * 1041) 4 in
  match da_new true bv with
  | Val d =>
      inv_block (da_ones d) = [(-1)%Z] /\ inv_overflow (da_ones d) = [0; 66560; 66562; 66623] /\
      map (da_select1 d) [0; 1; 2; 3; 4] =
        [Val (Some 0); Val (Some 66560); Val (Some 66562); Val (Some 66623); Val None] /\
      map (da_select0 true d) [0; 1; 31; 32; 1023; 1024; 1025; 66619; 66620] =
        [Val (Some 1); Val (Some 2); Val (Some 32); Val (Some 33); Val (Some 1024); Val (Some 1025);
         Val (Some 1026); Val (Some 66622); Val None]
  | Fault _ => False
  end.
Proof.
  (* inv_loop reverses its 1024 collected positions with the quadratic List.rev at every flush, 65 times for the
     zeros here; the kernel's own evaluator is slow on that, so the loop is first put in its block-wise form *)
  cbv zeta. unfold da_new. rewrite !inv_new_flush_all. vm_compute. repeat split; reflexivity.
Qed.

Print Assumptions da_new_correct.
Print Assumptions da_from_positions_panics.
