(* C03 helper: the binary wavelet tree (Model/Huff.v, second half), part 1:
   - what the walks use of one level ([lvl_spec]: an RSWide vector over a NON-EMPTY 0/1 digit list),
   - the bridge between the pair (rank1, n_zeros) the binary code works with and the generic
     (occs_smaller, rank) vocabulary of Theory/WaveletMatrix.v on 0/1 digit lists,
   - one_bit, binary digits, the stable 2-way partition, msb / number of levels. *)
From Coq Require Import ZArith Lia ZifyBool ZifyN ZifyNat.
From QwtModel Require Import ListX Seq QWT RSBin Huff ListXP NBits RSBinL.
From QwtModel Require Import WaveletMatrix QWTArith.

Lemma loccs_smaller_0 D : loccs_smaller D 0 = 0.
Proof. apply count_lt_0. Qed.

Lemma loccs_smaller_1 D : bin D -> loccs_smaller D 1 = len D - countN 1 D.
Proof. intros H. unfold loccs_smaller. rewrite count_lt_1. pose proof (count01 D H). lia. Qed.

(* the wavelet-matrix mapping of the binary code, in the generic vocabulary:
   bit 1: rank1 + n_zeros, bit 0: i - rank1 *)
Lemma bin_map_1 D i : loccs_smaller D 1 + lrank D 1 i = lrank D 1 i + loccs_smaller D 1.
Proof. lia. Qed.
Lemma bin_map_0 D i : bin D -> i <= len D ->
  lrank D 1 i <= i /\ i - lrank D 1 i = loccs_smaller D 0 + lrank D 0 i.
Proof.
  intros H Hi. pose proof (rank01 D i H) as E. rewrite !rank_spec_lrank in E. rewrite loccs_smaller_0. lia.
Qed.

Lemma bin_nth D i d : bin D -> nthN D i = Some d -> d < 2.
Proof.
  intros H E. unfold bin in H. rewrite Forall_forall in H. exact (H d (nthN_In _ _ _ E)).
Qed.

(* an RSWide vector storing the NON-EMPTY 0/1 list D (bit = (digit =? 1)) *)
Definition lvl_spec (r : rswide) (D : list N) : Prop :=
  bin D /\ 0 < len D /\ len D < 2 ^ 64 /\
  (forall i d, nthN D i = Some d -> rsw_get_unchecked r i = Val (d =? 1)) /\
  (forall i, i <= len D -> rsw_rank1_unchecked r i = Val (lrank D 1 i)) /\
  (forall i, rsw_rank1 r i = Val (if i <=? len D then Some (lrank D 1 i) else None)) /\
  (forall i, rsw_rank0 r i = Val (if i <=? len D then Some (lrank D 0 i) else None)) /\
  (forall k, k < 2 ^ 64 -> rsw_select1 r k = Val (select_spec D 1 k)) /\
  (forall k, k < 2 ^ 64 -> rsw_select0 r k = Val (select_spec D 0 k)) /\
  rsw_n_zeros_q r = loccs_smaller D 1.

Section Lvl.
Variables (r : rswide) (D : list N).
Hypothesis H : lvl_spec r D.
Lemma lv_bin : bin D. Proof. apply H. Qed.
Lemma lv_pos : 0 < len D. Proof. apply H. Qed.
Lemma lv_small : len D < 2 ^ 64. Proof. apply H. Qed.
Lemma lv_get i d : nthN D i = Some d -> rsw_get_unchecked r i = Val (d =? 1).
Proof. apply H. Qed.
Lemma lv_rank1_u i : i <= len D -> rsw_rank1_unchecked r i = Val (lrank D 1 i).
Proof. apply H. Qed.
Lemma lv_nz : rsw_n_zeros_q r = loccs_smaller D 1.
Proof. apply H. Qed.

(* the (checked) rank of select_down *)
Lemma lv_rank d i : d < 2 ->
  (if d =? 1 then rsw_rank1 r i else rsw_rank0 r i) =
  Val (if i <=? len D then Some (lrank D d i) else None).
Proof.
  intros Hd. destruct H as (_ & _ & _ & _ & _ & H1 & H0 & _).
  destruct (N.eqb_spec d 1) as [->|Hn]; [apply H1|]. replace d with 0 by lia. apply H0.
Qed.
Lemma lv_select d k : d < 2 -> k < 2 ^ 64 ->
  (if d =? 1 then rsw_select1 r k else rsw_select0 r k) = Val (select_spec D d k).
Proof.
  intros Hd Hk. destruct H as (_ & _ & _ & _ & _ & _ & _ & H1 & H0 & _).
  destruct (N.eqb_spec d 1) as [->|Hn]; [now apply H1|]. replace d with 0 by lia. now apply H0.
Qed.

Lemma lv_map d i : d < 2 -> i <= len D ->
  (if d =? 1 then Val (lrank D 1 i + rsw_n_zeros_q r) else osub i (lrank D 1 i)) =
  Val (loccs_smaller D d + lrank D d i).
Proof.
  intros Hd Hi. destruct (N.eqb_spec d 1) as [->|Hn].
  - rewrite lv_nz. f_equal. lia.
  - replace d with 0 by lia. destruct (bin_map_0 D i lv_bin Hi) as [H1 H2].
    unfold osub. destruct (N.leb_spec (lrank D 1 i) i); [|lia]. now rewrite H2.
Qed.
Lemma lv_step d i : d < 2 -> i <= len D ->
  (let! tmp := rsw_rank1_unchecked r i in
   if d =? 1 then Val (tmp + rsw_n_zeros_q r) else osub i tmp) =
  Val (loccs_smaller D d + lrank D d i).
Proof. intros Hd Hi. rewrite (lv_rank1_u i Hi). cbn [bind]. now apply lv_map. Qed.
(* the offset added by select_down *)
Lemma lv_offset d : d < 2 -> (if d =? 1 then rsw_n_zeros_q r else 0) = loccs_smaller D d.
Proof.
  intros Hd. destruct (N.eqb_spec d 1) as [->|Hn]; [apply lv_nz|].
  replace d with 0 by lia. now rewrite loccs_smaller_0.
Qed.
End Lvl.

Lemma mod64_mod2 y : (y mod 2 ^ 64) mod 2 = y mod 2.
Proof. change (2 ^ 64) with 18446744073709551616. lia. Qed.

Lemma one_bit_val w x sh : sh < w -> one_bit w x sh = Val ((x / 2 ^ sh) mod 2).
Proof.
  intros Hs. unfold one_bit, oshr. replace (sh <? w) with true by lia. cbn [bind].
  rewrite land1, N.shiftr_div_pow2, mod64_mod2. reflexivity.
Qed.

(* digit of x at level l in a tree of L levels: bit L-1-l *)
Definition bdig (L : nat) (l : nat) (x : N) : N := (x / 2 ^ N.of_nat (L - 1 - l)) mod 2.

Lemma bdig_lt L : forall l x, bdig L l x < N.of_nat 2.
Proof. intros l x. unfold bdig. change (N.of_nat 2) with 2. apply N.mod_lt. lia. Qed.
Lemma bdig_lt2 L l x : bdig L l x < 2.
Proof. exact (bdig_lt L l x). Qed.

Lemma one_bit_bdig w L l x : N.of_nat (L - 1 - l) < w ->
  one_bit w x (N.of_nat (L - 1 - l)) = Val (bdig L l x).
Proof. intros Hs. now rewrite one_bit_val. Qed.

Lemma stable_partition_of_2_val w seq shift : shift < w ->
  stable_partition_of_2 w seq shift =
  Val (filter (fun x => (x / 2 ^ shift) mod 2 =? 0) seq ++ filter (fun x => (x / 2 ^ shift) mod 2 =? 1) seq).
Proof.
  intros Hs. unfold stable_partition_of_2.
  rewrite (mapo_val _ (fun x => (x / 2 ^ shift) mod 2)) by (intros x _; now apply one_bit_val).
  cbn [bind]. rewrite !pick_filter. reflexivity.
Qed.

Lemma stable_partition_2_parts w L l s : N.of_nat (L - 1 - l) < w ->
  stable_partition_of_2 w s (N.of_nat (L - 1 - l)) = Val (parts N (bdig L) l 2 s).
Proof. intros Hs. rewrite stable_partition_of_2_val by exact Hs. reflexivity. Qed.

Lemma bdig_step L l x : (l < L)%nat ->
  x / 2 ^ N.of_nat (L - S l) = (x / 2 ^ N.of_nat (L - l)) * 2 ^ 1 + bdig L l x.
Proof.
  intros Hl. unfold bdig. replace (L - 1 - l)%nat with (L - S l)%nat by lia.
  replace (L - l)%nat with (S (L - S l)) by lia.
  rewrite Nnat.Nat2N.inj_succ, N.pow_succ_r', (N.mul_comm 2).
  rewrite <- N.div_div by (try lia; apply N.pow_nonzero; lia).
  change (2 ^ 1) with 2. generalize (x / 2 ^ N.of_nat (L - S l)). intros y. lia.
Qed.

Lemma bpre_div L c x : forall k, (k <= L)%nat -> x < 2 ^ N.of_nat L -> c < 2 ^ N.of_nat L ->
  pre N (bdig L) k c x = (x / 2 ^ N.of_nat (L - k) =? c / 2 ^ N.of_nat (L - k)).
Proof.
  induction k as [|k IH]; intros Hk Hx Hc.
  - cbn [pre]. rewrite Nat.sub_0_r, !N.div_small by assumption. reflexivity.
  - cbn [pre]. rewrite IH, (bdig_step L k x), (bdig_step L k c) by (try assumption; lia).
    pose proof (bdig_lt2 L k x) as Dx. pose proof (bdig_lt2 L k c) as Dc. revert Dx Dc.
    change (2 ^ 1) with 2.
    generalize (x / 2 ^ N.of_nat (L - k)) (c / 2 ^ N.of_nat (L - k)) (bdig L k x) (bdig L k c).
    clear. intros X C dx dc Dx Dc.
    destruct (N.eqb_spec X C), (N.eqb_spec dx dc), (N.eqb_spec (X * 2 + dx) (C * 2 + dc));
      cbn [andb]; try reflexivity; exfalso; lia.
Qed.

Lemma bpre_eq L c x : x < 2 ^ N.of_nat L -> c < 2 ^ N.of_nat L ->
  pre N (bdig L) L c x = (x =? c).
Proof.
  intros Hx Hc. rewrite bpre_div by (try assumption; lia).
  rewrite Nat.sub_diag. change (2 ^ N.of_nat 0) with 1. now rewrite !N.div_1_r.
Qed.

(* what the plain get accumulates: result_t = (result_t << 1) | bit  on w bits *)
Definition accw (w r d : N) : N := N.lor (N.shiftl r 1 mod 2 ^ w) d.

Lemma accw_val w q d : d < 2 -> q * 2 ^ 1 + d < 2 ^ w -> accw w q d = q * 2 ^ 1 + d.
Proof.
  intros Hd Hy. unfold accw. rewrite N.shiftl_mul_pow2, N.mod_small by lia. now apply lor_add.
Qed.

Lemma accw_fold w L x : x < 2 ^ w -> x < 2 ^ N.of_nat L -> forall n, (n <= L)%nat ->
  fold_left (accw w) (digits_of N (bdig L) 0 n x) 0 = x / 2 ^ N.of_nat (L - n).
Proof.
  intros Hx HxL. induction n as [|n IH]; intros Hn.
  - change (digits_of N (bdig L) 0 0 x) with (@nil N). cbn [fold_left].
    rewrite Nat.sub_0_r, N.div_small by exact HxL. reflexivity.
  - unfold digits_of in *. rewrite seq_S, map_app, fold_left_app, IH by lia.
    cbn [map fold_left Nat.add]. rewrite (bdig_step L n x) by lia.
    apply accw_val; [apply bdig_lt2|]. rewrite <- (bdig_step L n x) by lia.
    apply N.le_lt_trans with x; [|exact Hx]. rewrite <- N.shiftr_div_pow2. apply shiftr_le.
Qed.

Definition blevels (seq : list N) : N := msb (maxN seq) + 1.

Lemma blevels_pos seq : 1 <= blevels seq.
Proof. unfold blevels. lia. Qed.
Lemma blevels_bound seq : maxN seq < 2 ^ blevels seq.
Proof. apply lt_pow2_msb. Qed.
Lemma blevels_le seq w : 0 < w -> maxN seq < 2 ^ w -> blevels seq <= w.
Proof. intros Hw Hm. pose proof (msb_lt _ _ Hw Hm). unfold blevels. lia. Qed.

Lemma wm_levels_map {A} a (dg : nat -> A -> N) s : forall n l0,
  wm_levels A a dg l0 n s = map (fun l => map (dg l) (lev A a dg l s)) (seq l0 n).
Proof.
  induction n as [|n IH]; intros l0; cbn [wm_levels seq map]; [reflexivity|]. now rewrite IH.
Qed.
