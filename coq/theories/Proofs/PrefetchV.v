(* C09: PrefetchSupport::new never faults and approx_rank_unchecked is characterised
   exactly: defined iff i < 2048 * npush D, and then equal to [pfs_val D c i]. *)
From Coq Require Import ZArith Lia ZifyBool ZifyN ZifyNat.
From QwtModel Require Import ListX Seq RSBin Prefetch RSQList RSBinB RSBinP BitVecP PrefetchL.
From QwtModel Require BinFinalP.

(* the value approx_rank_unchecked(c, i) returns on a level with content D *)
Definition pfs_val (D : list N) (c i : N) : N :=
  rk D c (N.min (len D) (2048 * (i / 2048) + 1)) / 2048 * 2048.
(* first position at which approx_rank_unchecked panics *)
Definition pfs_bound (D : list N) : N := 2048 * npush D.

Lemma pfs_val_le_rank D c i : pfs_val D c i <= rk D c (N.min (len D) (i + 1)).
Proof.
  unfold pfs_val.
  pose proof (rk_mono D c (N.min (len D) (2048 * (i / 2048) + 1)) (N.min (len D) (i + 1)) ltac:(lia)) as H.
  revert H. generalize (rk D c (N.min (len D) (2048 * (i / 2048) + 1))). intros x H. lia.
Qed.
Lemma pfs_val_le_count D c i : pfs_val D c i <= countN c D.
Proof. pose proof (pfs_val_le_rank D c i). pose proof (rk_le_count D c (N.min (len D) (i + 1))). lia. Qed.
Lemma pfs_val_mono D c i j : i <= j -> pfs_val D c i <= pfs_val D c j.
Proof.
  intros Hij. unfold pfs_val.
  pose proof (rk_mono D c (N.min (len D) (2048 * (i / 2048) + 1)) (N.min (len D) (2048 * (j / 2048) + 1)) ltac:(lia)) as H.
  revert H. generalize (rk D c (N.min (len D) (2048 * (i / 2048) + 1))),
                       (rk D c (N.min (len D) (2048 * (j / 2048) + 1))). intros x y H. lia.
Qed.
(* at most one above the exact rank; the excess 1 occurs (see pfs_val_above_rank in PrefetchP.v) *)
Lemma pfs_val_le_rank1 D c i : pfs_val D c i <= rk D c i + 1.
Proof.
  pose proof (pfs_val_le_rank D c i) as H.
  pose proof (rk_mono D c (N.min (len D) (i + 1)) (i + 1) ltac:(lia)) as H1.
  pose proof (rk_lip D c i 1). lia.
Qed.

Definition pfs_spec (p : pfsupport) (D : list N) : Prop :=
  pf_shift p = 11 /\ len (pf_samples p) = 4 /\
  forall c i, c < 4 ->
    pfs_approx_rank p c i = if i <? pfs_bound D then Val (pfs_val D c i) else Fault Panic.

Section PfsNew.
Hypothesis select_in_word_correct : forall w k, w < 2 ^ 64 -> k < 128 ->
  select_in_word w k = Val (match select_spec (bits_of 64 w) 1 k with Some p => p | None => 64 end).
Hypothesis popcount_correct : forall n x, x < 2 ^ N.of_nat n -> popcount x = countN 1 (bits_of n x).

Lemma sample_ok B : len B < 2 ^ 43 ->
  exists r, (let! b := bv_from_bools B in rsn_new b) = Val r /\
    forall J, rsn_rank1 r J = Val (if negb (len B =? 0) && (J <=? len B) then Some (rank1_spec B J) else None).
Proof.
  intros HB.
  destruct (bv_from_bools_correct B) as (b & Eb & Hinv & Habs).
  { assert (2 ^ 43 < 2 ^ 63) by reflexivity. lia. }
  assert (Hwf : bv_wf b).
  { apply BinFinalP.bv_inv_wf_rs; [exact Hinv|]. rewrite <- (inv_len b Hinv), Habs. exact HB. }
  destruct (rsn_correct select_in_word_correct popcount_correct b Hwf) as (r & Er & _ & Hspec & _).
  exists r. rewrite Eb. cbn [bind]. split; [exact Er|].
  destruct Hspec as (_ & Hr1 & _). rewrite Habs in Hr1. exact Hr1.
Qed.

Theorem pfs_new_spec : forall D, Forall (fun x => x < 4) D -> len D < 2 ^ 43 ->
  exists p, pfs_new D 11 = Val p /\ pfs_spec p D.
Proof.
  intros D HF Hlen. unfold pfs_new.
  change (oshl 64 1 11) with (Val 2048). cbn [bind].
  rewrite (pfs_loop_final D HF). cbn [bind]. unfold pack. cbn [ps_bvs mapo].
  fold (cbits D 0). fold (cbits D 1). fold (cbits D 2). fold (cbits D 3).
  assert (HB : forall c, len (cbits D c) < 2 ^ 43).
  { intros c. rewrite cbits_len. pose proof (npush_le D).
    change (2 ^ 43) with 8796093022208 in *. lia. }
  destruct (sample_ok (cbits D 0) (HB 0)) as (r0 & E0 & H0).
  destruct (sample_ok (cbits D 1) (HB 1)) as (r1 & E1 & H1).
  destruct (sample_ok (cbits D 2) (HB 2)) as (r2 & E2 & H2).
  destruct (sample_ok (cbits D 3) (HB 3)) as (r3 & E3 & H3).
  rewrite E0. cbn [bind]. rewrite E1. cbn [bind]. rewrite E2. cbn [bind]. rewrite E3. cbn [bind].
  eexists. split; [reflexivity|].
  unfold pfs_spec. cbn [pf_shift pf_samples]. split; [reflexivity|]. split; [reflexivity|].
  intros c i Hc. unfold pfs_approx_rank. cbn [pf_shift pf_samples].
  unfold oshr. change (11 <? 64) with true. cbv iota. cbn [bind].
  change (oshl 64 1 11) with (Val 2048). cbn [bind].
  rewrite N.shiftr_div_pow2. change (2 ^ 11) with 2048.
  assert (G : forall r, (forall J, rsn_rank1 r J =
                 Val (if negb (len (cbits D c) =? 0) && (J <=? len (cbits D c))
                      then Some (rank1_spec (cbits D c) J) else None)) ->
            (let! r0 := rsn_rank1 r (i / 2048 + 1) in let! r4 := ounwrap r0 in omul 64 r4 2048) =
            (if i <? pfs_bound D then Val (pfs_val D c i) else Fault Panic)).
  { intros r Hr. rewrite Hr, cbits_len. cbn [bind]. unfold pfs_bound.
    destruct (N.eqb_spec (npush D) 0) as [Ez|Enz]; cbn [negb andb].
    - rewrite Ez. destruct (N.ltb_spec i (2048 * 0)); [lia|reflexivity].
    - destruct (N.leb_spec (i / 2048 + 1) (npush D)) as [Hle|Hgt]; cbn [ounwrap bind].
      + destruct (N.ltb_spec i (2048 * npush D)); [|lia].
        rewrite cbits_rank by lia. unfold omul, pfs_val.
        pose proof (rk_le_len D c (N.min (len D) (2048 * (i / 2048) + 1))) as Hrl.
        revert Hrl. generalize (rk D c (N.min (len D) (2048 * (i / 2048) + 1))). intros x Hrl.
        change (2 ^ 64) with 18446744073709551616. change (2 ^ 43) with 8796093022208 in Hlen.
        destruct (N.ltb_spec (x / 2048 * 2048) 18446744073709551616); [reflexivity|lia].
      + destruct (N.ltb_spec i (2048 * npush D)); [lia|reflexivity]. }
  assert (Ec : c = 0 \/ c = 1 \/ c = 2 \/ c = 3) by lia.
  destruct Ec as [->|[->|[->| ->]]].
  - change (uidx [r0; r1; r2; r3] 0) with (Val r0). cbn [bind]. exact (G r0 H0).
  - change (uidx [r0; r1; r2; r3] 1) with (Val r1). cbn [bind]. exact (G r1 H1).
  - change (uidx [r0; r1; r2; r3] 2) with (Val r2). cbn [bind]. exact (G r2 H2).
  - change (uidx [r0; r1; r2; r3] 3) with (Val r3). cbn [bind]. exact (G r3 H3).
Qed.

End PfsNew.
