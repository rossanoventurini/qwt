(* Huffman-shaped quad wavelet tree, part 2: every walk of the model (Model/Huff.v) computes,
   inside the outcome monad, the generic walk of Theory/WaveletMatrix.v over the digit lists
   [hwm_levels]; no Fault occurs under the bounds the theory provides. *)
From Coq Require Import ZArith Lia ZifyBool ZifyN ZifyNat.
From QwtModel Require Import ListX Seq RSQ QWT Huff ListXP SeqP RSQList RSQBuild RSQP.
From QwtModel Require Import WaveletMatrix HuffWM Codes QWTArith HQWTBridge.

Lemma lrank_mono D d a b : a <= b -> lrank D d a <= lrank D d b.
Proof. apply rk_mono. Qed.

(* one step of select_up after the level's select has answered: the selected position is not before
   b, because at least the lrank D d b occurrences before b are skipped *)
Lemma up_step_osub D d b j :
  match select_spec D d (lrank D d b + j) with
  | None => Val None
  | Some p => let! r' := osub p b in Val (Some r')
  end = Val (up_step D d b (lrank D d b) j).
Proof.
  unfold up_step. destruct (select_spec _ _ _) as [p|] eqn:Ep; [|reflexivity].
  apply (select_spec_ge _ _ _ _ b) in Ep; [|apply N.le_add_r].
  unfold osub. destruct (N.leb_spec b p); [|lia]. destruct (N.ltb_spec p b); [lia|]. reflexivity.
Qed.

Lemma up_step_big D d b j : len D < 2 ^ 64 -> 2 ^ 64 <= lrank D d b + j ->
  up_step D d b (lrank D d b) j = None.
Proof.
  intros HD Hbig. unfold up_step. rewrite select_spec_none; [reflexivity|].
  pose proof (countN_le_len d D). lia.
Qed.

(* what get accumulates per level, for fragments of frag bits: result = (result << frag) | digit on 32 bits *)
Definition acc_step (frag r d : N) : N := N.lor (N.shiftl r frag mod 2 ^ 32) d.

Definition numb (lv : N) (path : list (N * N)) : list (N * N * N) :=
  map (fun '(lv, (b, rb)) => (lv, b, rb)) (number_levels path lv).
Lemma numb_cons lv b rb path : numb lv ((b, rb) :: path) = (lv, b, rb) :: numb (lv + 1) path.
Proof. reflexivity. Qed.
Lemma numb_length path : forall lv, length (numb lv path) = length path.
Proof.
  induction path as [|[b rb] path IH]; intros lv; [reflexivity|].
  rewrite numb_cons. cbn [length]. now rewrite IH.
Qed.
Lemma select_down_length levels : forall digs b, length levels = length digs ->
  length (select_down levels digs b) = length levels.
Proof.
  induction levels as [|D levels IH]; intros [|d digs] b H; try discriminate H; [reflexivity|].
  cbn [select_down length]. rewrite IH; [reflexivity|]. now injection H.
Qed.

Section Walks.
Variable tab : list pcode.
Variable s : list N.
Variable bsize : N.
Hypothesis Hn : len s < RSQ_MAXN.

Notation dig := (code_dig 2 tab).
Notation clen := (code_clen 2 tab).
Notation QQ l := (Q N 4 dig clen l s).
Notation LV l0 n := (hwm_levels N 4 dig clen l0 n s).
Notation digs l0 n c := (digits_of N dig l0 n c).

Variable qvs : list rsq.
Variable lens : list N.
Variable M : nat.
Hypothesis LOK : forall l, (l < M)%nat ->
  exists r, nthN qvs (N.of_nat l) = Some r /\ rsq_spec bsize r (map (dig l) (QQ l)).
Hypothesis LENS : forall l, (l < M)%nat -> nthN lens (N.of_nat l) = Some (len (QQ l)).
Set Default Proof Using "All".

Lemma QQ_len_lt l : len (QQ l) < 2 ^ 64.
Proof.
  pose proof (Q_len_le N 4 dig (dig_lt tab) clen l s) as H. rewrite RSQ_MAXN_val in Hn.
  assert (8796093018112 < 2 ^ 64) by reflexivity. lia.
Qed.

Lemma hq_rank_walk_ok c code : nthN tab (sym_index c) = Some code ->
  forall n l p i, (l + n <= M)%nat ->
  (forall m, (m < n)%nat -> fst (rank_walk (LV l m) (digs l m c) p i) <= len (QQ (l + m)%nat) /\
                            snd (rank_walk (LV l m) (digs l m c) p i) <= len (QQ (l + m)%nat)) ->
  hq_rank_walk bsize qvs (pc_content code) (pc_len code - 2 * (N.of_nat l + 1)) p i (N.of_nat l) n =
  Val (rank_walk (LV l n) (digs l n c) p i).
Proof.
  intros Hc. induction n as [|n IH]; intros l p i HM HB; [reflexivity|].
  cbn [hq_rank_walk]. rewrite <- (dig_eq tab c code l Hc).
  destruct (LOK l ltac:(lia)) as (r & Er & Hr). unfold idx at 1. rewrite Er. cbn [bind].
  pose proof (HB 0%nat ltac:(lia)) as B0. cbn [hwm_levels rank_walk fst snd] in B0.
  rewrite Nat.add_0_r in B0.
  rewrite (rs_occs_u _ _ _ Hr) by apply dig_le3. cbn [bind].
  rewrite !(rs_rank_u _ _ _ Hr) by (try apply dig_le3; rewrite len_map; lia). cbn [bind].
  replace (pc_len code - 2 * (N.of_nat l + 1) - 2) with (pc_len code - 2 * (N.of_nat (S l) + 1)) by lia.
  replace (N.of_nat l + 1) with (N.of_nat (S l)) by lia.
  rewrite digits_of_S. cbn [hwm_levels rank_walk]. rewrite !rank_spec_lrank. unfold loccs_smaller.
  rewrite !(N.add_comm (lrank _ _ _)).
  apply IH; [lia|]. intros m Hm. specialize (HB (S m) ltac:(lia)).
  rewrite digits_of_S in HB. cbn [hwm_levels rank_walk] in HB. unfold loccs_smaller in HB.
  rewrite Nat.add_succ_r in HB. exact HB.
Qed.

Lemma hq_estimate_walk_ok c code : nthN tab (sym_index c) = Some code ->
  forall n l rs re p i, (l + n < M)%nat -> rs <= p -> re <= i ->
  (forall m, (m <= n)%nat -> fst (rank_walk (LV l m) (digs l m c) p i) <= len (QQ (l + m)%nat) /\
                             snd (rank_walk (LV l m) (digs l m c) p i) <= len (QQ (l + m)%nat)) ->
  hq_estimate_walk bsize qvs (pc_content code) (pc_len code - 2 * (N.of_nat l + 1)) rs re (N.of_nat l) n = Val tt.
Proof.
  intros Hc. induction n as [|n IH]; intros l rs re p i HM Hrs Hre HB; [reflexivity|].
  cbn [hq_estimate_walk]. rewrite <- (dig_eq tab c code l Hc).
  destruct (LOK l ltac:(lia)) as (r & Er & Hr). unfold idx at 1. rewrite Er. cbn [bind].
  pose proof (HB 0%nat ltac:(lia)) as B0. cbn [hwm_levels rank_walk fst snd] in B0.
  rewrite Nat.add_0_r in B0.
  rewrite (rs_occs_u _ _ _ Hr) by apply dig_le3. cbn [bind].
  destruct (rs_block _ _ _ Hr (dig l c) rs (dig_le3 tab l c)) as (a & Ea & Ha); [rewrite len_map; lia|].
  destruct (rs_block _ _ _ Hr (dig l c) re (dig_le3 tab l c)) as (b & Eb & Hb'); [rewrite len_map; lia|].
  rewrite Ea, Eb. cbn [bind].
  destruct (LOK (S l) ltac:(lia)) as (r' & Er' & _).
  replace (pc_len code - 2 * (N.of_nat l + 1) - 2) with (pc_len code - 2 * (N.of_nat (S l) + 1)) by lia.
  replace (N.of_nat l + 1) with (N.of_nat (S l)) by lia.
  unfold idx at 1. rewrite Er'. cbn [bind].
  rewrite rank_spec_lrank in Ha, Hb'.
  pose proof (lrank_mono (map (dig l) (QQ l)) (dig l c) rs p Hrs) as M1.
  pose proof (lrank_mono (map (dig l) (QQ l)) (dig l c) re i Hre) as M2.
  apply (IH (S l) _ _ (loccs_smaller (map (dig l) (QQ l)) (dig l c) + lrank (map (dig l) (QQ l)) (dig l c) p)
            (loccs_smaller (map (dig l) (QQ l)) (dig l c) + lrank (map (dig l) (QQ l)) (dig l c) i));
    [lia|unfold loccs_smaller; lia|unfold loccs_smaller; lia|].
  intros m Hm. specialize (HB (S m) ltac:(lia)).
  rewrite digits_of_S in HB. cbn [hwm_levels rank_walk] in HB.
  rewrite Nat.add_succ_r in HB. exact HB.
Qed.

Lemma hq_get_walk_ok t : h_qvs t = qvs -> h_lens t = lens ->
  forall n l cur res sh, (l + n <= M)%nat ->
  hq_get_walk bsize t cur res sh (N.of_nat l) n =
  Val (fold_left (acc_step 2) (get_walk (LV l n) cur) res, sh + 2 * len (get_walk (LV l n) cur)).
Proof.
  intros Eq El. induction n as [|n IH]; intros l cur res sh HM.
  - cbn [hq_get_walk hwm_levels get_walk fold_left]. lens. do 2 f_equal. lia.
  - cbn [hq_get_walk hwm_levels get_walk]. rewrite El, Eq. unfold idx at 1.
    rewrite (LENS l) by lia. cbn [bind].
    destruct (LOK l ltac:(lia)) as (r & Er & Hr).
    destruct (N.leb_spec (len (QQ l)) cur) as [Hle|Hlt].
    + rewrite nthN_none by (rewrite len_map; exact Hle). cbn [fold_left]. lens.
      do 2 f_equal. lia.
    + destruct (nthN_lt_some (map (dig l) (QQ l)) cur) as (d & Ed); [rewrite len_map; exact Hlt|].
      rewrite Ed. unfold idx at 1. rewrite Er. cbn [bind].
      rewrite (rs_get_u _ _ _ Hr _ _ Ed). cbn [bind].
      assert (Hd : d <= 3).
      { apply nthN_In in Ed. apply in_map_iff in Ed as (x & <- & _). apply dig_le3. }
      rewrite (rs_occs_u _ _ _ Hr) by exact Hd. cbn [bind].
      rewrite (rs_rank_u _ _ _ Hr) by (try exact Hd; rewrite len_map; lia). cbn [bind].
      replace (N.of_nat l + 1) with (N.of_nat (S l)) by lia.
      rewrite IH by lia. cbn [fold_left]. rewrite len_cons, rank_spec_lrank.
      unfold loccs_smaller. rewrite (N.add_comm (lrank _ _ _)). fold (acc_step 2 res d).
      do 2 f_equal. lia.
Qed.

Lemma hq_select_down_ok c code : nthN tab (sym_index c) = Some code ->
  forall n l b, (l + n <= M)%nat ->
  Forall2 (fun '(b, rb) l => b <= len (QQ l) /\ rb <= b)
          (select_down (LV l n) (digs l n c) b) (List.seq l n) ->
  hq_select_down bsize qvs (pc_content code) (pc_len code - 2 * (N.of_nat l + 1)) b (N.of_nat l) n =
  Val (Some (select_down (LV l n) (digs l n c) b)).
Proof.
  intros Hc. induction n as [|n IH]; intros l b HM HB; [reflexivity|].
  rewrite digits_of_S in HB. rewrite digits_of_S. cbn [hwm_levels select_down List.seq] in HB |- *.
  inversion HB as [|? ? ? ? HB0 HB']; subst. cbv beta iota in HB0. destruct HB0 as [B1 B2].
  cbn [hq_select_down]. rewrite <- (dig_eq tab c code l Hc).
  destruct (LOK l ltac:(lia)) as (r & Er & Hr). unfold idx at 1. rewrite Er. cbn [bind].
  rewrite (rs_rank _ _ _ Hr). rewrite len_map.
  pose proof (dig_le3 tab l c) as Hd.
  destruct (N.leb_spec (dig l c) 3); [|lia]. destruct (N.leb_spec b (len (QQ l))); [|lia].
  cbn [andb bind]. rewrite (rs_occs_u _ _ _ Hr) by exact Hd. cbn [bind].
  replace (pc_len code - 2 * (N.of_nat l + 1) - 2) with (pc_len code - 2 * (N.of_nat (S l) + 1)) by lia.
  replace (N.of_nat l + 1) with (N.of_nat (S l)) by lia.
  rewrite rank_spec_lrank. unfold loccs_smaller in *.
  rewrite (IH (S l)) by (try lia; exact HB'). cbn [bind]. reflexivity.
Qed.

Lemma hq_select_up_app repr : forall P1 P2 sh res,
  hq_select_up bsize qvs repr sh res (P1 ++ P2) =
  bind (hq_select_up bsize qvs repr sh res P1)
       (fun r => match r with
                 | None => Val None
                 | Some r' => hq_select_up bsize qvs repr (sh + 2 * len P1) r' P2
                 end).
Proof.
  induction P1 as [|[[lv b] rb] P1 IH]; intros P2 sh res.
  - cbn [app hq_select_up bind]. lens. f_equal. lia.
  - cbn [app hq_select_up]. destruct (idx qvs lv) as [qv|f]; cbn [bind]; [|reflexivity].
    destruct (2 ^ 64 <=? rb + res); [reflexivity|].
    destruct (rsq_select bsize qv _ (rb + res)) as [[p|]|f]; cbn [bind]; try reflexivity.
    destruct (osub p b) as [r'|f]; cbn [bind]; [|reflexivity].
    rewrite IH, len_cons.
    replace (sh + 2 + 2 * len P1) with (sh + 2 * (len P1 + 1)) by lia. reflexivity.
Qed.

Lemma hq_select_up_ok c code : nthN tab (sym_index c) = Some code ->
  pc_len code = 2 * N.of_nat (clen c) -> (clen c <= M)%nat ->
  forall n l b k, (l + n = clen c)%nat ->
  Forall2 (fun '(b, rb) l => b <= len (QQ l) /\ rb <= b)
          (select_down (LV l n) (digs l n c) b) (List.seq l n) ->
  hq_select_up bsize qvs (pc_content code) 0 k
    (rev (numb (N.of_nat l) (select_down (LV l n) (digs l n c) b))) =
  Val (select_up (rev (hpath N 4 dig clen s c l n b)) k).
Proof.
  intros Hc Hlen HcM. induction n as [|n IH]; intros l b k Hl HB; [reflexivity|].
  rewrite select_up_rev_hpath_S.
  rewrite digits_of_S in HB. rewrite digits_of_S. cbn [hwm_levels select_down List.seq] in HB |- *.
  inversion HB as [|? ? ? ? HB0 HB']; subst. cbv beta iota in HB0. destruct HB0 as [B1 B2].
  rewrite numb_cons. cbn [rev]. rewrite hq_select_up_app.
  replace (N.of_nat l + 1) with (N.of_nat (S l)) by lia.
  rewrite (IH (S l)) by (try lia; exact HB'). cbn [bind].
  destruct (select_up _ k) as [j|]; [|reflexivity].
  cbn [hq_select_up].
  assert (EL : 0 + 2 * len (rev (numb (N.of_nat (S l))
                 (select_down (LV (S l) n) (digs (S l) n c)
                    (lrank (map (dig l) (QQ l)) (dig l c) b + loccs_smaller (map (dig l) (QQ l)) (dig l c))))) =
               pc_len code - 2 * (N.of_nat l + 1)).
  { unfold len. rewrite rev_length, numb_length, select_down_length;
      rewrite (hwm_levels_length N 4 dig clen); [lia|]. now rewrite digits_of_length. }
  rewrite EL, <- (dig_eq tab c code l Hc).
  destruct (LOK l ltac:(lia)) as (r & Er & Hr). unfold idx at 1. rewrite Er. cbn [bind].
  pose proof (dig_le3 tab l c) as Hd.
  destruct (N.leb_spec (2 ^ 64) (lrank (map (dig l) (QQ l)) (dig l c) b + j)) as [Hbig|Hsmall].
  - rewrite up_step_big; [reflexivity|rewrite len_map; apply QQ_len_lt|exact Hbig].
  - rewrite (rs_select _ _ _ Hr) by exact Hsmall.
    destruct (N.leb_spec (dig l c) 3); [|lia]. cbn [bind]. apply up_step_osub.
Qed.

End Walks.
