(* The specification functions of Spec/Seq.v: rank_spec as a prefix count, select_from / select_spec as its
   inverse, and how they split over an append. *)
From Coq Require Import ZArith Lia ZifyBool ZifyN ZifyNat.
From QwtModel Require Import ListX Seq ListXP.

(* with i <> 0 in the context: i becomes j + 1 *)
Ltac succ_of i j :=
  let H := fresh in
  assert (H : exists j', i = j' + 1) by (exists (i - 1); lia); destruct H as [j ->].

Lemma rank_spec_0 s c : rank_spec s c 0 = 0.
Proof. destruct s; reflexivity. Qed.

Lemma rank_spec_nil c i : rank_spec [] c i = 0.
Proof. reflexivity. Qed.

Lemma rank_spec_cons x s c i :
  rank_spec (x :: s) c (i + 1) = (if x =? c then 1 else 0) + rank_spec s c i.
Proof.
  cbn [rank_spec]. destruct (N.eqb_spec (i + 1) 0); [lia|].
  replace (N.pred (i + 1)) with i by lia. reflexivity.
Qed.

Lemma rank_spec_count s c : forall i, rank_spec s c i = countN c (firstnN i s).
Proof.
  induction s as [|x s IH]; intros i; [reflexivity|].
  destruct (N.eq_dec i 0) as [->|Hi]; [now rewrite rank_spec_0, firstnN_0|].
  succ_of i j. now rewrite rank_spec_cons, firstnN_succ, IH.
Qed.

Lemma rank_spec_all s c i : len s <= i -> rank_spec s c i = countN c s.
Proof. intros H. rewrite rank_spec_count, firstnN_all by exact H. reflexivity. Qed.

Lemma rank_spec_app l1 l2 c i : rank_spec (l1 ++ l2) c i =
  if i <=? len l1 then rank_spec l1 c i else countN c l1 + rank_spec l2 c (i - len l1).
Proof.
  rewrite !rank_spec_count, firstnN_app, countN_app. destruct (N.leb_spec i (len l1)) as [H|H].
  - replace (i - len l1) with 0 by lia. rewrite firstnN_0. apply N.add_0_r.
  - rewrite (firstnN_all l1) by lia. reflexivity.
Qed.

Lemma rank_spec_succ s c : forall i x, nthN s i = Some x ->
  rank_spec s c (i + 1) = rank_spec s c i + (if x =? c then 1 else 0).
Proof.
  induction s as [|y s IH]; intros i x H; [discriminate|].
  destruct (N.eq_dec i 0) as [->|Hi].
  - rewrite nthN_0 in H. injection H as ->. rewrite N.add_0_l.
    change 1 with (0 + 1) at 1. rewrite rank_spec_cons, !rank_spec_0. lia.
  - succ_of i j. rewrite nthN_succ in H. rewrite !rank_spec_cons, (IH j x H). lia.
Qed.

Lemma rank_spec_succ_none s c i : nthN s i = None -> rank_spec s c (i + 1) = rank_spec s c i.
Proof.
  intros H. apply nthN_None_ge in H. rewrite !rank_spec_all by lia. reflexivity.
Qed.

Lemma rank_spec_add s c i d :
  rank_spec s c i <= rank_spec s c (i + d) /\ rank_spec s c (i + d) <= rank_spec s c i + d.
Proof.
  induction d as [|d IH] using N.peano_ind.
  - rewrite N.add_0_r. lia.
  - replace (i + N.succ d) with (i + d + 1) by lia. destruct (nthN s (i + d)) as [x|] eqn:E.
    + rewrite (rank_spec_succ s c _ x E). destruct (x =? c); lia.
    + rewrite (rank_spec_succ_none s c _ E). lia.
Qed.

Lemma rank_spec_mono s c i j : i <= j -> rank_spec s c i <= rank_spec s c j.
Proof. intros H. replace j with (i + (j - i)) by lia. apply rank_spec_add. Qed.
Lemma rank_spec_lip s c i j : i <= j -> rank_spec s c j <= rank_spec s c i + (j - i).
Proof. intros H. replace j with (i + (j - i)) at 1 by lia. apply rank_spec_add. Qed.
Lemma rank_spec_le s c i : rank_spec s c i <= i.
Proof. pose proof (rank_spec_lip s c 0 i). rewrite rank_spec_0 in *. lia. Qed.

Lemma select_from_sound s c : forall k pos q, select_from s c k pos = Some q ->
  pos <= q /\ nthN s (q - pos) = Some c /\ rank_spec s c (q - pos) = k.
Proof.
  induction s as [|x s IH]; intros k pos q H; [discriminate|].
  cbn [select_from] in H. destruct (N.eqb_spec x c) as [->|Hx].
  - destruct (N.eqb_spec k 0) as [->|Hk].
    + injection H as <-. rewrite N.sub_diag, nthN_0, rank_spec_0. repeat split. lia.
    + apply IH in H. destruct H as (H1 & H2 & H3).
      replace (q - pos) with (q - (pos + 1) + 1) by lia.
      rewrite nthN_succ, rank_spec_cons, H3, N.eqb_refl. split; [lia|split; [assumption|lia]].
  - apply IH in H. destruct H as (H1 & H2 & H3).
    replace (q - pos) with (q - (pos + 1) + 1) by lia.
    rewrite nthN_succ, rank_spec_cons, H3. destruct (N.eqb_spec x c); [congruence|].
    split; [lia|split; [assumption|lia]].
Qed.

Lemma select_from_complete s c : forall k pos p, nthN s p = Some c -> rank_spec s c p = k ->
  select_from s c k pos = Some (pos + p).
Proof.
  induction s as [|x s IH]; intros k pos p Hn Hr; [discriminate|].
  cbn [select_from]. destruct (N.eq_dec p 0) as [->|Hp].
  - rewrite nthN_0 in Hn. injection Hn as ->. rewrite rank_spec_0 in Hr. subst k.
    rewrite !N.eqb_refl. f_equal. lia.
  - succ_of p j. rewrite nthN_succ in Hn. rewrite rank_spec_cons in Hr.
    destruct (N.eqb_spec x c) as [->|Hx].
    + destruct (N.eqb_spec k 0) as [->|Hk]; [lia|].
      rewrite (IH (N.pred k) (pos + 1) j Hn) by lia. f_equal. lia.
    + rewrite (IH k (pos + 1) j Hn) by lia. f_equal. lia.
Qed.

Lemma select_spec_some_iff s c k p :
  select_spec s c k = Some p <-> nthN s p = Some c /\ rank_spec s c p = k.
Proof.
  unfold select_spec. split.
  - intros H. apply select_from_sound in H. rewrite N.sub_0_r in H. tauto.
  - intros [H1 H2]. rewrite (select_from_complete s c k 0 p H1 H2). f_equal.
Qed.

Lemma select_from_none_iff s c : forall k pos, select_from s c k pos = None <-> countN c s <= k.
Proof.
  induction s as [|x s IH]; intros k pos; cbn [select_from countN].
  - split; [lia|reflexivity].
  - destruct (N.eqb_spec x c) as [->|Hx].
    + destruct (N.eqb_spec k 0) as [->|Hk].
      * split; [discriminate|lia].
      * rewrite IH. lia.
    + rewrite IH. lia.
Qed.
Lemma select_spec_none_iff s c k : select_spec s c k = None <-> countN c s <= k.
Proof. apply select_from_none_iff. Qed.
Lemma select_from_none s c : forall k pos, countN c s <= k -> select_from s c k pos = None.
Proof. intros k pos. apply select_from_none_iff. Qed.
Lemma select_spec_none s c k : countN c s <= k -> select_spec s c k = None.
Proof. apply select_spec_none_iff. Qed.

Lemma select_spec_lt s c k : k < countN c s -> exists p, select_spec s c k = Some p.
Proof.
  intros H. destruct (select_spec s c k) as [p|] eqn:E; [eauto|].
  apply select_spec_none_iff in E. lia.
Qed.

Lemma select_spec_some_lt s c k p : select_spec s c k = Some p -> k < countN c s /\ p < len s.
Proof.
  intros H. split.
  - destruct (N.lt_ge_cases k (countN c s)) as [|Hge]; [assumption|].
    apply select_spec_none_iff in Hge. congruence.
  - apply select_spec_some_iff in H. destruct H as [H _]. eapply nthN_some_lt; eauto.
Qed.

Lemma select_from_shift s c : forall k pos,
  select_from s c k pos = option_map (N.add pos) (select_from s c k 0).
Proof.
  intros k pos. destruct (select_from s c k 0) as [p|] eqn:E.
  - apply select_from_sound in E. destruct E as (_ & H1 & H2). rewrite N.sub_0_r in *.
    cbn [option_map]. apply select_from_complete; assumption.
  - cbn [option_map]. apply select_from_none_iff. apply select_from_none_iff in E. exact E.
Qed.

Lemma select_from_app l1 l2 c : forall k pos, select_from (l1 ++ l2) c k pos =
  if k <? countN c l1 then select_from l1 c k pos
  else select_from l2 c (k - countN c l1) (pos + len l1).
Proof.
  induction l1 as [|x l1 IH]; intros k pos; cbn [app countN].
  - lens. rewrite N.add_0_r, N.sub_0_r. destruct (k <? 0) eqn:E; [lia|reflexivity].
  - cbn [select_from]. rewrite len_cons. destruct (N.eqb_spec x c) as [->|Hx].
    + destruct (N.eqb_spec k 0) as [->|Hk].
      * destruct (0 <? 1 + countN c l1) eqn:E; [reflexivity|lia].
      * rewrite IH. destruct (N.ltb_spec (N.pred k) (countN c l1)); destruct (N.ltb_spec k (1 + countN c l1)); try lia.
        -- reflexivity.
        -- f_equal; lia.
    + rewrite IH. destruct (N.ltb_spec k (countN c l1)); destruct (N.ltb_spec k (0 + countN c l1)); try lia.
      * reflexivity.
      * f_equal; lia.
Qed.

Lemma select_spec_app l1 l2 c k : select_spec (l1 ++ l2) c k =
  if k <? countN c l1 then select_spec l1 c k
  else option_map (N.add (len l1)) (select_spec l2 c (k - countN c l1)).
Proof.
  unfold select_spec. rewrite select_from_app. destruct (k <? countN c l1); [reflexivity|].
  rewrite N.add_0_l. apply select_from_shift.
Qed.
