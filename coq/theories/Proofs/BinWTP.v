(* C03: the binary wavelet tree (Model/Huff.v, second half: wt_build and the wt_* queries), in
   both flavours, answers every query exactly like the list specification (Spec/Seq.v) and never
   faults, for EVERY sequence of fewer than RSQ_MAXN symbols of any allowed width and, for the
   compressed (Huffman-shaped) tree, EVERY wavelet-matrix-compatible code table.

   [popcount] and [select_in_word] enter through RSBinP.rsw_correct only: the two construction
   theorems are stated in a Section with the same two hypotheses as RSBinP.v and carry them as
   explicit premises once the Section is closed.  The other theorems are closed. *)
From Coq Require Import ZArith Lia ZifyBool ZifyN ZifyNat.
From QwtModel Require Import ListX Seq QWT BitVec RSBin Huff ListXP NBits RSQBuild RSBinL.
From QwtModel Require Import WaveletMatrix HuffWM Codes QWTArith HQWTCode.
From QwtModel Require Import BinWTBase BinWTBuild BinWTPlain BinWTHuff.
From QwtModel Require HQWTP.

Definition width_ok (w : N) : Prop := w = 8 \/ w = 16 \/ w = 32 \/ w = 64 \/ w = 128.

Definition wt_spec (w : N) (t : bwt) (seq : list N) : Prop :=
  w_n t = len seq /\
  w_n_levels t = (if len seq =? 0 then 0 else msb (maxN seq) + 1) /\
  (forall i, wt_get w false t i = Val (nthN seq i)) /\
  (forall c i, c < 2 ^ w -> wt_rank w false t c i =
       Val (if negb (len seq =? 0) && (i <=? len seq) && (c <=? maxN seq) then Some (rank_spec seq c i) else None)) /\
  (forall c k, c < 2 ^ w -> k < 2 ^ 64 -> wt_select w false t c k =
       Val (if negb (len seq =? 0) && (c <=? maxN seq) then select_spec seq c k else None)) /\
  (forall i x, nthN seq i = Some x -> wt_get_unchecked w false t i = Val x) /\
  (forall c i, 0 < len seq -> c <= maxN seq -> i <= len seq -> wt_rank_unchecked w false t c i = Val (rank_spec seq c i)) /\
  (forall c k p, c < 2 ^ w -> select_spec seq c k = Some p -> wt_select_unchecked w false t c k = Val p).

(* Huffman-shaped tree: the code table as in HQWTP.table_ok, with 1-bit fragments *)
Definition table_ok2 (seq : list N) (tab : list pcode) : Prop :=
  len tab < 2 ^ 64 /\
  (forall x, In x seq -> exists c, nthN tab x = Some c /\ code_wf 1 c = true) /\
  (forall x c, nthN tab x = Some c -> pc_len c <> 0 -> In x seq) /\
  (forall syms, (forall x, In x syms -> In x seq) -> code_wm_ok 1 tab syms = true) /\
  (forall x y c, In x seq -> In y seq -> nthN tab x = Some c -> nthN tab y = Some c -> x = y).

Definition hwt_spec (w : N) (t : bwt) (seq : list N) : Prop :=
  w_n t = len seq /\
  (forall i, wt_get w true t i = Val (nthN seq i)) /\
  (forall c i, c < 2 ^ w -> wt_rank w true t c i =
       Val (if (i <=? len seq) && (0 <? countN c seq) then Some (rank_spec seq c i) else None)) /\
  (forall c k, c < 2 ^ w -> k < 2 ^ 64 -> wt_select w true t c k = Val (select_spec seq c k)) /\
  (forall i x, nthN seq i = Some x -> wt_get_unchecked w true t i = Val x) /\
  (forall c i, 0 < countN c seq -> i <= len seq -> wt_rank_unchecked w true t c i = Val (rank_spec seq c i)) /\
  (forall c k p, c < 2 ^ w -> select_spec seq c k = Some p -> wt_select_unchecked w true t c k = Val p).

Lemma Forall_ltb b (l : list N) : forallb (fun y => y <? b) l = true -> Forall (fun x => x < b) l.
Proof. intros H. apply Forall_forall. intros x Hx. rewrite forallb_forall in H. specialize (H x Hx). lia. Qed.

(* part of C17 *)
Theorem stable_partition_of_2_correct : forall w seq shift, width_ok w -> shift < w ->
  Forall (fun x => x < 2 ^ w) seq ->
  stable_partition_of_2 w seq shift =
  Val (filter (fun x => (x / 2 ^ shift) mod 2 =? 0) seq ++ filter (fun x => (x / 2 ^ shift) mod 2 =? 1) seq).
Proof. intros w seq shift _ Hs _. now apply stable_partition_of_2_val. Qed.

(* in the vocabulary of Theory/WaveletMatrix.v: [parts] on the bit of level l of L levels *)
Corollary stable_partition_of_2_parts : forall w L l s, N.of_nat (L - 1 - l) < w ->
  stable_partition_of_2 w s (N.of_nat (L - 1 - l)) = Val (parts N (bdig L) l 2 s).
Proof. exact stable_partition_2_parts. Qed.

(* On a 0/1 digit list D (D = map N_of_bool of the level's bits) the pair (rank1, n_zeros) of the
   binary code gives the generic wavelet-matrix mapping occs_smaller + rank. *)
Theorem bin_bridge : forall D i, bin D -> i <= len D ->
  loccs_smaller D 0 = 0 /\
  loccs_smaller D 1 = len D - countN 1 D /\
  lrank D 1 i + loccs_smaller D 1 = loccs_smaller D 1 + lrank D 1 i /\
  lrank D 1 i <= i /\
  i - lrank D 1 i = loccs_smaller D 0 + lrank D 0 i.
Proof.
  intros D i HD Hi. destruct (bin_map_0 D i HD Hi) as [H1 H2].
  split; [apply loccs_smaller_0|]. split; [now apply loccs_smaller_1|]. split; [lia|]. split; assumption.
Qed.

Corollary bin_bridge_bits : forall (B : list bool) i, i <= len B ->
  let D := map N_of_bool B in
  rank1_spec B i + (len B - countb B) = loccs_smaller D 1 + lrank D 1 i /\
  rank1_spec B i <= i /\
  i - rank1_spec B i = loccs_smaller D 0 + lrank D 0 i.
Proof.
  intros B i Hi D.
  assert (HD : bin D).
  { unfold D, bin. apply Forall_forall. intros d Hd. apply in_map_iff in Hd as (b & <- & _).
    destruct b; cbn [N_of_bool]; lia. }
  assert (HL : len D = len B) by apply len_map.
  destruct (bin_bridge D i HD ltac:(lia)) as (_ & E1 & _ & E2 & E3).
  unfold rank1_spec. fold D. rewrite rank_spec_lrank, countb_countN. fold D. repeat split; lia.
Qed.

Lemma wt_get_empty w compressed i : wt_get w compressed (mk_bwt 0 0 None None None [] []) i = Val None.
Proof. unfold wt_get. cbn [w_n]. destruct (N.leb_spec 0 i); [reflexivity|lia]. Qed.

Theorem wt_build_empty : forall w compressed tab, exists t, wt_build w compressed [] tab = Val t /\
  (forall i, wt_get w compressed t i = Val None) /\
  (forall c i, wt_rank w compressed t c i = Val None) /\
  (forall c k, wt_select w compressed t c k = Val None).
Proof.
  intros w compressed tab. exists (mk_bwt 0 0 None None None [] []). split; [reflexivity|].
  split; [apply wt_get_empty|]. split; reflexivity.
Qed.

Lemma wt_spec_empty w : wt_spec w (mk_bwt 0 0 None None None [] []) [].
Proof.
  unfold wt_spec. change (len (@nil N)) with 0. change (0 =? 0) with true. cbv iota. cbn [negb andb].
  split; [reflexivity|]. split; [reflexivity|].
  split; [|split; [|split; [|split; [|split]]]].
  - apply wt_get_empty.
  - intros c i _. reflexivity.
  - intros c k _ _. reflexivity.
  - intros i x H. discriminate H.
  - intros c i H. lia.
  - intros c k p _ H. discriminate H.
Qed.

Lemma wt_build_plain_cons w x0 seq' :
  wt_build w false (x0 :: seq') [] =
  (let! (bvs, lens) := wt_levels w false (x0 :: seq') [] (blevels (x0 :: seq')) 1 (N.to_nat (blevels (x0 :: seq'))) in
   Val (mk_bwt (len (x0 :: seq')) (blevels (x0 :: seq')) (Some (maxN (x0 :: seq'))) None None bvs lens)).
Proof. reflexivity. Qed.

Lemma wt_build_huff_cons w x0 seq' tab :
  wt_build w true (x0 :: seq') tab =
  (let! (bvs, lens) := wt_levels w true (x0 :: seq') tab (maxN (map pc_len tab)) 1 (N.to_nat (maxN (map pc_len tab))) in
   Val (mk_bwt (len (x0 :: seq')) (maxN (map pc_len tab)) None (Some tab)
               (Some (decode_tables tab (maxN (map pc_len tab)))) bvs lens)).
Proof. reflexivity. Qed.

Section BinWT.
Hypothesis select_in_word_correct : forall w k, w < 2 ^ 64 -> k < 128 ->
  select_in_word w k = Val (match select_spec (bits_of 64 w) 1 k with Some p => p | None => 64 end).
Hypothesis popcount_correct : forall n x, x < 2 ^ N.of_nat n -> popcount x = countN 1 (bits_of n x).

Lemma wt_build_plain_tree w s : 0 < w -> Forall (fun x => x < 2 ^ w) s -> len s < RSQ_MAXN -> s <> [] ->
  let L := N.to_nat (blevels s) in
  exists bvs lens,
    wt_build w false s [] = Val (mk_bwt (len s) (blevels s) (Some (maxN s)) None None bvs lens) /\
    btree_ok (fun j => bD L j s) L bvs lens /\ lens = map (fun j => len (bD L j s)) (seq 0 L).
Proof.
  intros Hw HF Hn Hne L. destruct s as [|x0 s']; [congruence|]. rewrite wt_build_plain_cons.
  set (s := x0 :: s') in *. fold L.
  assert (HLN : blevels s = N.of_nat L) by (unfold L; lia).
  assert (Hpos : 0 < len s) by (unfold s; rewrite len_cons; lia).
  pose proof (blevels_le s w Hw (maxN_lt s (2 ^ w) (pow2_pos w) HF)) as Hle. rewrite HLN in *.
  destruct (wt_levels_plain_ok select_in_word_correct popcount_correct w L s Hpos Hn Hle L 0%nat eq_refl)
    as (bvs & lens & E & HT).
  change (blev L 0 s) with s in E. change (N.of_nat 0 + 1) with 1 in E. cbn [Nat.add] in HT.
  exists bvs, lens. rewrite E. split; [reflexivity|]. split; [exact HT|].
  exact (btree_ok_lens _ _ _ _ (proj2 (wt_levels_length _ _ _ _ _ _ _ _ _ E)) HT).
Qed.

Theorem wt_build_correct : forall w seq, width_ok w -> Forall (fun x => x < 2 ^ w) seq ->
  len seq < RSQ_MAXN ->
  exists t, wt_build w false seq [] = Val t /\ wt_spec w t seq.
Proof.
  intros w seq Hwok HF Hn.
  assert (Hwpos : 0 < w) by (unfold width_ok in Hwok; lia).
  destruct seq as [|x0 seq'].
  - exists (mk_bwt 0 0 None None None [] []). split; [reflexivity|apply wt_spec_empty].
  - destruct (wt_build_plain_tree w _ Hwpos HF Hn ltac:(discriminate)) as (bvs & lens & E & HT & _).
    set (s := x0 :: seq') in *. set (L := N.to_nat (blevels s)) in *.
    assert (HLN : blevels s = N.of_nat L) by (unfold L; lia).
    assert (Hpos : 0 < len s) by (unfold s; rewrite len_cons; lia).
    pose proof (blevels_le s w Hwpos (maxN_lt s (2 ^ w) (pow2_pos w) HF)) as Hle.
    pose proof (blevels_pos s) as HLpos. pose proof (blevels_bound s) as Hm. rewrite HLN in *.
    rewrite E. eexists. split; [reflexivity|].
    assert (HL : (0 < L)%nat) by lia.
    assert (Hxw : forall x, In x s -> x < 2 ^ w) by (rewrite Forall_forall in HF; exact HF).
    unfold wt_spec. replace (len s =? 0) with false by lia. cbv iota. cbn [negb andb].
    split; [reflexivity|]. split; [cbn [w_n_levels]; unfold blevels in HLN; lia|].
    split; [|split; [|split; [|split; [|split]]]].
    + intros i. exact (wt_get_ok w L s bvs lens HT HL Hle Hpos Hxw Hm i).
    + intros c i _. exact (wt_rank_ok w L s bvs lens HT HL Hle Hpos Hxw Hm c i).
    + intros c k _ _. destruct (N.leb_spec c (maxN s)) as [Hc|Hc].
      * exact (wt_select_ok w L s bvs lens HT HL Hle Hpos Hxw Hm c k Hc).
      * exact (wt_select_big w L s bvs lens HT HL Hle Hpos Hxw Hm c k Hc).
    + intros i x Ex. exact (wt_get_unchecked_ok w L s bvs lens HT HL Hle Hpos Hxw Hm i x Ex).
    + intros c i _ Hc Hi. exact (wt_rank_unchecked_ok w L s bvs lens HT HL Hle Hpos Hxw Hm c i Hc Hi).
    + intros c k p _ Ep. unfold wt_select_unchecked.
      rewrite (wt_select_ok w L s bvs lens HT HL Hle Hpos Hxw Hm c k).
      * rewrite Ep. reflexivity.
      * unfold select_spec in Ep. apply select_from_rk in Ep. destruct Ep as (q & _ & Enq & _).
        apply maxN_ge. eapply nthN_In. exact Enq.
Qed.

Lemma hwt_build_tree w s tab : len s < RSQ_MAXN -> s <> [] -> len tab < 2 ^ 64 ->
  (forall x, In x s -> exists c, nthN tab x = Some c /\ code_wf 1 c = true) ->
  (forall x c, nthN tab x = Some c -> pc_len c <> 0 -> In x s) ->
  let M := maxN (map pc_len tab) in
  exists bvs lens,
    wt_build w true s tab = Val (mk_bwt (len s) M None (Some tab) (Some (decode_tables tab M)) bvs lens) /\
    btree_ok (hDs tab s) (N.to_nat M) bvs lens /\
    lens = map (fun l => len (hDs tab s l)) (seq 0 (N.to_nat M)).
Proof.
  intros Hn Hne Htab Hwf Hocc M.
  destruct (xmax_exists tab s Hne Htab Hwf Hocc) as (xm & Hxm & Exm).
  destruct s as [|x0 s']; [congruence|]. rewrite wt_build_huff_cons. set (s := x0 :: s') in *. fold M.
  assert (HT0 : fin_tail tab s 0 []) by (intros x []).
  destruct (wt_levels_huff_ok tab s Htab Hwf select_in_word_correct popcount_correct Hn xm Hxm
              w M (N.to_nat M) 0%nat [] ltac:(lia) HT0) as (bvs & lens & E & HT).
  cbn [Q] in E. rewrite app_nil_r in E. change (N.of_nat 0 + 1) with 1 in E. cbn [Nat.add] in HT.
  exists bvs, lens. rewrite E. split; [reflexivity|]. split; [exact HT|].
  exact (btree_ok_lens _ _ _ _ (proj2 (wt_levels_length _ _ _ _ _ _ _ _ _ E)) HT).
Qed.

Theorem hwt_build_correct : forall w seq tab, width_ok w -> Forall (fun x => x < 2 ^ w) seq ->
  len seq < RSQ_MAXN -> seq <> [] -> table_ok2 seq tab ->
  exists t, wt_build w true seq tab = Val t /\ hwt_spec w t seq.
Proof.
  intros w s tab _ HF Hn Hne (Htab & Hwf & Hocc & Hok & Hdist).
  destruct (hwt_build_tree w s tab Hn Hne Htab Hwf Hocc) as (bvs & lens & E & HT & _).
  specialize (Hok s (fun x H => H)).
  assert (Hpos : 0 < len s) by (destruct s; [congruence|rewrite len_cons; lia]).
  rewrite E. eexists. split; [reflexivity|].
  unfold hwt_spec. split; [reflexivity|].
  split; [|split; [|split; [|split; [|split]]]].
  - intros i. exact (hwt_get_ok w tab s HF Hn Hpos Htab Hwf Hocc Hok Hdist bvs lens HT i).
  - intros c i _. exact (hwt_rank_ok w tab s HF Hn Hpos Htab Hwf Hocc Hok Hdist bvs lens HT c i).
  - intros c k _ _. exact (hwt_select_ok w tab s HF Hn Hpos Htab Hwf Hocc Hok Hdist bvs lens HT c k).
  - intros i x Ex. exact (hwt_get_unchecked_ok w tab s HF Hn Hpos Htab Hwf Hocc Hok Hdist bvs lens HT i x Ex).
  - intros c i Hc Hi. apply countN_pos_In in Hc.
    exact (hwt_rank_unchecked_ok w tab s HF Hn Hpos Htab Hwf Hocc Hok Hdist bvs lens HT c i Hc Hi).
  - intros c k p _ Ep. unfold wt_select_unchecked.
    rewrite (hwt_select_ok w tab s HF Hn Hpos Htab Hwf Hocc Hok Hdist bvs lens HT c k), Ep. reflexivity.
Qed.

End BinWT.

(* hwt_build_correct asks seq <> []; the specification holds on the empty sequence as well *)
Theorem hwt_build_nil : forall w tab, exists t, wt_build w true [] tab = Val t /\ hwt_spec w t [].
Proof.
  intros w tab. exists (mk_bwt 0 0 None None None [] []). split; [reflexivity|].
  unfold hwt_spec. split; [reflexivity|]. split; [|split; [|split; [|split; [|split]]]].
  - apply wt_get_empty.
  - intros c i _. cbn [countN]. change (0 <? 0) with false. rewrite andb_false_r. reflexivity.
  - intros c k _ _. reflexivity.
  - intros i x H. discriminate H.
  - intros c i H. cbn [countN] in H. lia.
  - intros c k p _ H. discriminate H.
Qed.

Definition table_okb2_weak (seq : list N) (tab : list pcode) : bool :=
  (len tab <? 2 ^ 64) &&
  forallb (fun x => match nthN tab x with Some c => code_wf 1 c | None => false end) seq &&
  forallb (fun '(i, c) => (pc_len c =? 0) || existsb (fun y => y =? i) seq) (number_levels tab 0) &&
  code_wm_ok 1 tab seq.
Definition table_okb2 (seq : list N) (tab : list pcode) : bool :=
  table_okb2_weak seq tab && HQWTP.codes_distinctb seq tab.

(* table_ok2 without its fifth conjunct (distinct entries) *)
Definition table_ok2_weak (seq : list N) (tab : list pcode) : Prop :=
  len tab < 2 ^ 64 /\
  (forall x, In x seq -> exists c, nthN tab x = Some c /\ code_wf 1 c = true) /\
  (forall x c, nthN tab x = Some c -> pc_len c <> 0 -> In x seq) /\
  (forall syms, (forall x, In x syms -> In x seq) -> code_wm_ok 1 tab syms = true).

Lemma table_okb2_weak_sound seq tab : table_okb2_weak seq tab = true -> table_ok2_weak seq tab.
Proof.
  unfold table_okb2_weak. intros H.
  apply andb_prop in H as [H H4]. apply andb_prop in H as [H H3]. apply andb_prop in H as [H1 H2].
  rewrite forallb_forall in H2, H3. split; [lia|]. split; [|split].
  - intros x Hx. specialize (H2 x Hx). destruct (nthN tab x) as [c|]; [eauto|discriminate].
  - intros x c Hx Hne.
    assert (Hin : In (x, c) (number_levels tab 0)).
    { apply number_levels_In. rewrite N.sub_0_r. split; [lia|exact Hx]. }
    specialize (H3 _ Hin). cbv beta iota in H3.
    destruct (N.eqb_spec (pc_len c) 0); [contradiction|]. cbn [orb] in H3.
    apply existsb_exists in H3 as (y & Hy & E). apply N.eqb_eq in E. now subst.
  - intros syms Hs. exact (HQWTP.wm_ok_sub _ _ _ _ _ H4 Hs).
Qed.

Theorem table_okb2_sound seq tab : table_okb2 seq tab = true -> table_ok2 seq tab.
Proof.
  unfold table_okb2. intros H. apply andb_prop in H as [H1 H2].
  destruct (table_okb2_weak_sound seq tab H1) as (G1 & G2 & G3 & G4).
  pose proof (HQWTP.codes_distinctb_sound seq tab H2) as G5.
  unfold table_ok2. repeat split; assumption.
Qed.

(* As for the quad tree (HQWTP.codes_distinct_needed): wavelet-matrix compatibility compares only
   codes of different lengths, so it accepts a table giving two occurring symbols the same entry;
   the model (like the code) then decodes both as the smaller symbol and counts them together.
   Hence the fifth conjunct of table_ok2. *)
Definition bad_seq2 : list N := [0; 1].
Definition bad_tab2 : list pcode := [mk_pc 0 1; mk_pc 0 1].
Lemma codes_distinct_needed2 :
  table_ok2_weak bad_seq2 bad_tab2 /\ Forall (fun x => x < 2 ^ 8) bad_seq2 /\
  exists t, wt_build 8 true bad_seq2 bad_tab2 = Val t /\
    wt_get 8 true t 1 = Val (Some 0) /\ nthN bad_seq2 1 = Some 1 /\
    wt_rank 8 true t 1 2 = Val (Some 2) /\ rank_spec bad_seq2 1 2 = 1.
Proof.
  split; [apply table_okb2_weak_sound; vm_compute; reflexivity|].
  split; [repeat constructor|].
  destruct (wt_build 8 true bad_seq2 bad_tab2) as [t|f] eqn:E; [|vm_compute in E; discriminate E].
  exists t. split; [reflexivity|].
  assert (G : match wt_build 8 true bad_seq2 bad_tab2 with
              | Val t => wt_get 8 true t 1 = Val (Some 0) /\ nthN bad_seq2 1 = Some 1 /\
                         wt_rank 8 true t 1 2 = Val (Some 2) /\ rank_spec bad_seq2 1 2 = 1
              | Fault _ => False
              end) by (vm_compute; repeat split; reflexivity).
  rewrite E in G. exact G.
Qed.
Lemma hwt_build_correct_without_distinct_refuted :
  ~ (forall w seq tab, width_ok w -> Forall (fun x => x < 2 ^ w) seq -> len seq < RSQ_MAXN ->
     seq <> [] -> table_ok2_weak seq tab ->
     exists t, wt_build w true seq tab = Val t /\ hwt_spec w t seq).
Proof.
  intros H. destruct codes_distinct_needed2 as (Hw & HF & t & E & G1 & G2 & _).
  destruct (H 8 bad_seq2 bad_tab2) as (t' & E' & _ & Hget & _);
    [left; reflexivity|exact HF|reflexivity|discriminate|exact Hw|].
  rewrite E in E'. injection E' as <-. rewrite Hget, G2 in G1. discriminate G1.
Qed.

(* 30 values up to 300 (9 levels), element type u16 *)
Definition wt_ex_seq : list N := map (fun i => (i * i * 7 + 3 * i) mod 301) (seqN 0 29) ++ [300].

Example wt_example :
  match wt_build 16 false wt_ex_seq [] with
  | Val t =>
      w_n t = 30 /\ w_n_levels t = 9 /\ w_sigma t = Some 300 /\ len (w_bvs t) = 9 /\
      w_lens t = [30; 30; 30; 30; 30; 30; 30; 30; 30] /\
      map (wt_get 16 false t) [0; 7; 17; 29; 30] =
        [Val (Some 0); Val (Some 63); Val (Some 268); Val (Some 300); Val None] /\
      map (fun c => wt_rank 16 false t c 30) [34; 10; 300; 3; 301] =
        [Val (Some 2); Val (Some 1); Val (Some 1); Val (Some 0); Val None] /\
      wt_rank 16 false t 34 16 = Val (Some 1) /\ wt_rank 16 false t 34 31 = Val None /\
      map (wt_select 16 false t 34) [0; 1; 2] = [Val (Some 2); Val (Some 16); Val None] /\
      wt_select 16 false t 3 0 = Val None /\ wt_select 16 false t 301 0 = Val None /\
      wt_get_unchecked 16 false t 17 = Val 268 /\ wt_rank_unchecked 16 false t 34 30 = Val 2 /\
      wt_select_unchecked 16 false t 300 0 = Val 29
  | Fault _ => False
  end.
Proof. vm_compute. repeat split; reflexivity. Qed.
Example wt_example_spec :
  let s := wt_ex_seq in
  len s = 30 /\ maxN s = 300 /\ msb (maxN s) + 1 = 9 /\
  map (nthN s) [0; 7; 17; 29; 30] = [Some 0; Some 63; Some 268; Some 300; None] /\
  map (fun c => rank_spec s c 30) [34; 10; 300; 3] = [2; 1; 1; 0] /\ rank_spec s 34 16 = 1 /\
  map (select_spec s 34) [0; 1; 2] = [Some 2; Some 16; None] /\ select_spec s 3 0 = None /\
  select_spec s 300 0 = Some 29.
Proof. vm_compute. repeat split; reflexivity. Qed.
(* symbols above 2^64 (element type u128): one_bit truncates to 64 bits before masking *)
Example wt_example_u128 :
  let s := [2 ^ 100 + 5; 7; 2 ^ 100 + 5; 2 ^ 127; 0; 2 ^ 64 + 1] in
  match wt_build 128 false s [] with
  | Val t => w_n_levels t = 128 /\ wt_get 128 false t 3 = Val (Some (2 ^ 127)) /\
             wt_rank 128 false t (2 ^ 100 + 5) 6 = Val (Some 2) /\
             wt_select 128 false t (2 ^ 64 + 1) 0 = Val (Some 5) /\
             wt_select 128 false t (2 ^ 100 + 5) 1 = Val (Some 2)
  | Fault _ => False
  end.
Proof. vm_compute. repeat split; reflexivity. Qed.
Example wt_example_thm :
  (forall w k, w < 2 ^ 64 -> k < 128 ->
     select_in_word w k = Val (match select_spec (bits_of 64 w) 1 k with Some p => p | None => 64 end)) ->
  (forall n x, x < 2 ^ N.of_nat n -> popcount x = countN 1 (bits_of n x)) ->
  exists t, wt_build 16 false wt_ex_seq [] = Val t /\ wt_spec 16 t wt_ex_seq.
Proof.
  intros SIW PC. apply (wt_build_correct SIW PC); [right; left; reflexivity| |reflexivity].
  apply Forall_ltb. vm_compute. reflexivity.
Qed.

Definition hwt_ex_seq : list N :=
  [5; 0; 9; 2; 5; 5; 9; 0; 2; 9; 5; 9; 9; 0; 5; 2; 9; 5; 0; 9; 5; 2; 5; 9; 0; 9; 5; 5; 2; 9].
Definition hwt_ex_tab : list pcode :=
  [mk_pc 1 3; pc_zero; mk_pc 0 3; pc_zero; pc_zero; mk_pc 1 1; pc_zero; pc_zero; pc_zero; mk_pc 1 2].

Example hwt_ex_craft : craft2 [(5, 1); (9, 2); (0, 3); (2, 3)] 9 = Val hwt_ex_tab.
Proof. vm_compute. reflexivity. Qed.
Example hwt_ex_table_ok : table_ok2 hwt_ex_seq hwt_ex_tab.
Proof. apply table_okb2_sound. vm_compute. reflexivity. Qed.

Example hwt_example :
  match wt_build 8 true hwt_ex_seq hwt_ex_tab with
  | Val t =>
      w_n t = 30 /\ w_n_levels t = 3 /\ w_lens t = [30; 20; 10] /\
      map (wt_get 8 true t) [0; 1; 2; 3; 29; 30] =
        [Val (Some 5); Val (Some 0); Val (Some 9); Val (Some 2); Val (Some 9); Val None] /\
      map (fun c => wt_rank 8 true t c 17) [0; 2; 5; 9; 1; 300] =
        [Val (Some 3); Val (Some 3); Val (Some 5); Val (Some 6); Val None; Val None] /\
      map (wt_select 8 true t 9) [0; 1; 9; 10; 11] =
        [Val (Some 2); Val (Some 6); Val (Some 29); Val None; Val None] /\
      wt_rank 8 true t 5 30 = Val (Some 10) /\ wt_rank 8 true t 5 31 = Val None /\
      wt_select 8 true t (2 ^ 64 + 5) 0 = Val None /\
      wt_select_unchecked 8 true t 2 3 = Val 21 /\ wt_get_unchecked 8 true t 7 = Val 0 /\
      wt_rank_unchecked 8 true t 0 30 = Val 5
  | Fault _ => False
  end.
Proof. vm_compute. repeat split; reflexivity. Qed.
Example hwt_example_new :
  hwt_new 8 hwt_ex_seq [(5, 1); (9, 2); (0, 3); (2, 3)] = wt_build 8 true hwt_ex_seq hwt_ex_tab.
Proof. vm_compute. reflexivity. Qed.
Example hwt_example_spec :
  map (nthN hwt_ex_seq) [0; 1; 2; 3; 29; 30] = [Some 5; Some 0; Some 9; Some 2; Some 9; None] /\
  map (fun c => rank_spec hwt_ex_seq c 17) [0; 2; 5; 9] = [3; 3; 5; 6] /\
  map (select_spec hwt_ex_seq 9) [0; 1; 9; 10; 11] = [Some 2; Some 6; Some 29; None; None] /\
  rank_spec hwt_ex_seq 5 30 = 10 /\ select_spec hwt_ex_seq 2 3 = Some 21 /\
  rank_spec hwt_ex_seq 0 30 = 5.
Proof. vm_compute. repeat split; reflexivity. Qed.
Example hwt_example_thm :
  (forall w k, w < 2 ^ 64 -> k < 128 ->
     select_in_word w k = Val (match select_spec (bits_of 64 w) 1 k with Some p => p | None => 64 end)) ->
  (forall n x, x < 2 ^ N.of_nat n -> popcount x = countN 1 (bits_of n x)) ->
  exists t, wt_build 8 true hwt_ex_seq hwt_ex_tab = Val t /\ hwt_spec 8 t hwt_ex_seq.
Proof.
  intros SIW PC.
  apply (hwt_build_correct SIW PC); [left; reflexivity| |reflexivity|discriminate|exact hwt_ex_table_ok].
  apply Forall_ltb. vm_compute. reflexivity.
Qed.
Example wt_example_empty :
  match wt_build 16 false [] [], wt_build 8 true [] hwt_ex_tab with
  | Val t1, Val t2 =>
      wt_get 16 false t1 0 = Val None /\ wt_rank 16 false t1 0 0 = Val None /\ wt_select 16 false t1 0 0 = Val None /\
      wt_get 8 true t2 0 = Val None /\ wt_rank 8 true t2 5 0 = Val None /\ wt_select 8 true t2 5 0 = Val None
  | _, _ => False
  end.
Proof. vm_compute. repeat split; reflexivity. Qed.

Print Assumptions stable_partition_of_2_correct.
Print Assumptions stable_partition_of_2_parts.
Print Assumptions bin_bridge.
Print Assumptions bin_bridge_bits.
Print Assumptions wt_build_empty.
Print Assumptions wt_build_correct.
Print Assumptions hwt_build_correct.
Print Assumptions hwt_build_nil.
Print Assumptions table_okb2_sound.
Print Assumptions codes_distinct_needed2.
Print Assumptions hwt_build_correct_without_distinct_refuted.
Print Assumptions wt_example.
Print Assumptions wt_example_spec.
Print Assumptions wt_example_u128.
Print Assumptions wt_example_thm.
Print Assumptions hwt_ex_craft.
Print Assumptions hwt_ex_table_ok.
Print Assumptions hwt_example.
Print Assumptions hwt_example_new.
Print Assumptions hwt_example_spec.
Print Assumptions hwt_example_thm.
Print Assumptions wt_example_empty.
