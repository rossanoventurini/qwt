(* RSNarrow: construction invariant and correctness of the queries. *)
From Coq Require Import ZArith Lia ZifyBool ZifyN ZifyNat.
From QwtModel Require Import ListX Seq RSBin ListXP NBits OutcomeP SeqP RSBinL RSBinB.

Lemma RSN_BLOCK_SIZE_val : RSN_BLOCK_SIZE = 8. Proof. reflexivity. Qed.
Lemma RSN_ONES_PER_HINT_val : RSN_ONES_PER_HINT = 1024. Proof. reflexivity. Qed.
Lemma RSN_ZEROS_PER_HINT_val : RSN_ZEROS_PER_HINT = 1024. Proof. reflexivity. Qed.
Lemma RSN_SUB_BITS_val : RSN_SUB_BITS = 9. Proof. reflexivity. Qed.
Lemma RSN_SUB_BITS_TAIL_val : RSN_SUB_BITS_TAIL = 9. Proof. reflexivity. Qed.
Lemma RSN_SBR_BITS_val : RSN_SBR_BITS = 9. Proof. reflexivity. Qed.
Lemma RSN_SBR_MASK_val : RSN_SBR_MASK = 511. Proof. reflexivity. Qed.

(* in-block counters: ones of the first j words of block b *)
Definition cN (ws : list N) (b j : N) : N := R1 ws (512 * b + 64 * j) - R1 ws (512 * b).
Definition encN (ws : list N) (b : N) : N := enc 512 0 (cN ws b) 7.

Lemma cN_bound ws b j : j <= 7 -> cN ws b j < 512.
Proof. intros H. unfold cN. pose proof (R1_lip ws (512 * b) (512 * b + 64 * j)). lia. Qed.

Lemma encN_lt ws b : encN ws b < 2 ^ 63.
Proof.
  unfold encN. pose proof (enc_bound 512 0 (cN ws b) 7) as H.
  change (N.of_nat 7) with 7 in H. change ((0 + 1) * 512 ^ 7) with (2 ^ 63) in H.
  apply H; [lia|]. intros i _ Hi. apply cN_bound. lia.
Qed.

Lemma rsn_word_eq st g w :
  rsn_word st g w =
  let shift := g mod 8 in
  let pop := popcount w in
  let subranks := if 1 <=? shift then N.lor (N.shiftl (ns_subranks st) 9 mod M64) (ns_cur_subrank st)
                  else ns_subranks st in
  let next_rank := ns_next_rank st + pop in
  let zeros := ns_zeros st + (64 - pop) in
  let u1 := hint_upd 1024 (ns_s1 st) (ns_hint1 st) next_rank (g / 8) in
  let u0 := hint_upd 1024 (ns_s0 st) (ns_hint0 st) zeros (g / 8) in
  if shift =? 7
  then mk_rsns (next_rank :: subranks :: ns_pairs st) next_rank 0 0 (fst u0) (fst u1) (snd u0) (snd u1) zeros
  else mk_rsns (ns_pairs st) next_rank (ns_cur_subrank st + pop) subranks (fst u0) (fst u1) (snd u0) (snd u1) zeros.
Proof.
  unfold rsn_word, hint_upd.
  rewrite RSN_BLOCK_SIZE_val, RSN_ONES_PER_HINT_val, RSN_ZEROS_PER_HINT_val, RSN_SUB_BITS_val.
  change (8 - 1) with 7. cbv zeta.
  destruct (ns_hint1 st <? (ns_next_rank st + popcount w) / 1024);
  destruct (ns_hint0 st <? (ns_zeros st + (64 - popcount w)) / 1024); reflexivity.
Qed.

Lemma rsn_loop_inv (P : rsn_state -> N -> Prop) ws :
  (forall st g w, nthN ws g = Some w -> P st g -> P (rsn_word st g w) (g + 1)) ->
  forall rest pre st, ws = pre ++ rest -> P st (len pre) -> P (rsn_loop st (len pre) rest) (len ws).
Proof.
  intros Hstep. induction rest as [|w rest IH]; intros pre st E HP; cbn [rsn_loop].
  - subst ws. rewrite app_nil_r. exact HP.
  - replace (len pre + 1) with (len (pre ++ [w])) by (lens; lia).
    apply IH; [rewrite <- app_assoc; exact E|].
    replace (len (pre ++ [w])) with (len pre + 1) by (lens; lia).
    apply Hstep; [|exact HP]. subst ws. rewrite nthN_app2 by lia. rewrite N.sub_diag. apply nthN_0.
Qed.

(* the directory interleaves the block ranks (even entries) and the packed in-block counters (odd entries) *)
Definition pairN (ws : list N) (i : N) : N := if i mod 2 =? 0 then R1 ws (512 * (i / 2)) else encN ws (i / 2).

Lemma pairN_even ws i b : i = 2 * b -> pairN ws i = R1 ws (512 * b).
Proof. intros E. unfold pairN. destruct (divmod_unique 2 b 0 i) as [-> ->]; [lia|lia|reflexivity]. Qed.
Lemma pairN_odd ws i b : i = 2 * b + 1 -> pairN ws i = encN ws b.
Proof. intros E. unfold pairN. destruct (divmod_unique 2 b 1 i) as [-> ->]; [lia|lia|reflexivity]. Qed.

(* After g words, with m = g mod 8 of them in the open block: its first m - 1 counters are packed in
   ns_subranks, the m-th is still in ns_cur_subrank. *)
Definition ninv (ws : list N) (lastb : N) (st : rsn_state) (g : N) : Prop :=
  cinv ws 512 1024 lastb (64 * g) (ns_next_rank st) (ns_zeros st) (ns_s1 st) (ns_hint1 st) (ns_s0 st) (ns_hint0 st) /\
  ns_cur_subrank st = cN ws (g / 8) (g mod 8) /\
  ns_subranks st = enc 512 0 (cN ws (g / 8)) (Nat.pred (N.to_nat (g mod 8))) /\
  entries (fun i x => x = pairN ws i) (2 * (g / 8) + 1) (rev (ns_pairs st)).

Definition rsn_st0 : rsn_state := mk_rsns [0] 0 0 0 [0] [0] 0 0 0.

Lemma ninv_init ws lastb : ninv ws lastb rsn_st0 0.
Proof.
  unfold ninv, rsn_st0. cbn [ns_next_rank ns_zeros ns_cur_subrank ns_subranks ns_pairs ns_s1 ns_s0 ns_hint1 ns_hint0].
  change (64 * 0) with 0. change (0 / 8) with 0. change (0 mod 8) with 0. unfold cN.
  change (512 * 0 + 64 * 0) with 0. change (512 * 0) with 0. rewrite R1_0.
  split; [apply cinv_init; lia|]. split; [reflexivity|]. split; [reflexivity|].
  apply (entries_push _ 0 []); [apply entries_nil|]. rewrite (pairN_even ws 0 0), R1_0; reflexivity.
Qed.

Section Narrow.
Hypothesis PC : popcount_ok.
Hypothesis SIW : siw_ok.

Lemma ninv_step ws lastb st g w : words_ok ws -> g / 8 <= lastb -> nthN ws g = Some w ->
  ninv ws lastb st g -> ninv ws lastb (rsn_word st g w) (g + 1).
Proof.
  intros Hok Hbl Hg (Ic & Icur & Isub & Ipairs). pose proof Ic as (Inext & _).
  pose proof (R1_word_full PC ws g w Hok Hg) as HR.
  pose proof (N.div_mod' g 8) as Hgb. pose proof (N.mod_lt g 8 ltac:(discriminate)) as Hm.
  rewrite rsn_word_eq. cbv zeta.
  set (b := g / 8) in *. set (m := g mod 8) in *. clearbody b m.
  apply (cinv_step ws 512 1024 lastb (64 * g) _ _ _ _ _ _ 64 (popcount w) b) in Ic;
    [|lia..|replace (64 * g + 64) with (64 * (g + 1)) by lia; exact HR].
  replace (64 * g + 64) with (64 * (g + 1)) in Ic by lia.
  assert (Hb8 : R1 ws (512 * b) <= R1 ws (64 * g)) by (apply R1_mono; lia).
  assert (Ecur : ns_cur_subrank st + R1 ws (512 * b) = R1 ws (64 * g)).
  { rewrite Icur. unfold cN. replace (512 * b + 64 * m) with (64 * g) by lia. lia. }
  (* the sub-counter word takes the counter m *)
  assert (Hsr : (if 1 <=? m then N.lor (N.shiftl (ns_subranks st) 9 mod M64) (ns_cur_subrank st)
                 else ns_subranks st) = enc 512 0 (cN ws b) (N.to_nat m)).
  { rewrite Isub. destruct (N.leb_spec 1 m) as [H1|H1].
    - replace (N.to_nat m) with (S (Nat.pred (N.to_nat m))) by lia.
      rewrite <- (enc_push 9 M64 0 (cN ws b) _ 6), Icur.
      + do 2 f_equal. lia.
      + lia.
      + intros. apply cN_bound. lia.
      + discriminate.
    - replace m with 0 by lia. reflexivity. }
  rewrite Hsr. clear Hsr Isub.
  destruct (N.eqb_spec m 7) as [Hm7|Hm7].
  - (* the block is complete: its two directory entries are written, the counters restart *)
    destruct (divmod_unique 8 (b + 1) 0 (g + 1)) as [E8 Em]; [lia|lia|].
    unfold ninv. cbn [ns_next_rank ns_zeros ns_cur_subrank ns_subranks ns_pairs ns_s1 ns_s0 ns_hint1 ns_hint0].
    rewrite E8, Em. clear E8 Em. split; [exact Ic|].
    split; [unfold cN; rewrite N.mul_0_r, N.add_0_r; lia|]. split; [reflexivity|].
    replace (2 * (b + 1) + 1) with (2 * b + 1 + 1 + 1) by lia.
    apply entries_push; [apply entries_push; [exact Ipairs|]|].
    + rewrite (pairN_odd ws _ b), Hm7 by lia. reflexivity.
    + rewrite (pairN_even ws _ (b + 1)) by lia. replace (512 * (b + 1)) with (64 * (g + 1)) by lia. lia.
  - destruct (divmod_unique 8 b (m + 1) (g + 1)) as [E8 Em]; [lia|lia|].
    unfold ninv. cbn [ns_next_rank ns_zeros ns_cur_subrank ns_subranks ns_pairs ns_s1 ns_s0 ns_hint1 ns_hint0].
    rewrite E8, Em. clear E8 Em. split; [exact Ic|].
    split; [unfold cN; replace (512 * b + 64 * (m + 1)) with (64 * (g + 1)) by lia; lia|].
    split; [f_equal; lia|exact Ipairs].
Qed.

Lemma ninv_final ws lastb : words_ok ws -> len ws <= 8 * lastb -> ninv ws lastb (rsn_loop rsn_st0 0 ws) (len ws).
Proof.
  intros Hok Hl. apply (rsn_loop_inv (ninv ws lastb) ws) with (pre := []); [|reflexivity|apply ninv_init].
  intros st g w Hg Hi. apply ninv_step; try assumption. pose proof (nthN_some_lt _ _ _ Hg). lia.
Qed.

Definition rsn_last (nl : N) : N := if 0 <? nl mod 8 then nl + 1 else nl.

Definition rsn_dir_ok (ws : list N) (lastb : N) (r : rsnarrow) : Prop :=
  len (rsn_pairs r) = 2 * (lastb + 1) /\
  (forall b, b <= lastb -> nthN (rsn_pairs r) (2 * b) = Some (R1 ws (512 * b)) /\
                           nthN (rsn_pairs r) (2 * b + 1) = Some (encN ws b)) /\
  samples_ok (Rc ws true) 512 1024 (64 * len ws) lastb (Rc ws true (64 * len ws)) (rsn_samples1 r) /\
  samples_ok (Rc ws false) 512 1024 (64 * len ws) lastb (Rc ws false (64 * len ws)) (rsn_samples0 r).

Lemma encN_tail ws b : len ws <= 8 * b -> encN ws b = 0.
Proof.
  intros H. unfold encN. rewrite enc_zero; [reflexivity|].
  intros i _ _. unfold cN. rewrite (R1_sat ws (512 * b + 64 * i)), (R1_sat ws (512 * b)) by lia. lia.
Qed.

Lemma rsn_new_ok bv : bv_wf bv -> exists r, rsn_new bv = Val r /\ rsn_bv r = bv /\
  rsn_dir_ok (bv_words bv) (rsn_last (nlines bv)) r.
Proof.
  intros Hwf. pose proof (wf_len bv Hwf) as Hlen. pose proof (wf_ok bv Hwf) as Hok.
  unfold rsn_new, rsn_last. fold rsn_st0. rewrite RSN_BLOCK_SIZE_val.
  set (ws := bv_words bv) in *. set (nl := nlines bv) in *.
  destruct (ninv_final ws nl Hok ltac:(lia)) as ((Inext & _ & Is1 & Is0) & Icur & Isub & Ipairs).
  destruct (divmod_unique 8 nl 0 (len ws)) as [E8 Em]; [lia|lia|]. rewrite E8, Em in *. clear E8 Em.
  set (st := rsn_loop rsn_st0 0 ws) in *.
  replace (ns_cur_subrank st) with 0 by (rewrite Icur; unfold cN; rewrite N.mul_0_r, N.add_0_r; lia).
  rewrite Isub, iterN_fix by reflexivity. change (enc 512 0 (cN ws nl) (Nat.pred (N.to_nat 0))) with 0.
  set (lastb := if 0 <? nl mod 8 then nl + 1 else nl).
  match goal with |- context [osub (len ?l / 2) 1] => set (pairs := l) end.
  (* past the end every block rank is the total and every counter word is 0 *)
  assert (Hpairs : entries (fun i x => x = pairN ws i) (2 * (lastb + 1)) (rev pairs)).
  { unfold pairs, lastb. destruct (0 <? nl mod 8).
    - replace (2 * (nl + 1 + 1)) with (2 * nl + 1 + 1 + 1 + 1) by lia.
      apply entries_push; [apply entries_push; [apply entries_push; [exact Ipairs|]|]|].
      + rewrite (pairN_odd ws _ nl), encN_tail by lia. reflexivity.
      + rewrite (pairN_even ws _ (nl + 1)), R1_sat by lia. exact Inext.
      + rewrite (pairN_odd ws _ (nl + 1)), encN_tail by lia. reflexivity.
    - replace (2 * (nl + 1)) with (2 * nl + 1 + 1) by lia.
      apply entries_push; [exact Ipairs|]. rewrite (pairN_odd ws _ nl), encN_tail by lia. reflexivity. }
  assert (Hlast : nl <= lastb /\ 64 * len ws <= 512 * (lastb + 1)) by (unfold lastb; destruct (0 <? nl mod 8); lia).
  clearbody pairs lastb.
  rewrite <- (len_rev pairs), (proj1 Hpairs), N.mul_comm, N.div_mul, osub_ok by lia. cbn [bind].
  replace (lastb + 1 - 1) with lastb by lia.
  eexists. split; [reflexivity|]. split; [reflexivity|].
  unfold rsn_dir_ok. cbn [rsn_pairs rsn_samples0 rsn_samples1].
  split; [exact (proj1 Hpairs)|]. split.
  - intros b Hb. rewrite <- (pairN_even ws (2 * b) b), <- (pairN_odd ws (2 * b + 1) b) by reflexivity.
    split; apply (entries_nth _ _ _ _ Hpairs); lia.
  - split; [exact (sinv_final _ _ _ _ _ _ _ _ _ Is1 (proj1 Hlast) (proj2 Hlast))|
            exact (sinv_final _ _ _ _ _ _ _ _ _ Is0 (proj1 Hlast) (proj2 Hlast))].
Qed.

Lemma nthN_abs b i : nthN (bv_abs b) i =
  if i <? bv_nbits b then option_map (fun x => x =? 1) (nthN (FL (bv_words b)) i) else None.
Proof.
  unfold bv_abs. rewrite nthN_map, nthN_firstnN. fold (FL (bv_words b)).
  destruct (i <? bv_nbits b); reflexivity.
Qed.

Section NQueries.
Variable bv : bitvec.
Variable r : rsnarrow.
Hypothesis Hwf : bv_wf bv.
Hypothesis Hbv : rsn_bv r = bv.
Let ws := bv_words bv.
Let nl := nlines bv.
Let lastb := rsn_last nl.
Hypothesis Hdir : rsn_dir_ok ws lastb r.

Lemma nl_le_lastb : nl <= lastb.
Proof. unfold lastb, rsn_last. destruct (0 <? nl mod 8); lia. Qed.

Lemma lastb_small : lastb < 2 ^ 40.
Proof.
  pose proof (wf_nbits bv Hwf) as Hn. fold nl in Hn. unfold lastb, rsn_last.
  change (2 ^ 43) with 8796093022208 in Hn. change (2 ^ 40) with 1099511627776.
  destruct (0 <? nl mod 8); lia.
Qed.

Lemma R1_small j : R1 ws j < 2 ^ 44.
Proof.
  pose proof (R1_le_len ws j) as H. pose proof (wf_len bv Hwf) as Hl. pose proof (wf_nbits bv Hwf) as Hn.
  fold ws in Hl. fold nl in Hl, Hn. change (2 ^ 43) with 8796093022208 in Hn. change (2 ^ 44) with 17592186044416. lia.
Qed.

Lemma rsn_block_rank_ok b : b <= lastb -> rsn_block_rank r b = Val (R1 ws (512 * b)).
Proof.
  intros Hb. destruct Hdir as (_ & Hp & _). pose proof lastb_small as Hs. change (2 ^ 40) with 1099511627776 in Hs.
  unfold rsn_block_rank. rewrite omul_ok by (rewrite p64; lia). cbn [bind]. unfold idx.
  rewrite (N.mul_comm b 2), (proj1 (Hp b Hb)). reflexivity.
Qed.

Lemma rsn_sub_block_rank_ok s : s / 8 <= lastb -> rsn_sub_block_rank r s = Val (R1 ws (64 * s)).
Proof.
  intros Hs. destruct Hdir as (_ & Hp & _). pose proof lastb_small as Hsm. change (2 ^ 40) with 1099511627776 in Hsm.
  pose proof (N.div_mod' s 8) as Es. pose proof (N.mod_lt s 8 ltac:(discriminate)) as Hm.
  unfold rsn_sub_block_rank. rewrite RSN_BLOCK_SIZE_val, RSN_SBR_BITS_val, RSN_SBR_MASK_val.
  rewrite rsn_block_rank_ok by assumption. cbn [bind]. unfold rsn_sub_block_ranks.
  specialize (Hp (s / 8) Hs). set (b := s / 8) in *. set (m := s mod 8) in *. clearbody b m.
  rewrite omul_ok by (rewrite p64; lia). cbn [bind]. rewrite oadd_ok by (rewrite p64; lia). cbn [bind]. unfold idx.
  rewrite (N.mul_comm b 2), (proj2 Hp). cbn [bind].
  rewrite osub_ok by lia. cbn [bind]. rewrite oshr_ok by lia. cbn [bind].
  rewrite land511, N.shiftr_div_pow2, (N.mul_comm _ 9), N.pow_mul_r. change (2 ^ 9) with 512.
  (* the field 7 - m from the right is the counter m; for m = 0 it is the empty top of the word *)
  assert (Ef : encN ws b / 512 ^ (7 - m) mod 512 = R1 ws (64 * s) - R1 ws (512 * b)).
  { destruct (N.eq_dec m 0) as [->|E].
    - rewrite (N.div_small (encN ws b)) by (change (512 ^ (7 - 0)) with (2 ^ 63); apply encN_lt).
      replace (64 * s) with (512 * b) by lia. symmetry. apply N.sub_diag.
    - unfold encN. rewrite (enc_field 512 0 (cN ws b) 7); [|lia|intros i _ Hi; apply cN_bound; exact Hi|lia|lia].
      unfold cN. do 2 f_equal. lia. }
  rewrite Ef. pose proof (R1_mono ws (512 * b) (64 * s) ltac:(lia)). pose proof (R1_small (64 * s)) as Hr.
  rewrite oadd_ok by (rewrite p64; change (2 ^ 44) with 17592186044416 in Hr; lia). f_equal. lia.
Qed.

Lemma rsn_rank1_unchecked_ok i : i <= bv_nbits bv -> rsn_rank1_unchecked r i = Val (R1 ws i).
Proof.
  intros Hi. unfold rsn_rank1_unchecked. destruct (N.eqb_spec i 0) as [->|Hi0].
  - unfold ws. rewrite R1_0. reflexivity.
  - pose proof (wf_nbits bv Hwf) as Hn. pose proof (wf_len bv Hwf) as Hl. pose proof nl_le_lastb as Hll.
    fold nl in Hn, Hl. fold ws in Hl.
    rewrite shiftr6, land63, shiftr3, Hbv. fold ws.
    rewrite rsn_sub_block_rank_ok by lia. cbn [bind].
    destruct (N.ltb_spec ((i - 1) / 64 / 8 * 8) (len ws)); [|lia]. cbn [bind].
    destruct (nthN_lt_some ws ((i - 1) / 64)) as (w & Ew); [lia|].
    unfold idx. rewrite Ew. cbn [bind]. f_equal.
    rewrite popcount_shl_low by lia.
    rewrite <- (R1_word PC ws _ w _ Ew) by lia. f_equal. lia.
Qed.

Let s := bv_abs bv.

Lemma rsn_rank1_ok i :
  rsn_rank1 r i = Val (if (negb (len s =? 0)) && (i <=? len s) then Some (rank1_spec s i) else None).
Proof. unfold rsn_rank1. rewrite Hbv. apply (rank1_checked bv _ i Hwf), rsn_rank1_unchecked_ok. Qed.

Lemma rsn_rank0_ok i :
  rsn_rank0 r i = Val (if (negb (len s =? 0)) && (i <=? len s) then Some (rank0_spec s i) else None).
Proof. apply (rank0_checked bv _ i Hwf), rsn_rank1_ok. Qed.

Lemma rsn_n_ones_ok : rsn_n_ones r = Val (countb s).
Proof.
  unfold rsn_n_ones, s. rewrite (countb_abs bv Hwf). rewrite Hbv. unfold bv_is_empty, bv_len.
  destruct (N.eqb_spec (bv_nbits bv) 0) as [E|E].
  - rewrite E, R1_0. reflexivity.
  - rewrite rsn_rank1_ok. unfold s. rewrite (len_abs bv Hwf).
    destruct (N.eqb_spec (bv_nbits bv) 0); [lia|]. destruct (N.leb_spec (bv_nbits bv - 1) (bv_nbits bv)); [|lia].
    cbn [negb andb bind ounwrap]. rewrite (bv_get_correct bv _ Hwf). cbn [bind].
    rewrite nthN_abs. destruct (N.ltb_spec (bv_nbits bv - 1) (bv_nbits bv)); [|lia].
    pose proof (wf_nbits bv Hwf) as Hn. pose proof (wf_len bv Hwf) as Hl.
    destruct (nthN_lt_some (FL (bv_words bv)) (bv_nbits bv - 1)) as (x & Ex); [rewrite len_FL; lia|].
    rewrite Ex. cbn [option_map ounwrap bind]. f_equal.
    rewrite (rank1_abs bv _ Hwf) by lia. unfold R1.
    replace (bv_nbits bv) with (bv_nbits bv - 1 + 1) at 2 by lia.
    rewrite (rank_spec_succ _ _ _ _ Ex). reflexivity.
Qed.

Lemma rsn_n_zeros_ok : rsn_n_zeros r = Val (len s - countb s).
Proof.
  unfold rsn_n_zeros. rewrite rsn_n_ones_ok. cbn [bind]. rewrite Hbv. unfold bv_len, s.
  rewrite (len_abs bv Hwf), (countb_abs bv Hwf). apply osub_ok, R1_le.
Qed.

Definition nblk (one : bool) (r : rsnarrow) (b : N) : outcome N :=
  if one then rsn_block_rank r b
  else let! br := rsn_block_rank r b in osub (RSN_BLOCK_SIZE * 64 * b) br.
Definition nsub (one : bool) (r : rsnarrow) (s : N) : outcome N :=
  if one then rsn_sub_block_rank r s
  else let! sr := rsn_sub_block_rank r s in osub (64 * s) sr.

Lemma rsn_select_subblock_eq one i : rsn_select_subblock one r i =
  select_scan (if one then rsn_samples1 r else rsn_samples0 r) 1024 (nblk one r) (nsub one r)
              (S (length (rsn_pairs r))) i.
Proof. destruct one; reflexivity. Qed.

Lemma rsn_select_subblock_ok one k p : select_spec (FL ws) (cbit one) k = Some p ->
  rsn_select_subblock one r k = Val (p / 64, Rc ws one (64 * (p / 64))).
Proof.
  intros Hsel. destruct (Rc_select ws one k p Hsel) as (Hp & HRp & HRp1).
  destruct Hdir as (Hplen & _ & Hsam1 & Hsam0). unfold len in Hplen.
  rewrite rsn_select_subblock_eq.
  apply (select_scan_ok (Rc ws one) 64 1024 (64 * len ws) lastb); try lia.
  - apply Rc_mono.
  - destruct one; assumption.
  - intros b Hb. apply (Rc_of_R1 ws one _ (512 * b)), rsn_block_rank_ok, Hb.
  - intros s0 Hs0. apply Rc_of_R1, rsn_sub_block_rank_ok, Hs0.
Qed.

Lemma rsn_select_unchecked_ok one k p : select_spec (map N_of_bool s) (cbit one) k = Some p ->
  rsn_select_unchecked one r k = Val p.
Proof.
  intros Hsel0. pose proof (select_abs bv one k p Hsel0) as Hsel. fold ws in Hsel.
  destruct (Rc_select ws one k p Hsel) as (Hp & HRp & HRp1). pose proof (wf_len bv Hwf) as Hl. fold ws in Hl.
  unfold rsn_select_unchecked. rewrite (rsn_select_subblock_ok one k p Hsel). cbn [bind].
  rewrite shiftr3, Hbv. fold ws.
  destruct (N.ltb_spec (p / 64 / 8 * 8) (len ws)); [|lia]. cbn [bind].
  destruct (nthN_lt_some ws (p / 64)) as (w & Ew); [lia|].
  unfold idx. rewrite Ew. cbn [bind].
  rewrite osub_ok by (rewrite <- HRp; apply Rc_mono; lia). cbn [bind].
  change (if one then w else notw w) with (wsel one w).
  rewrite (siw_c SIW one w _ (p mod 64)).
  - cbn [bind]. f_equal. lia.
  - apply (Forall_nthN _ _ _ _ (wf_ok bv Hwf) Ew).
  - apply select_word_local; assumption.
Qed.

Lemma rsn_select1_ok k : rsn_select1 r k = Val (select1_spec s k).
Proof.
  unfold rsn_select1. rewrite rsn_n_ones_ok. cbn [bind]. rewrite countb_countN.
  apply (select_checked bv true), (rsn_select_unchecked_ok true).
Qed.

Lemma rsn_select0_ok k : rsn_select0 r k = Val (select0_spec s k).
Proof.
  unfold rsn_select0. rewrite rsn_n_zeros_ok. cbn [bind]. unfold s. rewrite <- (count0_abs bv Hwf).
  apply (select_checked bv false), (rsn_select_unchecked_ok false).
Qed.

End NQueries.
End Narrow.
