(* Side conditions on the constants extracted from the Rust sources (Gen/Consts.v).
   Each lemma is closed by computation on the *current* values: an edit of /repo that makes
   two sites inconsistent (a mask that does not match its shift, a field too narrow for
   the block size, ...) breaks one of them. *)
From Coq Require Import NArith.
From QwtModel Require Import Consts.
Open Scope N_scope.

Lemma LINE_SHIFT_val : LINE_SHIFT = 8. Proof. reflexivity. Qed.
Lemma LINE_MASK_ok : LINE_MASK = 2 ^ LINE_SHIFT - 1. Proof. reflexivity. Qed.
Lemma PUSH_LINE_MASK_ok : PUSH_LINE_MASK = LINE_MASK. Proof. reflexivity. Qed.
Lemma PUSH_POS_STEP_ok : PUSH_POS_STEP = 2. Proof. reflexivity. Qed.
Lemma QV_LEN_SHIFT_ok : QV_LEN_SHIFT = 1. Proof. reflexivity. Qed.
Lemma LINE_SYMS_val : LINE_SYMS = 256. Proof. reflexivity. Qed.
Lemma LINE_SYMS_nat_val : LINE_SYMS_nat = 256%nat. Proof. reflexivity. Qed.
Lemma QV_SYM_MASK_ok : QV_SYM_MASK = 3. Proof. reflexivity. Qed.
(* the three places that split a line position into (word, bit) agree, two words per plane *)
Lemma QV_WORD_sites :
  QV_WORD_SHIFT = 7 /\ QVG_WORD_SHIFT = 7 /\ QVR_WORD_SHIFT = 7 /\
  QV_WORD_MASK = 127 /\ QVG_WORD_MASK = 127 /\ QVR_WORD_MASK = 127 /\
  QV_LOW_PLANE = 2 /\ QVG_LOW_PLANE = 2.
Proof. repeat split; reflexivity. Qed.

(* superblock record: 44-bit absolute counter above seven 12-bit block counters *)
Lemma SB_sites : SB_SHIFT_GR = SB_SHIFT /\ SB_SHIFT_GC = SB_SHIFT.
Proof. split; reflexivity. Qed.
Lemma BLK_sites : BLK_BITS_GR = BLK_BITS /\ BLK_BITS_BP = BLK_BITS /\
  BLK_MASK_GR = 2 ^ BLK_BITS - 1 /\ BLK_MASK_BP = 2 ^ BLK_BITS - 1 /\ BLK_LIMIT = 2 ^ BLK_BITS.
Proof. repeat split; reflexivity. Qed.
Lemma SB_layout : SB_SHIFT = (BLOCKS_IN_SB - 1) * BLK_BITS /\ SB_SHIFT < 128.
Proof. split; reflexivity. Qed.
Lemma BLOCKS_sites : RS_BLOCKS_IN_SB = BLOCKS_IN_SB /\ SET_BLOCK_ID_LIMIT = BLOCKS_IN_SB /\
  RANK_BLOCK_MASK = BLOCKS_IN_SB - 1 /\ BLOCKS_IN_SB = 8.
Proof. repeat split; reflexivity. Qed.
(* a block counter never exceeds the symbols of the 7 preceding blocks (both block sizes),
   and the sentinel block counter never exceeds a whole superblock minus one block *)
Lemma BLK_fits : (BLOCKS_IN_SB - 1) * 512 < BLK_LIMIT.
Proof. reflexivity. Qed.
(* the absolute counter fits its field for every admitted length *)
Lemma SB_counter_fits : MAX_LEN * 2 ^ SB_SHIFT <= 2 ^ 128.
Proof. discriminate. Qed.
(* a superblock id of an admitted sequence fits the u32 select samples *)
Lemma SAMPLE_fits : (MAX_LEN - 1) / (BLOCKS_IN_SB * 256) < 2 ^ 32.
Proof. reflexivity. Qed.
Lemma SELECT_NUM_SAMPLES_pos : 0 < SELECT_NUM_SAMPLES.
Proof. reflexivity. Qed.
