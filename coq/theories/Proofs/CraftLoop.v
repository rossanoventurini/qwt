(* The loops of `craft_wm_codes` (src/quadwt/huffqwt.rs and src/binwt/mod.rs) in the shape the translator gives them,
   against the hand model Model/Huff.v, for either fragment size.  The source keeps a scratch array of fixed size and
   the number m of its live cells; the hand model keeps the list of the live cells ([crel]).  Each lemma takes the body
   of one loop as a parameter, with a hypothesis saying what one iteration computes; Proofs/FnsCraftOk.v and
   Proofs/FnsCraft2Ok.v discharge these hypotheses on the generated text of the quad and of the binary function. *)
From Coq Require Import ZArith Lia ZifyBool ZifyN ZifyNat Sorted Permutation.
From QwtModel Require Import ListX Loops ListXP NBits OutcomeP Huff CraftArith CraftP.

Lemma map_setN {A B} (g : A -> B) : forall (l : list A) i v, map g (setN l i v) = setN (map g l) i (g v).
Proof.
  induction l as [|x l IH]; intros i v; cbn [setN map]; [reflexivity|].
  destruct (i =? 0); cbn [map]; [reflexivity|]. rewrite IH. reflexivity.
Qed.

Lemma insert_by_perm {A} (key : A -> N) x l : Permutation (insert_by key x l) (x :: l).
Proof.
  induction l as [|y l IH]; cbn [insert_by]; [reflexivity|].
  destruct (key x <=? key y); [reflexivity|].
  rewrite IH. apply perm_swap.
Qed.

Lemma sort_by_perm {A} (key : A -> N) l : Permutation (fold_right (insert_by key) [] l) l.
Proof.
  induction l as [|x l IH]; cbn [fold_right]; [reflexivity|].
  rewrite insert_by_perm. now constructor.
Qed.

Lemma insert_by_sorted {A} (key : A -> N) x l :
  StronglySorted (fun p q => key p <= key q) l -> StronglySorted (fun p q => key p <= key q) (insert_by key x l).
Proof.
  induction 1 as [|y l Hs IH Hy]; cbn [insert_by].
  - constructor; constructor.
  - destruct (N.leb_spec (key x) (key y)) as [Hle|Hgt].
    + constructor; [constructor; assumption|]. constructor; [exact Hle|].
      rewrite Forall_forall in *. intros z Hz. specialize (Hy z Hz). cbv beta in *. lia.
    + constructor; [exact IH|]. rewrite (Forall_forall _ (insert_by key x l)). intros z Hz.
      apply (Permutation_in _ (insert_by_perm key x l)) in Hz. destruct Hz as [<-|Hz]; [lia|].
      rewrite Forall_forall in Hy. exact (Hy z Hz).
Qed.

Lemma sort_by_sorted {A} (key : A -> N) l :
  StronglySorted (fun p q => key p <= key q) (fold_right (insert_by key) [] l).
Proof.
  induction l as [|x l IH]; cbn [fold_right]; [constructor|]. apply insert_by_sorted. exact IH.
Qed.

Lemma sort_by_id {A} (key : A -> N) l :
  StronglySorted (fun p q => key p <= key q) l -> fold_right (insert_by key) [] l = l.
Proof.
  induction 1 as [|x l Hs IH Hx]; cbn [fold_right]; [reflexivity|].
  rewrite IH. destruct l as [|y l]; cbn [insert_by]; [reflexivity|].
  inversion Hx as [|? ? Hxy _]; subst. destruct (N.leb_spec (key x) (key y)); [reflexivity|lia].
Qed.

Definition nthd (l : list N) (i : N) : N := match nthN l i with Some x => x | None => 0 end.

Lemma nthN_nthd l i : i < len l -> nthN l i = Some (nthd l i).
Proof. intros H. unfold nthd. destruct (nthN_lt_some l i H) as (a & ->). reflexivity. Qed.
Lemma idx_nthd l i : i < len l -> idx l i = Val (nthd l i).
Proof. intros H. unfold idx. rewrite nthN_nthd by exact H. reflexivity. Qed.
Lemma nthd_setN_same l i v : i < len l -> nthd (setN l i v) i = v.
Proof. intros H. unfold nthd. rewrite nthN_setN_same by exact H. reflexivity. Qed.
Lemma nthd_setN_other l i v k : k <> i -> nthd (setN l i v) k = nthd l k.
Proof. intros H. unfold nthd. rewrite nthN_setN_other by (intros E; apply H; symmetry; exact E). reflexivity. Qed.
Lemma nthd_app_l a b i : i < len a -> nthd (a ++ b) i = nthd a i.
Proof. intros H. unfold nthd. rewrite nthN_app1 by exact H. reflexivity. Qed.
Lemma nthd_app_r a b n i : len a = n -> nthd (a ++ b) (n + i) = nthd b i.
Proof. intros <-. unfold nthd. rewrite nthN_app2 by lia. replace (len a + i - len a) with i by lia. reflexivity. Qed.
Lemma nthd_map f l i : i < len l -> nthd (map f l) i = f (nthd l i).
Proof. intros H. unfold nthd. rewrite nthN_map. destruct (nthN_lt_some l i H) as (a & ->). reflexivity. Qed.
Lemma nthd_skipnN l k i : nthd (skipnN k l) i = nthd l (k + i).
Proof. unfold nthd. rewrite nthN_skipnN. reflexivity. Qed.
Lemma nthd_firstnN l k i : i < k -> k <= len l -> nthd (firstnN k l) i = nthd l i.
Proof.
  intros Hi Hk. rewrite <- (firstnN_skipnN l k) at 2. symmetry. apply nthd_app_l.
  rewrite len_firstnN_le by exact Hk. exact Hi.
Qed.
Lemma nthd_ext l1 l2 : len l1 = len l2 -> (forall i, i < len l1 -> nthd l1 i = nthd l2 i) -> l1 = l2.
Proof.
  intros Hl H. apply nthN_ext. intros i. destruct (N.ltb_spec i (len l1)) as [Hi|Hi].
  - rewrite !nthN_nthd by lia. f_equal. apply H. exact Hi.
  - rewrite !nthN_none by lia. reflexivity.
Qed.

Lemma oshl_small w x s : s < w -> N.shiftl x s < 2 ^ w -> oshl w x s = Val (N.shiftl x s).
Proof. intros H H2. rewrite oshl_ok by exact H. rewrite N.mod_small by exact H2. reflexivity. Qed.

(* a tag or a fragment, shifted to fragment l of a code of at most 32 bits *)
Lemma shl_frag_small frag k l : k < 2 ^ frag -> l + frag <= 32 -> N.shiftl k l < 2 ^ 32.
Proof.
  intros Hk Hl. rewrite N.shiftl_mul_pow2. apply N.lt_le_trans with (2 ^ frag * 2 ^ l).
  - apply N.mul_lt_mono_pos_r; [apply pow2_pos|exact Hk].
  - rewrite <- N.pow_add_r. apply N.pow_le_mono_r; [discriminate|]. lia.
Qed.

(* cell r of block k, for j <= r < j + d, has index d * k + r: different (k, r) give different cells *)
Lemma block_inj d j k k' r r' : j <= r < j + d -> j <= r' < j + d -> d * k + r = d * k' + r' -> r = r'.
Proof.
  intros Hr Hr' E. destruct (N.lt_trichotomy k k') as [H|[->|H]].
  - assert (d * (k + 1) <= d * k') by (apply N.mul_le_mono_l; lia). lia.
  - lia.
  - assert (d * (k' + 1) <= d * k) by (apply N.mul_le_mono_l; lia). lia.
Qed.

Lemma block_decomp d a x : x < d * a -> exists k q, k < a /\ q < d /\ x = d * k + q.
Proof.
  intros H. assert (Hd : d <> 0) by (intros ->; lia). exists (x / d), (x mod d).
  split; [apply N.div_lt_upper_bound; assumption|].
  split; [apply N.mod_lt; exact Hd|]. apply N.div_mod. exact Hd.
Qed.

(* the value of block k (of a) after an expansion at fragment l: blocks 0 .. a-2 carry the tags a-1 .. 1,
   the last block is the old part *)
Definition tagged (a l k x : N) : N := N.lor x (N.shiftl (a - 1 - k) l).

Lemma tagged_last a l x : tagged a l (a - 1) x = x.
Proof. unfold tagged. rewrite N.sub_diag, N.shiftl_0_l. apply N.lor_0_r. Qed.

Lemma nthd_tag_blocks l act n : forall k q, k <= N.of_nat n -> q < len act ->
  nthd (tag_blocks l act n) (len act * k + q) = tagged (N.of_nat n + 1) l k (nthd act q).
Proof.
  induction n as [|n IH]; intros k q Hk Hq; cbn [tag_blocks].
  - assert (k = 0) as -> by lia. rewrite N.mul_0_r. symmetry. apply (tagged_last 1).
  - destruct (N.zero_or_succ k) as [->|[k' ->]].
    + rewrite N.mul_0_r, nthd_app_l by (rewrite len_map; exact Hq). rewrite nthd_map by exact Hq.
      unfold tagged. f_equal. f_equal. lia.
    + replace (len act * N.succ k' + q) with (len act + (len act * k' + q)) by lia.
      rewrite nthd_app_r by apply len_map. rewrite IH by lia. unfold tagged. f_equal. f_equal. lia.
Qed.

Lemma craft_expand_cells frag c j l size c' : frag = 1 \/ frag = 2 -> j <= len c ->
  craft_expand frag c j l size = Val c' ->
  (forall i, i < j -> nthd c' i = nthd c i) /\
  (forall k q, k < 2 ^ frag -> q < len c - j ->
     nthd c' (j + ((len c - j) * k + q)) = tagged (2 ^ frag) l k (nthd c (j + q))).
Proof.
  intros Hf Hj H. destruct (craft_expand_spec frag c j l size c' Hf Hj H) as (_ & -> & _ & _).
  pose proof (len_firstnN_le c j Hj) as Lp. split.
  - intros i Hi. rewrite nthd_app_l by (rewrite Lp; exact Hi). apply nthd_firstnN; assumption.
  - intros k q Hk Hq. rewrite nthd_app_r by exact Lp. rewrite <- (len_skipnN c j) in Hq |- *.
    rewrite nthd_tag_blocks, Nnat.N2Nat.id, N.sub_add, nthd_skipnN; [reflexivity|lia|rewrite Nnat.N2Nat.id; lia|exact Hq].
Qed.

(* One iteration of `for r in j..m` on the array: cell r goes, tagged, to cell r of each of the a blocks. *)
Definition spread (a d l r : N) (c c1 : list N) : Prop :=
  len c1 = len c /\
  (forall k, k < a -> nthd c1 (d * k + r) = tagged a l k (nthd c r)) /\
  (forall i, (forall k, k < a -> i <> d * k + r) -> nthd c1 i = nthd c i).

(* The iterations r .. j+d-1.  The cells an iteration writes are read by no later one (they lie in other
   blocks or at smaller r) and written by no other one ([block_inj]). *)
Lemma spread_loop {R} (body : N -> list N -> outcome (step (list N) R)) a d l j size :
  (forall r c, j <= r < j + d -> len c = size -> exists c1, body r c = Val (Next c1) /\ spread a d l r c c1) ->
  forall n r c, r + N.of_nat n = j + d -> j <= r -> len c = size ->
  exists c', for_loop body r n c = Val (Done c') /\ len c' = size /\
    (forall k r', k < a -> r <= r' < j + d -> nthd c' (d * k + r') = tagged a l k (nthd c r')) /\
    (forall i, (forall k r', k < a -> r <= r' < j + d -> i <> d * k + r') -> nthd c' i = nthd c i).
Proof.
  intros Hbody. induction n as [|n IH]; intros r c Hn Hjr Hlen; cbn [for_loop].
  - exists c. split; [reflexivity|]. split; [exact Hlen|]. split; [intros k r' _ Hr'; lia|reflexivity].
  - destruct (Hbody r c ltac:(lia) Hlen) as (c1 & -> & L1 & B1 & F1). cbn [bind].
    destruct (IH (r + 1) c1 ltac:(lia) ltac:(lia) ltac:(lia)) as (c' & E & L & B & F).
    exists c'. split; [exact E|]. split; [exact L|]. split.
    + intros k r' Hk Hr'. destruct (N.eq_dec r' r) as [->|Hne].
      * rewrite F, B1; [reflexivity|exact Hk|]. intros k' r'' _ Hr'' Eq.
        pose proof (block_inj d j k k' r r'' ltac:(lia) ltac:(lia) Eq). lia.
      * rewrite B, F1; [reflexivity| |exact Hk|lia]. intros k' _ Eq. rewrite <- (N.add_0_l r'), <- (N.mul_0_r d) in Eq.
        pose proof (block_inj d j 0 k' r' r ltac:(lia) ltac:(lia) Eq). lia.
    + intros i Hi. rewrite F, F1; [reflexivity| |].
      * intros k Hk. apply Hi; [exact Hk|lia].
      * intros k r' Hk Hr'. apply Hi; [exact Hk|lia].
Qed.

(* the fixed-size scratch array and the hand model's list of its first m = len c cells *)
Definition crel (size : N) (carr c : list N) : Prop := len carr = size /\ firstnN (len c) carr = c.

Lemma crel_len size carr c : crel size carr c -> len c <= size.
Proof. intros [<- <-]. rewrite firstnN_len. lia. Qed.

Lemma crel_nthd size carr c i : crel size carr c -> i < len c -> nthd carr i = nthd c i.
Proof.
  intros HR Hi. pose proof (crel_len size carr c HR) as Hl. destruct HR as [HS HC].
  rewrite <- HC. symmetry. apply nthd_firstnN; [exact Hi|lia].
Qed.

Lemma crel_idx size carr c j x : crel size carr c -> idx c j = Val x -> idx carr j = Val x.
Proof.
  intros HR E. pose proof (idx_lt _ _ _ E) as Hj. pose proof (crel_len _ _ _ HR) as Hl.
  rewrite idx_nthd in E by exact Hj. rewrite idx_nthd by (rewrite (proj1 HR); lia).
  rewrite (crel_nthd size carr c j HR Hj). exact E.
Qed.

Lemma crel_init size : 1 <= size -> crel size (repeat 0 (N.to_nat size)) [0].
Proof.
  intros H. split; [rewrite len_repeat; lia|].
  destruct (N.to_nat size) as [|n] eqn:E; [lia|]. cbn [repeat]. apply (firstnN_app_exact [0]).
Qed.

Section Sim.
Variable frag : N.
Hypothesis Hfrag : frag = 1 \/ frag = 2.

(* `for r in j..m` = craft_expand *)
Lemma expand_sim {R} (body : N -> list N -> outcome (step (list N) R)) size carr c j l c' :
  crel size carr c -> j <= len c ->
  (j + 2 ^ frag * (len c - j) <= size ->
   forall r cr, j <= r < len c -> len cr = size ->
   exists c1, body r cr = Val (Next c1) /\ spread (2 ^ frag) (len c - j) l r cr c1) ->
  craft_expand frag c j l size = Val c' ->
  exists carr', for_loop body j (N.to_nat (len c - j)) carr = Val (Done carr') /\ crel size carr' c'.
Proof.
  intros HR Hj Hbody H. pose proof (proj1 HR) as HS.
  destruct (craft_expand_spec frag c j l size c' Hfrag Hj H) as (_ & _ & Hsz & HL).
  destruct (craft_expand_cells frag c j l size c' Hfrag Hj H) as (Hpre & Hblk).
  rewrite HL in Hsz. specialize (Hbody Hsz). set (d := len c - j) in *.
  destruct (spread_loop body (2 ^ frag) d l j size) with (n := N.to_nat d) (r := j) (c := carr)
    as (carr' & E & L & B & F); [|lia|lia|exact HS|].
  { intros r cr Hr. apply Hbody. lia. }
  exists carr'. split; [exact E|]. split; [exact L|]. apply nthd_ext.
  - apply len_firstnN_le. lia.
  - rewrite len_firstnN_le by lia. intros i Hi. rewrite nthd_firstnN by lia.
    destruct (N.ltb_spec i j) as [Hij|Hij].
    + rewrite Hpre, F by (try intros k r' _ Hr'; lia). apply (crel_nthd size); [exact HR|lia].
    + destruct (block_decomp d (2 ^ frag) (i - j) ltac:(lia)) as (k & q & Hk & Hq & Ei).
      assert (i = j + (d * k + q)) as -> by lia. rewrite Hblk by assumption.
      replace (j + (d * k + q)) with (d * k + (j + q)) by lia. rewrite B by lia.
      f_equal. apply (crel_nthd size); [exact HR|lia].
Qed.

(* what one expansion does to the quantities the overflow checks of the source depend on *)
Lemma expand_bound c j l size c' : craft_expand frag c j l size = Val c' ->
  j <= len c -> l mod frag = 0 -> len c <= 2 ^ l ->
  (l + frag) mod frag = 0 /\ l + frag <= 32 /\ len c' <= 2 ^ (l + frag) /\ j <= len c' /\
  len c' = j + 2 ^ frag * (len c - j).
Proof.
  intros H Hj Hm Hp. destruct (craft_expand_spec frag c j l size c' Hfrag Hj H) as (Hl & _ & _ & HL).
  destruct (frag_next frag l 32 Hfrag Hm (frag_32 frag Hfrag) Hl) as (A1 & A2).
  split; [exact A1|]. split; [exact A2|]. split; [|split; [rewrite HL; apply N.le_add_r|exact HL]].
  (* j + a * (m - j) <= a * m <= a * 2^l, with a = 2^frag >= 1 *)
  rewrite N.pow_add_r, HL, N.mul_sub_distr_l.
  pose proof (N.mul_le_mono_l _ _ (2 ^ frag) Hp) as H1. pose proof (N.mul_le_mono_l _ _ (2 ^ frag) Hj) as H2.
  pose proof (N.mul_le_mono_r 1 (2 ^ frag) j) as H3. pose proof (pow2_pos frag) as H4.
  clear - H1 H2 H3 H4. lia.
Qed.

Lemma grow_bound target size : forall fh c j l c' l',
  craft_grow frag c j l target size fh = Val (c', l') ->
  j <= len c -> l mod frag = 0 -> l <= 32 -> len c <= 2 ^ l ->
  l' mod frag = 0 /\ l' <= 32 /\ len c' <= 2 ^ l' /\ j <= len c'.
Proof.
  induction fh as [|fh IH]; intros c j l c' l' H Hj Hm Hl Hp; cbn [craft_grow] in H; [discriminate|].
  destruct (l <? target).
  - destruct (craft_expand frag c j l size) as [c1|] eqn:E; cbn [bind] in H; [|discriminate].
    destruct (expand_bound c j l size c1 E Hj Hm Hp) as (B1 & B2 & B3 & B4 & _).
    exact (IH c1 j (l + frag) c' l' H B4 B1 B2 B3).
  - injection H as <- <-. repeat split; assumption.
Qed.

(* `while f[j].1 > l { .. }` = craft_grow.  Each round adds frag to l <= 32: [fg] rounds suffice
   when 32 - l < frag * fg. *)
Lemma grow_sim {R} (cond : list N * N * N -> outcome bool)
  (wbody : list N * N * N -> outcome (step (list N * N * N) R)) j target size :
  (forall carr m l, cond (carr, m, l) = Val (l <? target)) ->
  (forall carr c l c1, crel size carr c -> j <= len c -> len c <= 2 ^ 32 -> l + frag <= 32 ->
     craft_expand frag c j l size = Val c1 -> len c1 = j + 2 ^ frag * (len c - j) ->
     exists carr1, wbody (carr, len c, l) = Val (Next (carr1, len c1, l + frag)) /\ crel size carr1 c1) ->
  forall fh fg carr c l c' l',
  craft_grow frag c j l target size fh = Val (c', l') ->
  crel size carr c -> j <= len c -> l mod frag = 0 -> l <= 32 -> len c <= 2 ^ l ->
  32 - l < frag * N.of_nat fg ->
  exists carr', while_loop cond wbody fg (carr, len c, l) = Val (Done (carr', len c', l')) /\ crel size carr' c'.
Proof.
  intros Hc Hb. induction fh as [|fh IH]; intros fg carr c l c' l' H HR Hj Hm Hl Hp Hfg;
    cbn [craft_grow] in H; [discriminate|].
  destruct fg as [|fg]; [exfalso; lia|]. cbn [while_loop]. rewrite Hc. cbn [bind].
  destruct (l <? target).
  - destruct (craft_expand frag c j l size) as [c1|] eqn:E; cbn [bind] in H; [|discriminate].
    destruct (expand_bound c j l size c1 E Hj Hm Hp) as (B1 & B2 & B3 & B4 & B5).
    assert (Hm32 : len c <= 2 ^ 32).
    { apply (N.le_trans _ _ _ Hp). apply N.pow_le_mono_r; [discriminate|exact Hl]. }
    destruct (Hb carr c l c1 HR Hj Hm32 B2 E B5) as (carr1 & -> & HR1). cbn [bind].
    apply (IH fg carr1 c1 (l + frag) c' l' H HR1 B4 B1 B2 B3).
    rewrite Nnat.Nat2N.inj_succ, N.mul_succ_r in Hfg. clear - Hfg B2. lia.
  - injection H as <- <-. exists carr. split; [reflexivity|exact HR].
Qed.

(* the reversal of the fragments = rev_frags *)
Lemma rev_sim {R} (body : N -> N -> outcome (step N R)) cj l : l mod frag = 0 -> l <= 32 ->
  (forall k acc, frag * k + frag <= l ->
     body k acc = Val (Next (N.lor acc (N.shiftl (N.land (N.shiftr cj (frag * k)) (2 ^ frag - 1))
                                                  (l - frag * k - frag))))) ->
  for_loop body 0 (N.to_nat (l / frag)) 0 = Val (Done (rev_frags frag cj l 0 40)).
Proof.
  intros Hm Hl Hb. assert (Hfp : 0 < frag) by (destruct Hfrag as [-> | ->]; reflexivity).
  assert (G : forall n k acc fuel, (n < fuel)%nat -> frag * k + frag * N.of_nat n = l ->
            for_loop body k n acc = Val (Done (N.lor acc (rev_frags frag cj l (frag * k) fuel)))).
  { induction n as [|n IH]; intros k acc fuel Hf E; (destruct fuel as [|fuel]; [exfalso; lia|]);
      cbn [for_loop rev_frags].
    - destruct (N.ltb_spec (frag * k) l); [exfalso; lia|]. rewrite N.lor_0_r. reflexivity.
    - rewrite Nnat.Nat2N.inj_succ, N.mul_succ_r in E. rewrite Hb by lia. cbn [bind].
      destruct (N.ltb_spec (frag * k) l); [|exfalso; lia].
      rewrite (IH (k + 1) _ fuel) by lia. rewrite N.mul_add_distr_l, N.mul_1_r, N.lor_assoc. reflexivity. }
  rewrite (G _ 0 0 40%nat).
  - rewrite N.mul_0_r, N.lor_0_l. reflexivity.
  - assert (l / frag <= 32) by (apply N.div_le_upper_bound; lia). lia.
  - rewrite Nnat.N2Nat.id, N.mul_0_r. apply mul_div_exact; assumption.
Qed.

(* `for j in 0..alph_size` = craft_assign; the table is kept as its two columns *)
Notation ostate := (list N * N * N * list N * list N)%type (only parsing).

(* one iteration: the growth for symbol number j, the reversal of c[j], the entry of the table *)
Definition assign_step {R} (obody : N -> ostate -> outcome (step ostate R)) (f : list (N * N)) size : Prop :=
  forall j carr c l table sym target c' l' cj,
    crel size carr c -> j <= len c -> l mod frag = 0 -> l <= 32 -> len c <= 2 ^ l ->
    idx f j = Val (sym, target) ->
    craft_grow frag c j l target size 40 = Val (c', l') -> l' mod frag = 0 -> l' <= 32 ->
    idx c' j = Val cj -> sym < len table ->
    exists carr',
      obody j (carr, len c, l, map pc_content table, map pc_len table) =
        Val (Next (carr', len c', l',
                   setN (map pc_content table) sym (rev_frags frag cj l' 0 40),
                   setN (map pc_len table) sym l')) /\
      crel size carr' c'.

Lemma assign_sim {R} (obody : N -> ostate -> outcome (step ostate R)) (f : list (N * N)) size :
  assign_step obody f size ->
  forall rest pre carr c l table tab, f = pre ++ rest ->
  craft_assign frag rest c (len pre) l size table = Val tab ->
  crel size carr c -> len pre <= len c -> l mod frag = 0 -> l <= 32 -> len c <= 2 ^ l ->
  exists fin,
    for_loop obody (len pre) (length rest) (carr, len c, l, map pc_content table, map pc_len table) =
      Val (Done (fin, map pc_content tab, map pc_len tab)).
Proof.
  intros Hob. induction rest as [|[sym target] rest IH]; intros pre carr c l table tab Hf H HR Hj Hm Hl Hp;
    cbn [craft_assign] in H; cbn [for_loop length].
  - injection H as <-. eexists. reflexivity.
  - destruct (craft_grow frag c (len pre) l target size 40) as [[c' l']|] eqn:EG;
      cbn [bind] in H; [|discriminate].
    destruct (idx c' (len pre)) as [cj|] eqn:EI; cbn [bind] in H; [|discriminate].
    destruct (N.ltb_spec sym (len table)) as [Hs|Hs]; cbn [bind] in H; [|discriminate].
    assert (Hn : idx f (len pre) = Val (sym, target)).
    { unfold idx. rewrite Hf, nthN_app2 by lia. rewrite N.sub_diag, nthN_0. reflexivity. }
    destruct (grow_bound target size _ c (len pre) l c' l' EG Hj Hm Hl Hp) as (B1 & B2 & B3 & _).
    destruct (Hob (len pre) carr c l table sym target c' l' cj HR Hj Hm Hl Hp Hn EG B1 B2 EI Hs) as (carr' & -> & HR').
    cbn [bind].
    pose proof (idx_lt _ _ _ EI) as Hjl.
    set (code := mk_pc (rev_frags frag cj l' 0 40) l') in *.
    change (rev_frags frag cj l' 0 40) with (pc_content code).
    change (setN (map pc_len table) sym l') with (setN (map pc_len table) sym (pc_len code)).
    rewrite <- !map_setN.
    replace (len pre + 1) with (len (pre ++ [(sym, target)])) in * by (rewrite len_app; reflexivity).
    apply (IH (pre ++ [(sym, target)]) carr' c' l' _ tab); try assumption.
    + rewrite <- app_assoc. exact Hf.
    + rewrite len_app. change (len [(sym, target)]) with 1. clear - Hjl. lia.
Qed.

Lemma craft_loop_sim {R} (obody : N -> ostate -> outcome (step ostate R)) (f : list (N * N)) size sigma tab :
  1 <= size ->
  assign_step obody f size ->
  craft_assign frag f [0] 0 0 size (repeat pc_zero (N.to_nat (sigma + 1))) = Val tab ->
  exists fin,
    for_loop obody 0 (length f)
      (repeat 0 (N.to_nat size), 1, 0, repeat 0 (N.to_nat (sigma + 1)), repeat 0 (N.to_nat (sigma + 1))) =
      Val (Done (fin, map pc_content tab, map pc_len tab)).
Proof.
  intros Hs Hob H.
  destruct (assign_sim obody f size Hob f [] (repeat 0 (N.to_nat size)) [0] 0 _ tab eq_refl H (crel_init size Hs))
    as (fin & EL); [apply N.le_0_l| |discriminate|exact (N.le_refl 1)|].
  - apply N.mod_0_l. destruct Hfrag as [-> | ->]; discriminate.
  - exists fin. rewrite !map_repeat in EL. exact EL.
Qed.

(* whenever the hand model returns, the request has at most 2^32 symbols (the codewords have at most 32 bits) *)
Lemma assign_bound size : forall f c j l table tab,
  craft_assign frag f c j l size table = Val tab ->
  j <= len c -> l mod frag = 0 -> l <= 32 -> len c <= 2 ^ l -> j + len f <= 2 ^ 32.
Proof.
  induction f as [|[sym target] f IH]; intros c j l table tab H Hj Hm Hl Hp; cbn [craft_assign] in H.
  - rewrite len_nil. assert (2 ^ l <= 2 ^ 32) by (apply N.pow_le_mono_r; [discriminate|exact Hl]). lia.
  - destruct (craft_grow frag c j l target size 40) as [[c' l']|] eqn:EG; cbn [bind] in H; [|discriminate].
    destruct (idx c' j) as [cj|] eqn:EI; cbn [bind] in H; [|discriminate].
    destruct (sym <? len table); cbn [bind] in H; [|discriminate].
    destruct (grow_bound target size _ c j l c' l' EG Hj Hm Hl Hp) as (B1 & B2 & B3 & _).
    pose proof (idx_lt _ _ _ EI) as Hjl.
    pose proof (IH c' (j + 1) l' _ tab H ltac:(lia) B1 B2 B3). rewrite len_cons. lia.
Qed.

Lemma craft_len_bound f sigma scratch tab : craft_wm_codes frag f sigma scratch = Val tab -> len f <= 2 ^ 32.
Proof.
  intros H. apply (assign_bound _ f [0] 0 0 _ tab H); [apply N.le_0_l| |discriminate|exact (N.le_refl 1)].
  apply N.mod_0_l. destruct Hfrag as [-> | ->]; discriminate.
Qed.
End Sim.

(* One step through the generated text: the operation at the head of the goal returns its value; [side] shows
   that the index is within the array, the result within the type. *)
Ltac ostep side :=
  lazymatch goal with
  | |- bind (idx ?l ?i) _ = _ => rewrite (idx_nthd l i) by side
  | |- bind (osub ?a ?b) _ = _ => rewrite (osub_ok a b) by side
  | |- bind (omul ?w ?a ?b) _ = _ => rewrite (omul_ok w a b) by side
  | |- bind (oadd ?w ?a ?b) _ = _ => rewrite (oadd_ok w a b) by side
  | |- bind (oshl ?w ?a ?b) _ = _ => rewrite (oshl_small w a b) by side
  | |- bind (oshr ?w ?a ?b) _ = _ => rewrite (oshr_ok w a b) by side
  end; cbn [bind].
