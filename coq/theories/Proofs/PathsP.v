(* C19: corollaries of the construction contracts.
   (a) the answers of a quad wavelet tree do not depend on the element width it was built and
       queried with;
   (b) the constructors are injective: different sequences never build equal structures (and, the
       constructors being functions, equal sequences build equal structures);
   (c) the same for the rank/select quad vector (up to the two stored bits, [sym4]) and for the
       Huffman-shaped tree over a fixed code table. *)
From Coq Require Import ZArith Lia ZifyBool ZifyN ZifyNat.
From QwtModel Require Import ListX Seq Consts QVec RSQ QWT Huff ListXP OutcomeP QVecP RSQBuild RSQP.
From QwtModel Require Import QWTBuild QWTP HQWTP.

Lemma nthN_ext_len {A} (l1 l2 : list A) : len l1 = len l2 ->
  (forall i, i < len l1 -> nthN l1 i = nthN l2 i) -> l1 = l2.
Proof.
  intros Hl H. apply nthN_ext. intros i. destruct (N.ltb_spec i (len l1)) as [Hi|Hi].
  - now apply H.
  - rewrite !nthN_none by lia. reflexivity.
Qed.

(* the constructors being functions, what they return is the structure their contract speaks of *)
Lemma qwt_new_spec w bsize seq t : QWTP.width_ok w -> (bsize = 256 \/ bsize = 512) ->
  Forall (fun x => x < 2 ^ w) seq -> len seq < RSQ_MAXN ->
  qwt_new w bsize seq = Val t -> qwt_spec w bsize t seq.
Proof. intros Hw Hb HF Hn. exact (built (qwt_new_correct w bsize seq Hw Hb HF Hn)). Qed.

Lemma rsq_new_spec bsize v r : (bsize = 256 \/ bsize = 512) -> len v < RSQ_MAXN ->
  rsq_new bsize v = Val r -> rsq_spec bsize r (map sym4 v).
Proof. intros Hb Hn. exact (built (rsq_new_correct bsize v Hb Hn)). Qed.

Lemma hq_build_spec w bsize seq tab t : HQWTP.width_ok w -> (bsize = 256 \/ bsize = 512) ->
  Forall (fun x => x < 2 ^ w) seq -> len seq < RSQ_MAXN -> table_ok seq tab ->
  hq_build bsize seq tab = Val t -> hq_spec w bsize t seq.
Proof. intros Hw Hb HF Hn HT. exact (built (hq_build_correct w bsize seq tab Hw Hb HF Hn HT)). Qed.

Theorem qwt_width_independent : forall w1 w2 bsize seq t1 t2,
  QWTP.width_ok w1 -> QWTP.width_ok w2 -> (bsize = 256 \/ bsize = 512) ->
  Forall (fun x => x < 2 ^ w1) seq -> Forall (fun x => x < 2 ^ w2) seq -> len seq < RSQ_MAXN ->
  qwt_new w1 bsize seq = Val t1 -> qwt_new w2 bsize seq = Val t2 ->
  (forall i, qwt_get w1 bsize t1 i = qwt_get w2 bsize t2 i) /\
  (forall c i, c < 2 ^ w1 -> c < 2 ^ w2 -> qwt_rank w1 bsize t1 c i = qwt_rank w2 bsize t2 c i) /\
  (forall c k, c < 2 ^ w1 -> c < 2 ^ w2 -> k < 2 ^ 64 -> qwt_select w1 bsize t1 c k = qwt_select w2 bsize t2 c k).
Proof.
  intros w1 w2 bsize seq t1 t2 Hw1 Hw2 Hb HF1 HF2 Hn E1 E2.
  pose proof (qwt_new_spec w1 bsize seq t1 Hw1 Hb HF1 Hn E1) as S1.
  pose proof (qwt_new_spec w2 bsize seq t2 Hw2 Hb HF2 Hn E2) as S2.
  destruct S1 as (_ & _ & _ & _ & G1 & R1 & _ & Q1 & _).
  destruct S2 as (_ & _ & _ & _ & G2 & R2 & _ & Q2 & _).
  split; [|split].
  - intros i. now rewrite G1, G2.
  - intros c i Hc1 Hc2. now rewrite (R1 c i Hc1), (R2 c i Hc2).
  - intros c k Hc1 Hc2 Hk. now rewrite (Q1 c k Hc1 Hk), (Q2 c k Hc2 Hk).
Qed.

(* also the metadata and the remaining queries *)
Corollary qwt_width_independent_more : forall w1 w2 bsize seq t1 t2,
  QWTP.width_ok w1 -> QWTP.width_ok w2 -> (bsize = 256 \/ bsize = 512) ->
  Forall (fun x => x < 2 ^ w1) seq -> Forall (fun x => x < 2 ^ w2) seq -> len seq < RSQ_MAXN ->
  qwt_new w1 bsize seq = Val t1 -> qwt_new w2 bsize seq = Val t2 ->
  qwt_len t1 = qwt_len t2 /\ qwt_is_empty t1 = qwt_is_empty t2 /\ qwt_sigma t1 = qwt_sigma t2 /\
  q_n_levels t1 = q_n_levels t2 /\
  (forall c i, c < 2 ^ w1 -> c < 2 ^ w2 -> qwt_rank_prefetch w1 bsize t1 c i = qwt_rank_prefetch w2 bsize t2 c i) /\
  (forall i, i < len seq -> qwt_get_unchecked w1 bsize t1 i = qwt_get_unchecked w2 bsize t2 i).
Proof.
  intros w1 w2 bsize seq t1 t2 Hw1 Hw2 Hb HF1 HF2 Hn E1 E2.
  pose proof (qwt_new_spec w1 bsize seq t1 Hw1 Hb HF1 Hn E1) as S1.
  pose proof (qwt_new_spec w2 bsize seq t2 Hw2 Hb HF2 Hn E2) as S2.
  destruct S1 as (L1 & M1 & Sg1 & NL1 & _ & R1 & P1 & _ & U1 & _).
  destruct S2 as (L2 & M2 & Sg2 & NL2 & _ & R2 & P2 & _ & U2 & _).
  repeat split; try congruence.
  - intros c i Hc1 Hc2. now rewrite (P1 c i Hc1), (P2 c i Hc2), (R1 c i Hc1), (R2 c i Hc2).
  - intros i Hi. destruct (nthN_lt_some seq i Hi) as (x & Hx). now rewrite (U1 i x Hx), (U2 i x Hx).
Qed.

(* a tree determines the sequence it is a correct representation of *)
Lemma qwt_spec_inj : forall w bsize t s1 s2, qwt_spec w bsize t s1 -> qwt_spec w bsize t s2 -> s1 = s2.
Proof.
  intros w bsize t s1 s2 S1 S2.
  destruct S1 as (_ & _ & _ & _ & G1 & _). destruct S2 as (_ & _ & _ & _ & G2 & _).
  apply nthN_ext. intros i. apply Val_inj. now rewrite <- G1, <- G2.
Qed.

Theorem qwt_new_inj : forall w bsize s1 s2 t, QWTP.width_ok w -> (bsize = 256 \/ bsize = 512) ->
  Forall (fun x => x < 2 ^ w) s1 -> Forall (fun x => x < 2 ^ w) s2 -> len s1 < RSQ_MAXN -> len s2 < RSQ_MAXN ->
  qwt_new w bsize s1 = Val t -> qwt_new w bsize s2 = Val t -> s1 = s2.
Proof.
  intros w bsize s1 s2 t Hw Hb HF1 HF2 Hn1 Hn2 E1 E2.
  exact (qwt_spec_inj w bsize t s1 s2 (qwt_new_spec w bsize s1 t Hw Hb HF1 Hn1 E1)
           (qwt_new_spec w bsize s2 t Hw Hb HF2 Hn2 E2)).
Qed.

Corollary qwt_new_eq_iff : forall w bsize s1 s2, QWTP.width_ok w -> (bsize = 256 \/ bsize = 512) ->
  Forall (fun x => x < 2 ^ w) s1 -> Forall (fun x => x < 2 ^ w) s2 -> len s1 < RSQ_MAXN -> len s2 < RSQ_MAXN ->
  (qwt_new w bsize s1 = qwt_new w bsize s2 <-> s1 = s2).
Proof.
  intros w bsize s1 s2 Hw Hb HF1 HF2 Hn1 Hn2. split; [|now intros ->].
  intros E. destruct (qwt_new_correct w bsize s1 Hw Hb HF1 Hn1) as (t & E1 & _).
  apply (qwt_new_inj w bsize s1 s2 t); try assumption. now rewrite <- E.
Qed.

Lemma rsq_spec_inj : forall bsize r s1 s2, rsq_spec bsize r s1 -> rsq_spec bsize r s2 -> s1 = s2.
Proof.
  intros bsize r s1 s2 S1 S2.
  destruct S1 as (_ & _ & G1 & _). destruct S2 as (_ & _ & G2 & _).
  apply nthN_ext. intros i. apply Val_inj. now rewrite <- G1, <- G2.
Qed.

(* the quad vector stores the two low bits of every value: injective up to sym4 *)
Theorem rsq_new_inj : forall bsize v1 v2 r, (bsize = 256 \/ bsize = 512) ->
  len v1 < RSQ_MAXN -> len v2 < RSQ_MAXN ->
  rsq_new bsize v1 = Val r -> rsq_new bsize v2 = Val r -> map sym4 v1 = map sym4 v2.
Proof.
  intros bsize v1 v2 r Hb Hn1 Hn2 E1 E2.
  exact (rsq_spec_inj bsize r _ _ (rsq_new_spec bsize v1 r Hb Hn1 E1) (rsq_new_spec bsize v2 r Hb Hn2 E2)).
Qed.

Corollary rsq_new_eq_iff : forall bsize v1 v2, (bsize = 256 \/ bsize = 512) ->
  len v1 < RSQ_MAXN -> len v2 < RSQ_MAXN -> Forall (fun x => x < 4) v1 -> Forall (fun x => x < 4) v2 ->
  (rsq_new bsize v1 = rsq_new bsize v2 <-> v1 = v2).
Proof.
  intros bsize v1 v2 Hb Hn1 Hn2 HF1 HF2. split; [|now intros ->].
  intros E. destruct (rsq_new_correct bsize v1 Hb Hn1) as (r & E1 & _).
  rewrite <- (map_sym4_id v1 HF1), <- (map_sym4_id v2 HF2).
  apply (rsq_new_inj bsize v1 v2 r); try assumption. now rewrite <- E.
Qed.

(* sym4 cannot be dropped: two inputs that differ above bit 1 build the same vector *)
Example rsq_new_not_inj : rsq_new 256 [1; 6] = rsq_new 256 [5; 2] /\ [1; 6] <> [5; 2].
Proof. split; [vm_compute; reflexivity|discriminate]. Qed.

Lemma hq_spec_inj : forall w bsize t s1 s2, hq_spec w bsize t s1 -> hq_spec w bsize t s2 -> s1 = s2.
Proof.
  intros w bsize t s1 s2 S1 S2.
  destruct S1 as (_ & G1 & _). destruct S2 as (_ & G2 & _).
  apply nthN_ext. intros i. apply Val_inj. now rewrite <- G1, <- G2.
Qed.

(* the tables need not even be the same: the tree records its table *)
Corollary hq_build_inj_tabs : forall w bsize s1 s2 tab1 tab2 t, HQWTP.width_ok w -> (bsize = 256 \/ bsize = 512) ->
  Forall (fun x => x < 2 ^ w) s1 -> Forall (fun x => x < 2 ^ w) s2 -> len s1 < RSQ_MAXN -> len s2 < RSQ_MAXN ->
  table_ok s1 tab1 -> table_ok s2 tab2 ->
  hq_build bsize s1 tab1 = Val t -> hq_build bsize s2 tab2 = Val t -> s1 = s2.
Proof.
  intros w bsize s1 s2 tab1 tab2 t Hw Hb HF1 HF2 Hn1 Hn2 HT1 HT2 E1 E2.
  exact (hq_spec_inj w bsize t s1 s2 (hq_build_spec w bsize s1 tab1 t Hw Hb HF1 Hn1 HT1 E1)
           (hq_build_spec w bsize s2 tab2 t Hw Hb HF2 Hn2 HT2 E2)).
Qed.

Theorem hq_build_inj : forall w bsize s1 s2 tab t, HQWTP.width_ok w -> (bsize = 256 \/ bsize = 512) ->
  Forall (fun x => x < 2 ^ w) s1 -> Forall (fun x => x < 2 ^ w) s2 -> len s1 < RSQ_MAXN -> len s2 < RSQ_MAXN ->
  table_ok s1 tab -> table_ok s2 tab ->
  hq_build bsize s1 tab = Val t -> hq_build bsize s2 tab = Val t -> s1 = s2.
Proof. intros w bsize s1 s2 tab. exact (hq_build_inj_tabs w bsize s1 s2 tab tab). Qed.

Corollary hq_build_eq_iff : forall w bsize s1 s2 tab, HQWTP.width_ok w -> (bsize = 256 \/ bsize = 512) ->
  Forall (fun x => x < 2 ^ w) s1 -> Forall (fun x => x < 2 ^ w) s2 -> len s1 < RSQ_MAXN -> len s2 < RSQ_MAXN ->
  table_ok s1 tab -> table_ok s2 tab ->
  (hq_build bsize s1 tab = hq_build bsize s2 tab <-> s1 = s2).
Proof.
  intros w bsize s1 s2 tab Hw Hb HF1 HF2 Hn1 Hn2 HT1 HT2. split; [|now intros ->].
  intros E. destruct (hq_build_correct w bsize s1 tab Hw Hb HF1 Hn1 HT1) as (t & E1 & _).
  apply (hq_build_inj w bsize s1 s2 tab t); try assumption. now rewrite <- E.
Qed.

(* the plain and the Huffman-shaped quad tree over the same sequence answer len / get /
   get_unchecked identically, and rank identically for symbols that occur *)
Theorem qwt_hq_agree : forall w bsize seq tab tq th, QWTP.width_ok w -> (bsize = 256 \/ bsize = 512) ->
  Forall (fun x => x < 2 ^ w) seq -> len seq < RSQ_MAXN -> table_ok seq tab ->
  qwt_new w bsize seq = Val tq -> hq_build bsize seq tab = Val th ->
  qwt_len tq = hq_len th /\
  (forall i, qwt_get w bsize tq i = hq_get w bsize th i) /\
  (forall c i, c < 2 ^ w -> 0 < countN c seq -> qwt_rank w bsize tq c i = hq_rank bsize th c i) /\
  (forall i, i < len seq -> qwt_get_unchecked w bsize tq i = hq_get_unchecked w bsize th i).
Proof.
  intros w bsize seq tab tq th Hw Hb HF Hn HT Eq Eh.
  pose proof (qwt_new_spec w bsize seq tq Hw Hb HF Hn Eq) as SQ.
  pose proof (hq_build_spec w bsize seq tab th Hw Hb HF Hn HT Eh) as SH.
  destruct SQ as (LQ & _ & _ & _ & GQ & RQ & _ & _ & UQ & _).
  destruct SH as (LH & GH & RH & _ & _ & UH & _).
  split; [congruence|]. split; [|split].
  - intros i. now rewrite GQ, GH.
  - intros c i Hc Hpos. rewrite (RQ c i Hc), (RH c i Hc).
    assert (Hne : len seq <> 0).
    { destruct seq; [cbn [countN] in Hpos; lia|rewrite len_cons; lia]. }
    assert (Hcm : c <= maxN seq).
    { clear - Hpos. induction seq as [|x s IH]; cbn [countN maxN] in *; [lia|].
      destruct (N.eqb_spec x c); [lia|]. assert (c <= maxN s) by (apply IH; lia). lia. }
    replace (len seq =? 0) with false by lia. replace (c <=? maxN seq) with true by lia.
    replace (0 <? countN c seq) with true by lia. cbn [negb andb]. now rewrite andb_true_r.
  - intros i Hi. destruct (nthN_lt_some seq i Hi) as (x & Hx). now rewrite (UQ i x Hx), (UH i x Hx).
Qed.

Example width_ex : forall t1 t2, qwt_new 8 256 [3; 200; 7; 3; 0; 91] = Val t1 ->
  qwt_new 64 256 [3; 200; 7; 3; 0; 91] = Val t2 ->
  forall i, qwt_get 8 256 t1 i = qwt_get 64 256 t2 i.
Proof.
  intros t1 t2 E1 E2.
  refine (proj1 (qwt_width_independent 8 64 256 [3; 200; 7; 3; 0; 91] t1 t2 _ _ _ _ _ _ E1 E2)).
  - left; reflexivity.
  - right; right; right; left; reflexivity.
  - left; reflexivity.
  - repeat (constructor; [change (2 ^ 8) with 256; lia|]). constructor.
  - repeat (constructor; [change (2 ^ 64) with 18446744073709551616; lia|]). constructor.
  - reflexivity.
Qed.

Print Assumptions nthN_ext_len.
Print Assumptions qwt_width_independent.
Print Assumptions qwt_width_independent_more.
Print Assumptions qwt_new_inj.
Print Assumptions qwt_new_eq_iff.
Print Assumptions rsq_new_inj.
Print Assumptions rsq_new_eq_iff.
Print Assumptions rsq_new_not_inj.
Print Assumptions hq_build_inj.
Print Assumptions hq_build_inj_tabs.
Print Assumptions hq_build_eq_iff.
Print Assumptions qwt_hq_agree.
Print Assumptions width_ex.
