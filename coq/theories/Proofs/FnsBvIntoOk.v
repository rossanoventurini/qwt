(* BitVectorIntoIter::next / len regenerated (Gen/FnsIters.v): the owning bit iterator yields the bits in order and then None for
   ever; its index stops at the length; len is exact. *)
From Coq Require Import ZArith Lia.
From QwtModel Require Import ListX BitVec ListXP OutcomeP BitVecP FnsIters FnsBvOk.
Open Scope N_scope.

Theorem g_bvinto_correct : forall b i, bv_inv b ->
  g_bvinto_next (chunks 8 (bv_words b)) (bv_nbits b) (bv_nones b) i
  = Val (chunks 8 (bv_words b), bv_nbits b, bv_nones b, (if i <? len (bv_abs b) then i + 1 else i), nthN (bv_abs b) i) /\
  (i <= len (bv_abs b) -> g_bvinto_len (bv_nbits b) i = Val (len (bv_abs b) - i)).
Proof.
  intros b i H. pose proof (inv_len b H) as Hl. pose proof (inv_small b H) as Hs. split.
  - unfold g_bvinto_next. rewrite g_bv_get_chunks, (bv_get_correct b i H). cbn [bind].
    destruct (N.ltb_spec i (len (bv_abs b))) as [Hi|Hi].
    + destruct (nthN_lt_some (bv_abs b) i Hi) as (x & Ex). rewrite Ex, oadd_ok by lia. reflexivity.
    + rewrite (nthN_none (bv_abs b) i Hi). reflexivity.
  - intros Hi. unfold g_bvinto_len. rewrite <- Hl. now apply osub_ok.
Qed.
Print Assumptions g_bvinto_correct.
