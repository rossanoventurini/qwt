(* darray: the construction invariant of inv_loop / flush_block (Model/DArrayM.v) over an
   arbitrary non-decreasing list of positions P. *)
From Coq Require Import ZArith Lia ZifyBool ZifyN ZifyNat.
From QwtModel Require Import ListX Consts BitVec DArrayM ListXP OutcomeP DArrayL.

Lemma DA_BLOCK_val : DA_BLOCK = 1024. Proof. reflexivity. Qed.
Lemma DA_SUBBLOCK_val : DA_SUBBLOCK = 32. Proof. reflexivity. Qed.
Lemma DA_MAX_DIST_val : DA_MAX_DIST = 65536. Proof. reflexivity. Qed.

Lemma nthZ_nthN l : forall i, nthZ l i = nthN l i.
Proof.
  induction l as [|x l IH]; intros i; cbn [nthZ nthN]; [reflexivity|].
  destruct (i =? 0); [reflexivity|apply IH].
Qed.

Definition mono (P : list N) : Prop :=
  forall a b x y, a <= b -> nthN P a = Some x -> nthN P b = Some y -> x <= y.

Lemma mono_app l1 l2 : mono (l1 ++ l2) -> mono l1 /\ mono l2.
Proof.
  intros H. split; intros a b x y Hab Ha Hb.
  - apply (H a b x y Hab); apply nthN_app_some; assumption.
  - apply (H (len l1 + a) (len l1 + b) x y); [lia| |]; rewrite nthN_app2 by lia.
    + replace (len l1 + a - len l1) with a by lia. exact Ha.
    + replace (len l1 + b - len l1) with b by lia. exact Hb.
Qed.

(* what select needs to know about occurrence number i: either its block is sparse and the
   overflow table holds its position, or its block is dense and the sub-block entry gives the
   position of occurrence number 32 * (i / 32) *)
Definition sel_ok (P : list N) (blk : list Z) (sub ovf : list N) (i : N) : Prop :=
  (exists o p, nthZ blk (i / 1024) = Some (- Z.of_N o - 1)%Z /\ nthN P i = Some p /\
               nthN ovf (o + i mod 1024) = Some p)
  \/ (exists first sb p, nthZ blk (i / 1024) = Some (Z.of_N first) /\ nthN sub (i / 32) = Some sb /\
               nthN P (32 * (i / 32)) = Some p /\ first + sb = p).

(* state of the construction (vectors reversed) after m positions have been flushed *)
Definition st_inv (P : list N) (m : N) (st : list Z * list N * list N) : Prop :=
  let '(blkr, subr, ovfr) := st in
  len blkr = (m + 1023) / 1024 /\ len subr = (m + 31) / 32 /\
  forall i, i < m -> sel_ok P (rev blkr) (rev subr) (rev ovfr) i.

Lemma sel_ok_app P blk sub ovf b' s' o' i :
  sel_ok P blk sub ovf i -> sel_ok P (blk ++ b') (sub ++ s') (ovf ++ o') i.
Proof.
  intros [(o & p & H1 & H2 & H3)|(first & sb & p & H1 & H2 & H3 & H4)]; [left|right].
  - exists o, p. rewrite nthZ_nthN in *. repeat split; auto using nthN_app_some.
  - exists first, sb, p. rewrite nthZ_nthN in *. repeat split; auto using nthN_app_some.
Qed.

Lemma nthN_skipn {A} (l : list A) k x : nthN (skipn k l) x = nthN l (N.of_nat k + x).
Proof.
  pose proof (skipnN_skipn l (N.of_nat k)) as E. rewrite Nnat.Nat2N.id in E.
  rewrite <- E. apply nthN_skipnN.
Qed.

Lemma nthN_step_by kN : 0 < kN -> forall fuel l j, (length l <= fuel)%nat ->
  nthN (step_by (N.to_nat kN) l fuel) j = nthN l (kN * j).
Proof.
  intros Hk. induction fuel as [|f IH]; intros l j Hl; cbn [step_by].
  - destruct l; [reflexivity|cbn [length] in Hl; lia].
  - destruct l as [|x l']; [reflexivity|].
    destruct (N.eqb_spec j 0) as [->|Hj].
    + rewrite N.mul_0_r. reflexivity.
    + set (j' := j - 1). replace j with (j' + 1) by lia. rewrite nthN_succ, IH.
      * rewrite nthN_skipn. rewrite Nnat.N2Nat.id. f_equal. lia.
      * rewrite skipn_length. cbn [length] in *. lia.
Qed.

Lemma len_step_by32 (l : list N) : len (step_by (N.to_nat 32) l (length l)) = (len l + 31) / 32.
Proof.
  apply len_by_nthN; intros j Hj; rewrite nthN_step_by by lia.
  - destruct (nthN_lt_some l (32 * j)) as (a & ->); [lia|discriminate].
  - apply nthN_none. lia.
Qed.

Lemma nthN_last (l : list N) d : l <> [] -> nthN l (len l - 1) = Some (last l d).
Proof.
  intros H. destruct (exists_last H) as (l' & x & ->). rewrite last_last. lens.
  replace (len l' + (0 + 1) - 1) with (len l') by lia. apply nthN_snoc_last.
Qed.

Lemma flush_block_eq curr first blkr subr ovfr : nthN curr 0 = Some first ->
  flush_block curr (blkr, subr, ovfr) =
  let! d := osub (last curr 0) first in
  if d <? DA_MAX_DIST then
    Val (Z.of_N first :: blkr,
         rev (map (fun p => (p - first) mod 2 ^ 16) (step_by (N.to_nat DA_SUBBLOCK) curr (length curr))) ++ subr,
         ovfr)
  else
    Val ((- Z.of_N (len ovfr) - 1)%Z :: blkr,
         repeat (2 ^ 16 - 1) (N.to_nat ((len curr + DA_SUBBLOCK - 1) / DA_SUBBLOCK)) ++ subr,
         rev curr ++ ovfr).
Proof.
  destruct curr as [|x c]; [discriminate|]. rewrite nthN_0. intros E. injection E as ->. reflexivity.
Qed.

(* occurrence number 1024 * M + r, r < 1024: the quotients and remainders that select computes *)
Lemma blk_div M r : r < 1024 -> (1024 * M + r) / 1024 = M.
Proof. lia. Qed.
Lemma blk_mod M r : r < 1024 -> (1024 * M + r) mod 1024 = r.
Proof. lia. Qed.
Lemma blk_div32 M r : (1024 * M + r) / 32 = 32 * M + r / 32.
Proof. lia. Qed.

Lemma flush_inv P M curr st :
  (forall r, r < len curr -> nthN curr r = nthN P (1024 * M + r)) -> len curr <= 1024 -> mono P ->
  st_inv P (1024 * M) st ->
  exists st', flush_block curr st = Val st' /\ st_inv P (1024 * M + len curr) st'.
Proof.
  intros Hcurr Hlc Hmono Hinv. set (lc := len curr) in *.
  destruct (N.eqb_spec lc 0) as [Hz|Hnz].
  { apply len_0_nil in Hz. subst curr. exists st. split; [now destruct st as ((b, s), o)|].
    unfold lc. now rewrite len_nil, N.add_0_r. }
  destruct st as ((blkr, subr), ovfr). destruct Hinv as (Hlb & Hls & Hsel).
  assert (Hlb' : len (rev blkr) = M) by (rewrite len_rev, Hlb; clear; lia).
  assert (Hls' : len (rev subr) = 32 * M) by (rewrite len_rev, Hls; clear; lia).
  destruct (nthN_lt_some curr 0) as (first & Hfirst); [fold lc; lia|].
  assert (Hne : curr <> []) by (intros ->; discriminate).
  pose proof (nthN_last curr 0 Hne) as Hlast. fold lc in Hlast. set (lst := last curr 0) in *.
  assert (Hbetween : forall r p, r < lc -> nthN curr r = Some p -> first <= p <= lst).
  { intros r p Hr Hp. rewrite Hcurr in Hp, Hfirst, Hlast by lia. split.
    - apply (Hmono (1024 * M + 0) (1024 * M + r) first p); [lia|assumption|assumption].
    - apply (Hmono (1024 * M + r) (1024 * M + (lc - 1)) p lst); [lia|assumption|assumption]. }
  rewrite (flush_block_eq curr first) by exact Hfirst. fold lst.
  rewrite osub_ok by (apply (Hbetween 0 first); [lia|exact Hfirst]). cbn [bind].
  rewrite DA_MAX_DIST_val, DA_SUBBLOCK_val.
  assert (Hsplit : forall i, 1024 * M <= i -> i = 1024 * M + (i - 1024 * M)) by (clear; lia).
  destruct (N.ltb_spec (lst - first) 65536) as [Hd|Hd]; (eexists; split; [reflexivity|]).
  - (* dense *)
    set (f := fun p => (p - first) mod 2 ^ 16).
    split; [|split].
    + lens. rewrite Hlb. clear -Hnz Hlc. lia.
    + lens. rewrite len_rev, len_map, len_step_by32, Hls. fold lc. clear. lia.
    + intros i Hi. cbn [rev]. rewrite rev_app_distr, rev_involutive.
      destruct (N.ltb_spec i (1024 * M)) as [Him|Him].
      * rewrite <- (app_nil_r (rev ovfr)). apply sel_ok_app, Hsel, Him.
      * right. rewrite (Hsplit i Him). set (r := i - 1024 * M). assert (Hr : r < lc) by lia.
        assert (Hj : 32 * (r / 32) < lc) by (clear -Hr; lia).
        destruct (nthN_lt_some curr _ Hj) as (p & Hp).
        exists first, (f p), p.
        rewrite nthZ_nthN, blk_div, blk_div32 by lia. split; [|split; [|split]].
        -- rewrite <- Hlb'. apply nthN_snoc_last.
        -- rewrite <- Hls', nthN_app2 by lia. replace (_ - _) with (r / 32) by lia.
           rewrite nthN_map, nthN_step_by, Hp by lia. reflexivity.
        -- replace (32 * _) with (1024 * M + 32 * (r / 32)) by lia. rewrite <- Hcurr by exact Hj. exact Hp.
        -- pose proof (Hbetween _ p Hj Hp). unfold f. change (2 ^ 16) with 65536.
           rewrite N.mod_small by lia. lia.
  - (* sparse *)
    split; [|split].
    + lens. rewrite Hlb. clear -Hnz Hlc. lia.
    + lens. rewrite len_repeat, Nnat.N2Nat.id, Hls. fold lc. clear. lia.
    + intros i Hi. cbn [rev]. rewrite !rev_app_distr, rev_involutive.
      destruct (N.ltb_spec i (1024 * M)) as [Him|Him].
      * apply sel_ok_app, Hsel, Him.
      * left. rewrite (Hsplit i Him). set (r := i - 1024 * M). assert (Hr : r < lc) by lia.
        destruct (nthN_lt_some curr r Hr) as (p & Hp).
        exists (len ovfr), p.
        rewrite nthZ_nthN, blk_div, blk_mod by lia. split; [|split].
        -- rewrite <- Hlb'. apply nthN_snoc_last.
        -- rewrite <- Hcurr by exact Hr. exact Hp.
        -- rewrite <- (len_rev ovfr), nthN_app2 by lia. replace (_ - _) with r by lia. exact Hp.
Qed.

Lemma inv_loop_partial : forall c cr nc st n r, nc = len cr -> len cr + len c < 1024 ->
  inv_loop (c ++ r) cr nc st n = inv_loop r (rev c ++ cr) (nc + len c) st (n + len c).
Proof.
  induction c as [|x c IH]; intros cr nc st n r Hnc Hl.
  - cbn [app rev]. rewrite len_nil, !N.add_0_r. reflexivity.
  - rewrite len_cons in Hl. cbn [app inv_loop]. rewrite DA_BLOCK_val.
    replace (nc + 1 =? 1024) with false by lia.
    rewrite IH by (rewrite ?len_cons; lia).
    cbn [rev]. rewrite <- app_assoc. cbn [app]. rewrite len_cons. f_equal; lia.
Qed.

Lemma inv_loop_full c x r st n : len c = 1023 ->
  inv_loop (c ++ x :: r) [] 0 st n =
  let! st' := flush_block (c ++ [x]) st in inv_loop r [] 0 st' (n + 1024).
Proof.
  intros Hc. rewrite inv_loop_partial by (lens; lia).
  cbn [inv_loop]. rewrite DA_BLOCK_val, Hc. replace (0 + 1023 + 1 =? 1024) with true by lia.
  rewrite app_nil_r. cbn [rev]. rewrite rev_involutive.
  replace (n + 1023 + 1) with (n + 1024) by lia. reflexivity.
Qed.

(* what the loop does to the list as a whole: it flushes the blocks of 1024 positions, in order, and what remains
   at the end (k: any number that is at least the number of blocks) *)
Fixpoint flush_all (k : nat) (ps : list N) (st : list Z * list N * list N) : outcome (list Z * list N * list N) :=
  match k with
  | O => flush_block ps st
  | S k' =>
      match skipnN 1023 ps with
      | [] => flush_block ps st
      | x :: rest => let! st' := flush_block (firstnN 1023 ps ++ [x]) st in flush_all k' rest st'
      end
  end.

Lemma inv_loop_flush_all : forall k ps st n, (length ps <= k)%nat ->
  (let! (curr_rev, st', n_sets) := inv_loop ps [] 0 st n in
   let! (blk, sub, ovf) := flush_block (rev curr_rev) st' in
   Val {| inv_n_sets := n_sets; inv_block := rev blk; inv_sub := rev sub; inv_overflow := rev ovf |})
  = let! (blk, sub, ovf) := flush_all k ps st in
    Val {| inv_n_sets := n + len ps; inv_block := rev blk; inv_sub := rev sub; inv_overflow := rev ovf |}.
Proof.
  assert (Hshort : forall ps st n, len ps < 1024 -> inv_loop ps [] 0 st n = Val (rev ps, st, n + len ps)).
  { intros ps st n H. rewrite <- (app_nil_r ps) at 1. rewrite inv_loop_partial by (lens; lia).
    cbn [inv_loop]. now rewrite app_nil_r. }
  induction k as [|k IH]; intros ps st n Hk; cbn [flush_all].
  { destruct ps; [|cbn [length] in Hk; lia]. rewrite Hshort by (rewrite len_nil; lia). reflexivity. }
  pose proof (firstnN_skipnN ps 1023) as Eps. pose proof (len_skipnN ps 1023) as El.
  destruct (skipnN 1023 ps) as [|x r] eqn:Es.
  - rewrite len_nil in El. rewrite Hshort by lia. cbn [bind]. now rewrite rev_involutive.
  - rewrite len_cons in El. rewrite <- Eps at 1. rewrite inv_loop_full by (apply len_firstnN_le; lia).
    destruct (flush_block (firstnN 1023 ps ++ [x]) st) as [st'|]; cbn [bind]; [|reflexivity].
    replace (n + len ps) with (n + 1024 + len r) by lia. apply IH. unfold len in El. lia.
Qed.

Lemma inv_new_flush_all bit bv : inv_new bit bv =
  let ps := pi_collect bit bv pi_new (S (N.to_nat (bv_nbits bv))) in
  let! (blk, sub, ovf) := flush_all (length ps) ps ([], [], []) in
  Val {| inv_n_sets := len ps; inv_block := rev blk; inv_sub := rev sub; inv_overflow := rev ovf |}.
Proof. exact (inv_loop_flush_all _ _ _ 0 (le_n _)). Qed.

(* ps is what follows the first M blocks of P *)
Lemma flush_all_inv P : mono P -> forall k M ps st, (forall r, nthN ps r = nthN P (1024 * M + r)) ->
  (length ps <= k)%nat -> st_inv P (1024 * M) st ->
  exists st', flush_all k ps st = Val st' /\ st_inv P (1024 * M + len ps) st'.
Proof.
  intros Hmono. induction k as [|k IH]; intros M ps st Hps Hk Hinv; cbn [flush_all].
  { apply flush_inv; auto. unfold len. lia. }
  pose proof (len_skipnN ps 1023) as El. destruct (skipnN 1023 ps) as [|x r] eqn:Es.
  { apply flush_inv; auto. rewrite len_nil in El. lia. }
  rewrite len_cons in El. destruct (skipnN_cons_inv ps 1023 x r Es) as (Ef & Er). rewrite <- Ef.
  destruct (flush_inv P M (firstnN (1023 + 1) ps) st) as (st1 & E1 & Hinv1); auto.
  - intros j Hj. rewrite firstnN_len in Hj. rewrite nthN_firstnN. replace (j <? 1023 + 1) with true by lia. apply Hps.
  - rewrite firstnN_len. lia.
  - rewrite E1. cbn [bind]. rewrite len_firstnN_le in Hinv1 by lia.
    replace (1024 * M + len ps) with (1024 * (M + 1) + len r) by lia. apply IH.
    + intros j. rewrite <- Er, nthN_skipnN, Hps. f_equal. lia.
    + unfold len in El, Hk. lia.
    + replace (1024 * (M + 1)) with (1024 * M + (1023 + 1)) by lia. exact Hinv1.
Qed.

Lemma inv_build P : mono P ->
  exists blk sub ovf,
    (let! (curr_rev, st, n_sets) := inv_loop P [] 0 ([], [], []) 0 in
     let! (blk, sub, ovf) := flush_block (rev curr_rev) st in
     Val {| inv_n_sets := n_sets; inv_block := rev blk; inv_sub := rev sub; inv_overflow := rev ovf |})
    = Val (mk_inv (len P) blk sub ovf) /\
    forall i, i < len P -> sel_ok P blk sub ovf i.
Proof.
  intros Hmono. rewrite (inv_loop_flush_all (length P)) by apply le_n.
  destruct (flush_all_inv P Hmono (length P) 0 P ([], [], [])) as (((blkr, subr), ovfr) & E & _ & _ & Hsel).
  - reflexivity.
  - apply le_n.
  - split; [reflexivity|split; [reflexivity|]]. intros i Hi. lia.
  - rewrite E. exists (rev blkr), (rev subr), (rev ovfr). split; [reflexivity|exact Hsel].
Qed.
