(* Construction invariant of RSSupportPlain::new (rsb_loop / rss_new of Model/RSQ.v):
   the directory it builds is the closed form [dir_ok]. *)
From Coq Require Import ZArith Lia ZifyBool ZifyN ZifyNat.
From QwtModel Require Import ListX Consts RSQ ListXP NBits RSQBits RSQWord RSQList.

Definition bsz (bsize : N) : Prop := bsize = 256 \/ bsize = 512.
(* rss_new keeps the number of superblocks, len s / (8 * bsize) + 1, modulo 2^32: the margin below MAX_LEN = 2^43
   makes it less than 2^32 for both block sizes (HJ in rss_new_ok; bsize = 256 needs 2048 of it) *)
Definition RSQ_MAXN : N := MAX_LEN - 4096.
Lemma RSQ_MAXN_val : RSQ_MAXN = 8796093018112. Proof. reflexivity. Qed.
Lemma maxn_lt_43 n : n < RSQ_MAXN -> n < 2 ^ 43.
Proof. rewrite RSQ_MAXN_val. change (2 ^ 43) with 8796093022208. lia. Qed.
Lemma maxn_lt_64 n : n < RSQ_MAXN -> n < 2 ^ 64.
Proof. rewrite RSQ_MAXN_val, p64. lia. Qed.

Lemma bsz_pos bsize : bsz bsize -> 0 < bsize.
Proof. intros [-> | ->]; reflexivity. Qed.

(* Position i lies in block q = i / B, which is block q mod 8 of superblock q / 8.  With the facts below,
   what remains to be shown about positions is linear arithmetic on block numbers, for any block size. *)
Lemma sb_div B i : 0 < B -> i / (8 * B) = i / B / 8.
Proof. intros H. rewrite (N.mul_comm 8). symmetry. apply N.div_div; lia. Qed.

Lemma sb_mod_0 B i : 0 < B -> i mod (8 * B) = 0 <-> i mod B = 0 /\ (i / B) mod 8 = 0.
Proof. intros H. rewrite (N.mul_comm 8), N.mod_mul_r, N.eq_add_0, N.eq_mul_0 by lia. lia. Qed.

Lemma blk_pos B q : q / 8 * (8 * B) + q mod 8 * B = q * B.
Proof. rewrite (N.div_mod q 8) at 3 by discriminate. lia. Qed.

Lemma blk_le B j k lim : 0 < B -> j * (8 * B) + k * B <= lim <-> 8 * j + k <= lim / B.
Proof.
  intros H. replace (j * (8 * B) + k * B) with (B * (8 * j + k)) by lia. split; intros L.
  - apply N.div_le_lower_bound; lia.
  - eapply N.le_trans; [apply N.mul_le_mono_l, L|apply N.mul_div_le; lia].
Qed.

Lemma div_succ B i : 0 < B -> (i + 1) / B = i / B + (if (i + 1) mod B =? 0 then 1 else 0).
Proof.
  intros H. pose proof (N.div_mod i B ltac:(lia)) as E. pose proof (N.mod_lt i B ltac:(lia)) as L.
  destruct (N.eq_dec (i mod B + 1) B) as [F|F].
  - replace (i + 1) with ((i / B + 1) * B) by lia. rewrite N.mod_mul, N.div_mul by lia. reflexivity.
  - rewrite <- (N.mod_unique (i + 1) B (i / B) (i mod B + 1)) by lia.
    rewrite <- (N.div_unique (i + 1) B (i / B) (i mod B + 1)) by lia.
    destruct (N.eqb_spec (i mod B + 1) 0); lia.
Qed.
Lemma div_succ_exact B i : 0 < B -> (i + 1) mod B = 0 -> (i + 1) / B = i / B + 1.
Proof. intros H E. now rewrite div_succ, E. Qed.
Lemma div_succ_inexact B i : 0 < B -> (i + 1) mod B <> 0 -> (i + 1) / B = i / B.
Proof.
  intros H E. rewrite div_succ by assumption.
  destruct (N.eqb_spec ((i + 1) mod B) 0); [contradiction|apply N.add_0_r].
Qed.

Lemma div_add_blk B n : 0 < B -> (n + B) / B = n / B + 1.
Proof. intros H. rewrite <- (N.mul_1_l B) at 1. apply N.div_add; lia. Qed.

Lemma div_mul_le a b : a / b * b <= a.
Proof. destruct (N.eq_dec b 0) as [->|H]; [lia|]. rewrite N.mul_comm. now apply N.mul_div_le. Qed.
Lemma div_mul_exact a b : 0 < b -> a mod b = 0 -> a / b * b = a.
Proof. intros H E. rewrite N.mul_comm. symmetry. apply N.div_exact; [lia|exact E]. Qed.
Lemma lt_div_mul_succ a b : 0 < b -> a < (a / b + 1) * b.
Proof. intros H. rewrite N.mul_comm, N.add_1_r. apply N.mul_succ_div_gt. lia. Qed.

(* field k of superblock j for symbol c when the blocks starting at positions <= lim are set *)
Definition fld (bsize : N) (s : list N) (lim j k c : N) : N :=
  if j * (8 * bsize) + k * bsize <=? lim
  then rk s c (j * (8 * bsize) + k * bsize) - rk s c (j * (8 * bsize)) else 0.
Definition W (bsize : N) (s : list N) (lim j : N) : list N :=
  sbrec (fun c => rk s c (j * (8 * bsize))) (fun c k => fld bsize s lim j k c).

Lemma fld_set bsize s lim j k c : 0 < bsize -> 8 * j + k <= lim / bsize ->
  fld bsize s lim j k c = rk s c (j * (8 * bsize) + k * bsize) - rk s c (j * (8 * bsize)).
Proof. intros HB H. unfold fld. rewrite (proj2 (N.leb_le _ _)); [reflexivity|]. now apply blk_le. Qed.

Lemma fld_unset bsize s lim j k c : 0 < bsize -> lim / bsize < 8 * j + k -> fld bsize s lim j k c = 0.
Proof.
  intros HB H. unfold fld. rewrite (proj2 (N.leb_gt _ _)); [reflexivity|].
  apply N.lt_nge. rewrite blk_le by assumption. lia.
Qed.

Lemma fld_ext bsize s lim lim' j k c : 0 < bsize ->
  (8 * j + k <= lim / bsize <-> 8 * j + k <= lim' / bsize) -> fld bsize s lim j k c = fld bsize s lim' j k c.
Proof.
  intros HB H. unfold fld. replace (_ <=? lim') with (j * (8 * bsize) + k * bsize <=? lim); [reflexivity|].
  apply Bool.eq_iff_eq_true. now rewrite !N.leb_le, !blk_le.
Qed.

Lemma fld_bound bsize s lim j c : bsz bsize -> fbound (fun k => fld bsize s lim j k c).
Proof.
  intros Hb k Hk. unfold fld. destruct (_ <=? lim); [|lia].
  pose proof (rk_lip s c (j * (8 * bsize)) (k * bsize)). destruct Hb as [-> | ->]; lia.
Qed.

Lemma sbrec_ext sbc sbc' f f' :
  (forall c, c <= 3 -> sbc c = sbc' c) -> (forall c k, c <= 3 -> 1 <= k <= 7 -> f c k = f' c k) ->
  sbrec sbc f = sbrec sbc' f'.
Proof.
  intros H1 H2. unfold sbrec. apply vec4_ext. intros c Hc. rewrite (H1 c Hc).
  apply packw_ext. intros k Hk. now apply H2.
Qed.

Lemma W_ext bsize s lim lim' j : 0 < bsize ->
  (forall k, 1 <= k <= 7 -> 8 * j + k <= lim / bsize <-> 8 * j + k <= lim' / bsize) ->
  W bsize s lim j = W bsize s lim' j.
Proof.
  intros HB H. unfold W. apply sbrec_ext; [reflexivity|]. intros c k Hc Hk. apply fld_ext; auto.
Qed.

Lemma W_set_block bsize s lim lim' j m p : bsz bsize -> 1 <= m <= 7 ->
  lim / bsize + 1 = 8 * j + m -> lim' / bsize = 8 * j + m ->
  (forall c, rk s c p = rk s c (j * (8 * bsize) + m * bsize)) ->
  sb_set_block_counters (W bsize s lim j) m (vec4 (fun c => rk s c p - rk s c (j * (8 * bsize))))
  = Val (W bsize s lim' j).
Proof.
  intros Hb Hm E E' Hp. pose proof (bsz_pos _ Hb) as HB. unfold W. apply sb_set_block_counters_rec.
  - exact Hm.
  - intros c Hc. now apply fld_bound.
  - intros c Hc. apply fld_unset; [exact HB|lia].
  - intros c Hc. rewrite Hp. pose proof (rk_lip s c (j * (8 * bsize)) (m * bsize)).
    destruct Hb as [-> | ->]; lia.
  - intros c Hc. rewrite Hp. apply fld_set; [exact HB|lia].
  - intros c k Hc Hk Hne. apply fld_ext; [exact HB|lia].
Qed.

(* rsb_boundaries by position: A at a superblock boundary, B at a block boundary inside a superblock, C elsewhere *)
Lemma bnd_A bsize I sbc bc occ sam sbs : 0 < bsize -> I mod bsize = 0 -> (I / bsize) mod 8 = 0 ->
  (forall c, c <= 3 -> sbc c < 2 ^ 44) ->
  rsb_boundaries bsize (mk_rsb I (vec4 sbc) bc occ sam sbs) =
  Val (mk_rsb I (vec4 sbc) [0;0;0;0] occ sam (sbrec sbc (fun _ _ => 0) :: sbs)).
Proof.
  intros HB E1 E2 Hs. unfold rsb_boundaries. cbn [b_i b_sbc b_bc b_occ b_samples b_sbs].
  rewrite RS_BLOCKS_IN_SB_val, (proj2 (sb_mod_0 bsize I HB) (conj E1 E2)), E1, E2.
  change (0 =? 0) with true. cbv iota. cbn [b_i b_sbc b_bc b_occ b_samples b_sbs].
  rewrite sb_new_vec4 by assumption.
  rewrite (sb_set_block_counters_0 _ (fun _ => 0)) by (intros; lia). reflexivity.
Qed.

Lemma bnd_B bsize I sbc bc occ sam last last' rest : 0 < bsize -> I mod bsize = 0 ->
  (I / bsize) mod 8 <> 0 -> sb_set_block_counters last ((I / bsize) mod 8) bc = Val last' ->
  rsb_boundaries bsize (mk_rsb I sbc bc occ sam (last :: rest)) =
  Val (mk_rsb I sbc bc occ sam (last' :: rest)).
Proof.
  intros HB H1 H2 E. unfold rsb_boundaries. cbn [b_i b_sbc b_bc b_occ b_samples b_sbs].
  rewrite RS_BLOCKS_IN_SB_val. pose proof (sb_mod_0 bsize I HB) as H0.
  destruct (N.eqb_spec (I mod (8 * bsize)) 0) as [H|_]; [apply H0 in H; lia|].
  rewrite H1. change (0 =? 0) with true. cbv iota. cbn [b_i b_sbc b_bc b_occ b_samples b_sbs].
  rewrite E. reflexivity.
Qed.

Lemma bnd_C bsize st : 0 < bsize -> b_i st mod bsize <> 0 -> rsb_boundaries bsize st = Val st.
Proof.
  intros HB H. unfold rsb_boundaries. rewrite RS_BLOCKS_IN_SB_val.
  pose proof (sb_mod_0 bsize (b_i st) HB) as H0.
  destruct (N.eqb_spec (b_i st mod (8 * bsize)) 0) as [H1|_]; [apply H0 in H1; lia|].
  destruct (N.eqb_spec (b_i st mod bsize) 0); [contradiction|reflexivity].
Qed.

(* samples of symbol c (reversed list l) when cnt occurrences have been seen *)
Definition samp_ok (bsize : N) (s : list N) (c : N) (l : list N) (cnt : N) : Prop :=
  len l = (cnt + 8191) / 8192 /\
  forall q x, nthN (rev l) q = Some x ->
    x <= len s / (8 * bsize) /\ rk s c (x * (8 * bsize)) <= q * 8192 /\
    q * 8192 < rk s c ((x + 1) * (8 * bsize)).

(* after the boundaries at index i *)
Definition binv (bsize : N) (s : list N) (i : N) (st : rsb_state) : Prop :=
  b_i st = i /\
  b_sbc st = vec4 (fun c => rk s c i) /\
  b_bc st = vec4 (fun c => rk s c i - rk s c (i / (8 * bsize) * (8 * bsize))) /\
  b_occ st = vec4 (fun c => rk s c i) /\
  (exists sm, b_samples st = vec4 sm /\ forall c, c <= 3 -> samp_ok bsize s c (sm c) (rk s c i)) /\
  (exists rest, b_sbs st = W bsize s i (i / (8 * bsize)) :: rest /\ len rest = i / (8 * bsize) /\
     forall j, j < i / (8 * bsize) -> nthN (rev rest) j = Some (W bsize s (len s) j)).

(* after the symbol at index i, before the boundaries at i + 1 *)
Definition pinv (bsize : N) (s : list N) (i : N) (st : rsb_state) : Prop :=
  b_i st = i + 1 /\
  b_sbc st = vec4 (fun c => rk s c (i + 1)) /\
  b_bc st = vec4 (fun c => rk s c (i + 1) - rk s c (i / (8 * bsize) * (8 * bsize))) /\
  b_occ st = vec4 (fun c => rk s c (i + 1)) /\
  (exists sm, b_samples st = vec4 sm /\ forall c, c <= 3 -> samp_ok bsize s c (sm c) (rk s c (i + 1))) /\
  (exists rest, b_sbs st = W bsize s i (i / (8 * bsize)) :: rest /\ len rest = i / (8 * bsize) /\
     forall j, j < i / (8 * bsize) -> nthN (rev rest) j = Some (W bsize s (len s) j)).

Lemma samples_step bsize s i x sm : bsz bsize -> len s < 2 ^ 43 -> nthN s i = Some x -> x <= 3 ->
  (forall c, c <= 3 -> samp_ok bsize s c (sm c) (rk s c i)) ->
  exists sm',
    (if rk s x i mod SELECT_NUM_SAMPLES =? 0
     then let! sl := idx (vec4 sm) x in
          Val (setN (vec4 sm) x ((i / (RS_BLOCKS_IN_SB * bsize)) mod 2 ^ 32 :: sl))
     else Val (vec4 sm)) = Val (vec4 sm') /\
    forall c, c <= 3 -> samp_ok bsize s c (sm' c) (rk s c (i + 1)).
Proof.
  intros Hb Hn Hx Hx3 Hs. rewrite SELECT_NUM_SAMPLES_val, RS_BLOCKS_IN_SB_val.
  pose proof (nthN_some_lt _ _ _ Hx) as Hi. pose proof (bsz_pos _ Hb) as HB.
  assert (Hrk : forall c, rk s c (i + 1) = rk s c i + (if x =? c then 1 else 0))
    by (intros c; apply rk_succ; exact Hx).
  destruct (N.eqb_spec (rk s x i mod 8192) 0) as [Hz|Hnz].
  - rewrite idx_vec4 by assumption. cbn [bind]. rewrite setN_vec4 by assumption.
    eexists. split; [reflexivity|]. intros c Hc. cbv beta. rewrite Hrk.
    destruct (N.eqb_spec c x) as [->|Hcx].
    + rewrite N.eqb_refl. destruct (Hs x Hx3) as (Hl & Hp). split.
      * rewrite len_cons, Hl. lia.
      * intros q y. cbn [rev]. rewrite nthN_snoc, len_rev, Hl.
        destruct (N.ltb_spec q ((rk s x i + 8191) / 8192)) as [Hq|Hq]; [apply Hp|].
        destruct (N.eqb_spec q ((rk s x i + 8191) / 8192)) as [->|Hq']; [|discriminate].
        intros E. injection E as <-.
        rewrite N.mod_small by (norm_pow; norm_pow in Hn; destruct Hb as [-> | ->]; lia). clear Hn Hp.
        (* the sampled superblock is the one of position i, and the occurrence counted is the one at i *)
        pose proof (rk_mono s x _ i (div_mul_le i (8 * bsize))) as M1.
        pose proof (rk_mono s x (i + 1) ((i / (8 * bsize) + 1) * (8 * bsize))
                      ltac:(pose proof (lt_div_mul_succ i (8 * bsize)); lia)) as M2.
        specialize (Hrk x). rewrite N.eqb_refl in Hrk.
        split; [apply N.div_le_mono; lia|lia].
    + replace (x =? c) with false by lia. rewrite N.add_0_r. apply Hs. exact Hc.
  - exists sm. split; [reflexivity|]. intros c Hc. rewrite Hrk.
    destruct (N.eqb_spec x c) as [->|Hcx]; [|rewrite N.add_0_r; now apply Hs].
    destruct (Hs c Hc) as (Hl & Hp). split; [rewrite Hl; lia|exact Hp].
Qed.

Lemma rsb_symbol_inv bsize s i st x : bsz bsize -> len s < 2 ^ 43 -> binv bsize s i st ->
  nthN s i = Some x -> x <= 3 ->
  exists st', rsb_symbol bsize st x = Val st' /\ pinv bsize s i st'.
Proof.
  intros Hb Hn (Hi & Hsbc & Hbc & Hocc & (sm & Hsm & Hsamp) & Hsbs) Hx Hx3.
  destruct st as [bi sbc bc occ sam sbs]. cbn [b_i b_sbc b_bc b_occ b_samples b_sbs] in *. subst.
  unfold rsb_symbol. cbn [b_i b_sbc b_bc b_occ b_samples b_sbs].
  rewrite idx_vec4 by assumption. cbn [bind].
  destruct (samples_step bsize s i x sm Hb Hn Hx Hx3 Hsamp) as (sm' & E & Hs'). rewrite E. cbn [bind].
  rewrite !incr_vec4 by assumption. cbn [bind].
  eexists. split; [reflexivity|].
  assert (Hrk : forall c, (if c =? x then rk s x i + 1 else rk s c i) = rk s c (i + 1)).
  { intros c. rewrite (rk_succ s c i x Hx). destruct (N.eqb_spec c x) as [->|Hcx]; [now rewrite N.eqb_refl|].
    replace (x =? c) with false by lia. lia. }
  unfold pinv. cbn [b_i b_sbc b_bc b_occ b_samples b_sbs].
  split; [reflexivity|]. split; [|split; [|split; [|split]]].
  - apply vec4_ext. intros c Hc. apply Hrk.
  - apply vec4_ext. intros c Hc. rewrite <- Hrk.
    pose proof (rk_mono s c _ i (div_mul_le i (8 * bsize))) as M.
    destruct (N.eqb_spec c x) as [->|Hcx]; lia.
  - apply vec4_ext. intros c Hc. apply Hrk.
  - exists sm'. split; [reflexivity|exact Hs'].
  - exact Hsbs.
Qed.

Lemma rk_lt44 s c i : len s < 2 ^ 43 -> rk s c i < 2 ^ 44.
Proof. intros H. pose proof (rk_le_len s c i). norm_pow. norm_pow in H. lia. Qed.

Lemma rsb_boundaries_inv bsize s i st : bsz bsize -> len s < 2 ^ 43 -> i + 1 <= len s ->
  pinv bsize s i st -> exists st', rsb_boundaries bsize st = Val st' /\ binv bsize s (i + 1) st'.
Proof.
  intros Hb Hn Hi (Ei & Hsbc & Hbc & Hocc & (sm & Hsm & Hsamp) & (rest & Hsbs & Hlen & Hpt)).
  destruct st as [bi sbc bc occ sam sbs]. cbn [b_i b_sbc b_bc b_occ b_samples b_sbs] in *. subst.
  pose proof (bsz_pos _ Hb) as HB. unfold binv.
  pose proof (N.div_le_mono _ _ bsize ltac:(lia) Hi) as HQ.
  pose proof (blk_pos bsize ((i + 1) / bsize)) as EP.
  rewrite (sb_div bsize (i + 1) HB). rewrite (sb_div bsize i HB) in *.
  destruct (N.eq_dec ((i + 1) mod bsize) 0) as [HB0|HB0].
  2:{ (* no block starts at i + 1 *)
    rewrite bnd_C by assumption. rewrite (div_succ_inexact bsize i HB HB0).
    eexists. split; [reflexivity|]. cbn [b_i b_sbc b_bc b_occ b_samples b_sbs].
    split; [reflexivity|]. split; [reflexivity|]. split; [reflexivity|]. split; [reflexivity|]. split.
    - exists sm. split; [reflexivity|exact Hsamp].
    - exists rest. split; [|split; assumption]. f_equal. apply W_ext; [exact HB|]. intros k Hk.
      now rewrite (div_succ_inexact bsize i HB HB0). }
  rewrite (div_mul_exact _ _ HB HB0) in EP.
  pose proof (div_succ_exact bsize i HB HB0) as Eq.
  destruct (N.eq_dec (((i + 1) / bsize) mod 8) 0) as [HA|HA].
  - (* a new superblock starts at i + 1 *)
    rewrite bnd_A by (try assumption; intros; now apply rk_lt44).
    rewrite HA, N.mul_0_l, N.add_0_r in EP. rewrite Eq in *.
    eexists. split; [reflexivity|]. cbn [b_i b_sbc b_bc b_occ b_samples b_sbs].
    split; [reflexivity|]. split; [reflexivity|]. split; [|split; [reflexivity|split]].
    + rewrite EP. apply (vec4_ext (fun _ => 0)). intros c Hc. symmetry. apply N.sub_diag.
    + exists sm. split; [reflexivity|exact Hsamp].
    + exists (W bsize s i (i / bsize / 8) :: rest). split; [|split].
      * f_equal. unfold W. apply sbrec_ext.
        -- intros c Hc. now rewrite EP.
        -- intros c k Hc Hk. symmetry. apply fld_unset; [exact HB|]. rewrite Eq. lia.
      * rewrite len_cons, Hlen. lia.
      * intros j Hj. cbn [rev]. rewrite nthN_snoc, len_rev, Hlen.
        destruct (N.ltb_spec j (i / bsize / 8)) as [Hlt|Hge]; [now apply Hpt|].
        replace j with (i / bsize / 8) by lia. rewrite N.eqb_refl. f_equal.
        apply W_ext; [exact HB|]. intros k Hk. lia.
  - (* a block starts at i + 1 *)
    replace ((i + 1) / bsize / 8) with (i / bsize / 8) in * by lia.
    rewrite (bnd_B _ _ _ _ _ _ _ (W bsize s (i + 1) (i / bsize / 8)) _ HB HB0 HA).
    2:{ apply W_set_block; [exact Hb|lia..|]. intros c. now rewrite EP. }
    eexists. split; [reflexivity|]. cbn [b_i b_sbc b_bc b_occ b_samples b_sbs].
    split; [reflexivity|]. split; [reflexivity|]. split; [reflexivity|]. split; [reflexivity|]. split.
    + exists sm. split; [reflexivity|exact Hsamp].
    + exists rest. repeat split; assumption.
Qed.

Lemma binv_init bsize s : bsz bsize ->
  exists st, rsb_boundaries bsize (mk_rsb 0 [0;0;0;0] [0;0;0;0] [0;0;0;0] [[];[];[];[]] []) = Val st /\
             binv bsize s 0 st.
Proof.
  intros Hb. pose proof (bsz_pos _ Hb) as HB. change [0;0;0;0] with (vec4 (fun _ : N => 0)) at 1.
  rewrite bnd_A; [|exact HB|apply N.mod_0_l; lia|now rewrite N.div_0_l by lia|intros; norm_pow; lia].
  eexists. split; [reflexivity|].
  unfold binv. cbn [b_i b_sbc b_bc b_occ b_samples b_sbs]. rewrite N.div_0_l, N.mul_0_l by lia.
  split; [reflexivity|]. split; [|split; [|split; [|split]]].
  - apply vec4_ext. intros c Hc. now rewrite rk_0.
  - apply (vec4_ext (fun _ => 0)). intros c Hc. now rewrite rk_0.
  - apply (vec4_ext (fun _ => 0)). intros c Hc. now rewrite rk_0.
  - exists (fun _ => []). split; [reflexivity|]. intros c Hc. rewrite rk_0. split; [reflexivity|].
    intros q x. cbn [rev]. destruct q; discriminate.
  - exists []. split; [|split; [reflexivity|intros j Hj; lia]].
    f_equal. unfold W. apply sbrec_ext.
    + intros c Hc. now rewrite N.mul_0_l, rk_0.
    + intros c k Hc Hk. symmetry. apply fld_unset; [exact HB|]. rewrite N.div_0_l; lia.
Qed.

Fixpoint rsb_loop' (bsize : N) (st : rsb_state) (syms : list N) : outcome rsb_state :=
  match syms with
  | [] => Val st
  | x :: syms' =>
      let! st2 := rsb_symbol bsize st x in
      let! st3 := rsb_boundaries bsize st2 in
      rsb_loop' bsize st3 syms'
  end.

Lemma rsb_loop_eq bsize : forall syms st,
  rsb_loop bsize st syms = let! st1 := rsb_boundaries bsize st in rsb_loop' bsize st1 syms.
Proof.
  induction syms as [|x syms IH]; intros st; cbn [rsb_loop rsb_loop'].
  - destruct (rsb_boundaries bsize st); reflexivity.
  - destruct (rsb_boundaries bsize st) as [st1|]; cbn [bind]; [|reflexivity].
    destruct (rsb_symbol bsize st1 x) as [st2|]; cbn [bind]; [|reflexivity]. apply IH.
Qed.

Lemma rsb_loop'_inv bsize s : bsz bsize -> len s < 2 ^ 43 -> Forall (fun x => x < 4) s ->
  forall rest p st, s = p ++ rest -> binv bsize s (len p) st ->
  exists st', rsb_loop' bsize st rest = Val st' /\ binv bsize s (len s) st'.
Proof.
  intros Hb Hn HF. induction rest as [|x rest IH]; intros p st Es Hinv; cbn [rsb_loop'].
  - exists st. split; [reflexivity|]. rewrite app_nil_r in Es. rewrite <- Es in Hinv. exact Hinv.
  - assert (Hx : nthN s (len p) = Some x).
    { rewrite Es, nthN_app2 by lia. now rewrite N.sub_diag. }
    assert (Hx3 : x <= 3) by (pose proof (Forall_nthN _ _ _ _ HF Hx) as H4; cbv beta in H4; lia).
    destruct (rsb_symbol_inv bsize s (len p) st x Hb Hn Hinv Hx Hx3) as (st2 & E2 & H2). rewrite E2. cbn [bind].
    pose proof (nthN_some_lt _ _ _ Hx) as Hlt.
    destruct (rsb_boundaries_inv bsize s (len p) st2 Hb Hn ltac:(lia) H2) as (st3 & E3 & H3). rewrite E3. cbn [bind].
    apply (IH (p ++ [x])).
    + now rewrite <- app_assoc.
    + now rewrite len_app, len_cons, len_nil.
Qed.

Lemma rsb_loop_inv bsize s : bsz bsize -> len s < 2 ^ 43 -> Forall (fun x => x < 4) s ->
  exists st, rsb_loop bsize (mk_rsb 0 [0;0;0;0] [0;0;0;0] [0;0;0;0] [[];[];[];[]] []) s = Val st /\
             binv bsize s (len s) st.
Proof.
  intros Hb Hn HF. rewrite rsb_loop_eq. destruct (binv_init bsize s Hb) as (st0 & E0 & H0).
  rewrite E0. cbn [bind]. apply (rsb_loop'_inv bsize s Hb Hn HF s [] st0); [reflexivity|exact H0].
Qed.

(* select samples of c: entry q is the superblock holding the occurrence of rank q * 8192; one more entry, the
   last superblock, closes the list *)
Definition fsamp_ok (bsize : N) (s : list N) (c : N) (L : list N) : Prop :=
  (forall q, q * 8192 < countN c s -> exists x, nthN L q = Some x /\
     x <= len s / (8 * bsize) /\ rk s c (x * (8 * bsize)) <= q * 8192 /\
     q * 8192 < rk s c ((x + 1) * (8 * bsize))) /\
  (0 < countN c s -> nthN L ((countN c s + 8191) / 8192) = Some (len s / (8 * bsize))).

Definition dir_ok (bsize : N) (s : list N) (r : rssupport) : Prop :=
  len (rs_superblocks r) = len s / (8 * bsize) + 1 /\
  (forall j, j <= len s / (8 * bsize) ->
     nthN (rs_superblocks r) j = Some (W bsize s (len s + bsize) j)) /\
  exists sm, rs_samples r = vec4 sm /\ forall c, c <= 3 -> fsamp_ok bsize s c (sm c).

Lemma fsamp_final bsize s c l sentinel : samp_ok bsize s c l (countN c s) -> sentinel = len s / (8 * bsize) ->
  fsamp_ok bsize s c (rev (sentinel :: match l with [] => [0] | _ => l end)).
Proof.
  intros (Hl & Hp) ->. destruct l as [|y l'].
  - rewrite len_nil in Hl. split; intros; lia.
  - set (l := y :: l') in *. change (rev (_ :: l)) with (rev l ++ [len s / (8 * bsize)]). split.
    + intros q Hq. rewrite nthN_app1 by (rewrite len_rev, Hl; lia).
      destruct (nthN_lt_some (rev l) q) as (x & Ex); [rewrite len_rev, Hl; lia|].
      exists x. split; [exact Ex|]. now apply Hp.
    + intros _. rewrite nthN_snoc, len_rev, <- Hl. replace (len l <? len l) with false by lia.
      now rewrite N.eqb_refl.
Qed.

Theorem rss_new_ok bsize s : bsz bsize -> len s < RSQ_MAXN -> Forall (fun x => x < 4) s ->
  exists r, rss_new bsize s = Val r /\ dir_ok bsize s r.
Proof.
  intros Hb Hn HF. rewrite RSQ_MAXN_val in Hn. pose proof (bsz_pos _ Hb) as HB.
  assert (Hn43 : len s < 2 ^ 43) by (norm_pow; lia).
  assert (HJ : len s / (8 * bsize) + 1 < 2 ^ 32) by (norm_pow; destruct Hb as [-> | ->]; lia).
  unfold rss_new. rewrite MAX_LEN_val, RS_BLOCKS_IN_SB_val.
  replace (len s <? 8796093022208) with true by lia. cbn [oassert bind].
  replace ((bsize =? 256) || (bsize =? 512)) with true by (destruct Hb as [-> | ->]; reflexivity).
  cbn [bind].
  destruct (rsb_loop_inv bsize s Hb Hn43 HF) as (st & E & Hinv). rewrite E. cbn [bind]. clear E Hn.
  destruct Hinv as (_ & _ & Hbc & _ & (sm & Hsm & Hsamp) & (rest & Hsbs & Hlen & Hpt)).
  rewrite Hsbs, Hbc. unfold dir_ok. rewrite (sb_div bsize (len s) HB) in *.
  pose proof (div_add_blk bsize (len s) HB) as EQ.
  (* the fields of the block after the last one are set too *)
  assert (Efin : (if (len s / bsize) mod 8 + 1 <? 8
                  then let! last' := sb_set_block_counters (W bsize s (len s) (len s / bsize / 8))
                                       ((len s / bsize) mod 8 + 1)
                                       (vec4 (fun c => rk s c (len s) - rk s c (len s / bsize / 8 * (8 * bsize)))) in
                       Val (last' :: rest)
                  else Val (W bsize s (len s) (len s / bsize / 8) :: rest))
                 = Val (W bsize s (len s + bsize) (len s / bsize / 8) :: rest)).
  { destruct (N.ltb_spec ((len s / bsize) mod 8 + 1) 8) as [Hm|Hm].
    - pose proof (blk_pos bsize (len s / bsize)) as P. pose proof (lt_div_mul_succ (len s) bsize HB) as L.
      rewrite (W_set_block bsize s (len s) (len s + bsize)); [reflexivity|exact Hb|lia..|].
      intros c. now rewrite !rk_all by lia.
    - do 2 f_equal. apply W_ext; [exact HB|]. intros k Hk. lia. }
  rewrite Efin. cbn [bind]. rewrite len_cons, Hlen.
  rewrite (N.mod_small _ _ HJ). replace (_ + 1 =? 0) with false by lia. cbn [bind].
  eexists. split; [reflexivity|]. cbn [rs_superblocks rs_samples]. split; [|split].
  - rewrite len_rev, len_cons, Hlen. reflexivity.
  - intros j Hj. cbn [rev]. rewrite nthN_snoc, len_rev, Hlen.
    destruct (N.ltb_spec j (len s / bsize / 8)) as [Hlt|Hge].
    + rewrite Hpt by assumption. f_equal. apply W_ext; [exact HB|]. intros k Hk. lia.
    + replace j with (len s / bsize / 8) by lia. now rewrite N.eqb_refl.
  - rewrite Hsm, map_vec4. eexists. split; [reflexivity|]. intros c Hc. cbv beta.
    apply fsamp_final.
    + specialize (Hsamp c Hc). now rewrite rk_all in Hsamp by lia.
    + rewrite (sb_div bsize (len s) HB).
      replace (_ + 1 + 2 ^ 32 - 1) with (len s / bsize / 8 + 1 * 2 ^ 32) by lia.
      rewrite N.mod_add by (apply N.pow_nonzero; discriminate). apply N.mod_small. lia.
Qed.
