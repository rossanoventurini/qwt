(* Huffman-shaped wavelet trees, part 3, for any fragment size (as Section Code of HQWTBridge):
   the code read back by get is the table content, decode_tables / table_lookup invert it, "same
   code" means "same symbol" when distinct occurring symbols have distinct table entries, and
   hence the walks of Theory/HuffWM.v over [hwm_levels] answer like the list specification. *)
From Coq Require Import ZArith Lia ZifyBool ZifyN ZifyNat.
From QwtModel Require Import ListX Seq QWT Huff ListXP SeqP NBits RSQList.
From QwtModel Require Import WaveletMatrix HuffWM Codes QWTArith HQWTBridge HQWTWalks.

Lemma acc_step_shift frag v k : v < 2 ^ 32 ->
  acc_step frag (N.shiftr v (k + frag)) (N.land (N.shiftr v k) (2 ^ frag - 1)) = N.shiftr v k.
Proof.
  intros Hv. rewrite <- N.shiftr_shiftr. pose proof (shiftr_le v k) as Hy.
  set (y := N.shiftr v k) in *. unfold acc_step.
  rewrite <- N.pred_sub, <- N.ones_equiv, N.land_ones, N.shiftl_mul_pow2, N.shiftr_div_pow2.
  pose proof (pow2_pos frag) as Hp. pose proof (N.mul_div_le y (2 ^ frag)) as Hq.
  rewrite N.mod_small by lia. rewrite lor_add by (apply N.mod_lt; lia).
  rewrite (N.mul_comm (y / 2 ^ frag)). symmetry. apply N.div_mod. lia.
Qed.

Lemma pcode_ext c c' : pc_content c = pc_content c' -> pc_len c = pc_len c' -> c = c'.
Proof. destruct c as [a1 b1], c' as [a2 b2]. cbn [pc_content pc_len]. now intros -> ->. Qed.

Lemma select_spec_notin c s k : ~ In c s -> select_spec s c k = None.
Proof.
  intros Hc. apply select_spec_none.
  destruct (N.eq_dec (countN c s) 0) as [E|E]; [lia|]. exfalso. apply Hc, countN_pos_In. lia.
Qed.

Lemma number_levels_In {A} (l : list A) : forall k i c,
  In (i, c) (number_levels l k) <-> k <= i /\ nthN l (i - k) = Some c.
Proof.
  induction l as [|x l IH]; intros k i c; cbn [number_levels In nthN].
  - split; [contradiction|intros [_ H]; discriminate].
  - split; intros H.
    + destruct H as [E|H].
      * injection E as <- <-. split; [lia|]. rewrite N.sub_diag. reflexivity.
      * apply IH in H as [H1 H2]. split; [lia|]. destruct (N.eqb_spec (i - k) 0); [lia|].
        replace (N.pred (i - k)) with (i - (k + 1)) by lia. exact H2.
    + destruct H as [H1 H2]. destruct (N.eqb_spec (i - k) 0) as [E|E].
      * left. injection H2 as <-. f_equal. lia.
      * right. apply IH. split; [lia|]. replace (i - (k + 1)) with (N.pred (i - k)) by lia. exact H2.
Qed.

Lemma insert_sorted_In x y l : In y (insert_sorted x l) <-> y = x \/ In y l.
Proof.
  induction l as [|z l IH]; cbn [insert_sorted In].
  - split; intros [H|H]; auto.
  - destruct (fst x <? fst z); cbn [In]; [split; intros [H|H]; auto|].
    rewrite IH. tauto.
Qed.

Lemma sort_by_key_In y l : In y (sort_by_key l) <-> In y l.
Proof.
  unfold sort_by_key.
  assert (G : forall acc, In y (fold_left (fun acc x => insert_sorted x acc) l acc) <-> In y l \/ In y acc).
  { induction l as [|x l IH]; intros acc; cbn [fold_left In]; [tauto|].
    rewrite IH, insert_sorted_In. split; intros H; intuition auto. }
  rewrite G. cbn [In]. tauto.
Qed.

(* the decode table for length ln: the (content, symbol) pairs of the entries of that length *)
Lemma decode_entry tab ln p :
  In p (sort_by_key
          (map (fun '(i, c) => (pc_content c, i))
               (filter (fun '(i, c) => negb (pc_len c =? 0) && (pc_len c =? ln)) (number_levels tab 0)))) <->
  exists i c, p = (pc_content c, i) /\ nthN tab i = Some c /\ pc_len c <> 0 /\ pc_len c = ln.
Proof.
  rewrite sort_by_key_In, in_map_iff. split.
  - intros ([i c] & <- & H). apply filter_In in H as [H1 H2]. apply number_levels_In in H1 as [_ H1].
    rewrite N.sub_0_r in H1. apply andb_prop in H2 as [H2 H3].
    exists i, c. repeat split; [exact H1|lia|lia].
  - intros (i & c & -> & H1 & H2 & H3). exists (i, c). split; [reflexivity|].
    apply filter_In. split.
    + apply number_levels_In. rewrite N.sub_0_r. split; [lia|exact H1].
    + destruct (N.eqb_spec (pc_len c) 0); [contradiction|]. destruct (N.eqb_spec (pc_len c) ln); [reflexivity|contradiction].
Qed.

Lemma pre_digits {A} (dg : nat -> A -> N) n c x : pre A dg n c x = true ->
  digits_of A dg 0 n x = digits_of A dg 0 n c.
Proof.
  induction n as [|n IH]; [reflexivity|]. cbn [pre]. intros H. apply andb_prop in H as [H1 H2].
  rewrite !digits_of_snoc, (IH H1). cbn [Nat.add]. apply N.eqb_eq in H2. now rewrite H2.
Qed.

Section CodeSec.
Variables (frag : N) (a : nat).
Hypothesis Ha : N.of_nat a = 2 ^ frag.
Variable tab : list pcode.
Variable s : list N.
Hypothesis Htab : len tab < 2 ^ 64.
Hypothesis Hwf : forall x, In x s -> exists c, nthN tab x = Some c /\ code_wf frag c = true.
Hypothesis Hocc : forall x c, nthN tab x = Some c -> pc_len c <> 0 -> In x s.
Hypothesis Hdist : forall x y c, In x s -> In y s -> nthN tab x = Some c -> nthN tab y = Some c -> x = y.
Set Default Proof Using "All".

Notation dig := (code_dig frag tab).
Notation clen := (code_clen frag tab).
Notation LV l0 n := (hwm_levels N a dig clen l0 n s).
Notation digs l0 n c := (digits_of N dig l0 n c).
Notation mx := (maxN (map pc_len tab)).
Notation CT f := (f frag a Ha tab s Htab Hwf).

Lemma acc_fold_content x c : code_entry frag tab x c -> forall n, (n <= clen x)%nat ->
  fold_left (acc_step frag) (digs 0 n x) 0 = N.shiftr (pc_content c) (pc_len c - frag * N.of_nat n).
Proof.
  intros HF. destruct (CT code_clen_len x c HF) as [HL _]. destruct HF as [H1 H2 H3 H4 H5].
  induction n as [|n IH]; intros Hn.
  - change (digs 0 0 x) with (@nil N). cbn [fold_left]. change (N.of_nat 0) with 0.
    rewrite N.mul_0_r, N.sub_0_r, N.shiftr_div_pow2, N.div_small by exact H5. reflexivity.
  - rewrite digits_of_snoc, fold_left_app. cbn [fold_left Nat.add]. rewrite IH by lia.
    unfold code_dig. rewrite H1.
    replace (pc_len c - frag * N.of_nat n) with (pc_len c - frag * (N.of_nat n + 1) + frag) by nia.
    replace (N.of_nat (S n)) with (N.of_nat n + 1) by lia.
    apply acc_step_shift.
    assert (2 ^ pc_len c <= 2 ^ 32) by (apply N.pow_le_mono_r; lia). lia.
Qed.

Lemma acc_fold_full x c : code_entry frag tab x c ->
  fold_left (acc_step frag) (digs 0 (clen x) x) 0 = pc_content c.
Proof.
  intros HF. rewrite (acc_fold_content x c HF) by lia. destruct (CT code_clen_len x c HF) as [HL _].
  replace (pc_len c - frag * N.of_nat (clen x)) with 0 by lia. apply N.shiftr_0_r.
Qed.

Lemma code_unique x y c : In x s -> In y s -> code_entry frag tab x c -> code_entry frag tab y c -> x = y.
Proof.
  intros Hx Hy [H1 _ _ _ _] [H1' _ _ _ _].
  rewrite (CT code_sym_index x Hx) in H1. rewrite (CT code_sym_index y Hy) in H1'.
  exact (Hdist x y c Hx Hy H1 H1').
Qed.

Lemma same_code_eq c x : In c s -> In x s -> same_code N dig clen c x = (x =? c).
Proof.
  intros Hc Hx. destruct (N.eqb_spec x c) as [->|Hne].
  - unfold same_code. now rewrite pre_refl, Nat.eqb_refl.
  - destruct (same_code N dig clen c x) eqn:E; [exfalso|reflexivity]. apply Hne.
    unfold same_code in E. apply andb_prop in E as [E1 E2]. apply Nat.eqb_eq in E2.
    destruct (CT code_in_seq c Hc) as (cc & Fc). destruct (CT code_in_seq x Hx) as (cx & Fx).
    pose proof (acc_fold_full c cc Fc) as Ac. pose proof (acc_fold_full x cx Fx) as Ax.
    rewrite E2, (pre_digits dig _ c x E1), Ac in Ax.
    destruct (CT code_clen_len c cc Fc) as [Lc _]. destruct (CT code_clen_len x cx Fx) as [Lx _]. rewrite E2 in Lx.
    assert (Ecode : cx = cc) by (apply pcode_ext; lia).
    subst cx. exact (code_unique x c cc Hx Hc Fx Fc).
Qed.

Lemma filter_same_code c l : In c s -> (forall x, In x l -> In x s) ->
  len (filter (same_code N dig clen c) l) = countN c l.
Proof.
  intros Hc Hl. rewrite <- len_filter_eqb. f_equal. apply filter_ext_in.
  intros x Hx. apply same_code_eq; [exact Hc|exact (Hl x Hx)].
Qed.

Lemma len_le_mx x c : In x s -> code_entry frag tab x c -> pc_len c <= mx.
Proof.
  intros Hx [H1 _ _ _ _]. apply maxN_ge. apply in_map.
  rewrite (CT code_sym_index x Hx) in H1. exact (nthN_In _ _ _ H1).
Qed.

Lemma decode_ok x c : In x s -> code_entry frag tab x c ->
  exists T, nthN (decode_tables tab mx) (pc_len c) = Some T /\ table_lookup T (pc_content c) = Val x.
Proof.
  intros Hx HF. pose proof (len_le_mx x c Hx HF) as Hle.
  unfold decode_tables. rewrite nthN_map, nthN_seqN_lt by lia. cbn [option_map].
  eexists. split; [reflexivity|]. unfold table_lookup.
  replace (0 + pc_len c) with (pc_len c) by lia.
  pose proof HF as [H1 H2 H3 H4 H5]. rewrite (CT code_sym_index x Hx) in H1.
  destruct (find _ _) as [p|] eqn:Ef.
  - apply find_some in Ef as [Hin Hk]. apply decode_entry in Hin as (i & c' & -> & G1 & G2 & G3).
    cbn [fst snd] in *. apply N.eqb_eq in Hk.
    assert (Ecode : c' = c) by (apply pcode_ext; lia).
    subst c'. f_equal. exact (Hdist i x c (Hocc i c G1 G2) Hx G1 H1).
  - exfalso. pose proof (find_none _ _ Ef (pc_content c, x)) as Hf. cbn [fst] in Hf.
    rewrite N.eqb_refl in Hf. discriminate Hf.
    apply decode_entry. exists x, c. repeat split; [exact H1|lia].
Qed.

Hypothesis Hok : wm_ok N a dig clen s = true.

Lemma code_rank_bounds c i m : In c s -> i <= len s -> (m < clen c)%nat ->
  fst (rank_walk (LV 0 m) (digs 0 m c) 0 i) <= len (Q N a dig clen m s) /\
  snd (rank_walk (LV 0 m) (digs 0 m c) 0 i) <= len (Q N a dig clen m s).
Proof.
  intros Hc Hi Hm.
  pose proof (hwm_rank_prefix N a dig (code_dig_lt frag a Ha tab) clen s c (wm_ok_cont N a dig clen s c Hok Hc)
                (CT code_clen_pos c Hc) m i Hm Hi) as H. cbv zeta in H. lia.
Qed.

Lemma code_rank_spec c i : In c s -> i <= len s ->
  (let (p, j) := rank_walk (LV 0 (clen c)) (digs 0 (clen c) c) 0 i in osub j p) = Val (rank_spec s c i).
Proof.
  intros Hc Hi.
  pose proof (hwm_rank_correct N a dig (code_dig_lt frag a Ha tab) clen s c i Hok Hc (CT code_clen_pos c Hc) Hi) as R.
  cbv zeta in R. destruct (rank_walk _ _ 0 i) as [p j]. cbn [fst snd] in R.
  destruct R as (R1 & _ & R3). unfold osub. destruct (N.leb_spec p j); [|lia].
  rewrite R3, (filter_same_code c (firstnN i s) Hc), rank_spec_rk; [reflexivity|].
  intros x. apply In_firstnN.
Qed.

Lemma code_select_bounds c : In c s ->
  Forall2 (fun '(b, rb) l => b <= len (Q N a dig clen l s) /\ rb <= b)
          (select_down (LV 0 (clen c)) (digs 0 (clen c) c) 0) (seq 0 (clen c)).
Proof.
  intros Hc. exact (hselect_down_bounds N a dig (code_dig_lt frag a Ha tab) clen s c
                      (wm_ok_cont N a dig clen s c Hok Hc) (CT code_clen_pos c Hc)).
Qed.

Lemma code_select_spec c k : In c s ->
  wm_select (LV 0 (clen c)) (digs 0 (clen c) c) k = select_spec s c k.
Proof.
  intros Hc.
  rewrite (hwm_select_correct N a dig (code_dig_lt frag a Ha tab) clen s c k Hok Hc (CT code_clen_pos c Hc)).
  apply select_pred_eqb. intros x Hx. exact (same_code_eq c x Hc Hx).
Qed.

Lemma code_get_decode M i x : nthN s i = Some x -> (clen x <= M)%nat ->
  exists c T, fold_left (acc_step frag) (get_walk (LV 0 M) i) 0 = pc_content c /\
              frag * len (get_walk (LV 0 M) i) = pc_len c /\
              nthN (decode_tables tab mx) (pc_len c) = Some T /\ table_lookup T (pc_content c) = Val x.
Proof.
  intros Hi HM. assert (Hx : In x s) by exact (nthN_In _ _ _ Hi).
  destruct (CT code_in_seq x Hx) as (c & HF). destruct (CT code_clen_len x c HF) as [HL Hpos].
  destruct (decode_ok x c Hx HF) as (T & ET & EK). exists c, T.
  destruct (hwm_get_correct N a dig (code_dig_lt frag a Ha tab) clen M s i x Hok Hi Hpos HM) as [Gw _].
  rewrite Gw, (acc_fold_full x c HF). unfold len. rewrite digits_of_length. repeat split; [lia|exact ET|exact EK].
Qed.

End CodeSec.
