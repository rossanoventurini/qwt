(* C02: craft_wm_codes (quad and binary) returns, whenever it returns, a table that realises the
   requested code lengths and is wavelet-matrix compatible (HuffWM.wm_ok), hence prefix free;
   and an explicit sufficient condition for it to return. *)
From Coq Require Import ZArith Lia ZifyBool ZifyN ZifyNat Sorted.
From QwtModel Require Import ListX ListXP NBits Huff Codes HuffWM CraftArith.

Definition craft_input_ok (frag : N) (f : list (N * N)) (sigma : N) : Prop :=
  (frag = 1 \/ frag = 2) /\
  NoDup (map fst f) /\ Forall (fun p => fst p <= sigma /\ 0 < snd p /\ snd p mod frag = 0) f /\
  StronglySorted (fun p q => snd p <= snd q) f /\ sigma < 2 ^ 64.

(* what craft_expand does to the unassigned part c[j..]: the copies tagged n, n-1, .., 1 in fragment l,
   then the part itself *)
Fixpoint tag_blocks (l : N) (act : list N) (n : nat) : list N :=
  match n with
  | O => act
  | S n' => map (fun x => N.lor x (N.shiftl (N.of_nat n) l)) act ++ tag_blocks l act n'
  end.

Lemma craft_expand_eq frag c j l size : frag = 1 \/ frag = 2 ->
  craft_expand frag c j l size =
  (let! _ := if 32 <=? l then Fault Overflow else Val tt in
   let c' := firstnN j c ++ tag_blocks l (skipnN j c) (N.to_nat (2 ^ frag - 1)) in
   if len c' <=? size then Val c' else Fault Panic).
Proof. intros [-> | ->]; reflexivity. Qed.

Lemma len_tag_blocks l act n : len (tag_blocks l act n) = (N.of_nat n + 1) * len act.
Proof. induction n as [|n IH]; cbn [tag_blocks]; [|rewrite len_app, len_map, IH]; lia. Qed.

Lemma len_expand frag l c j : j <= len c ->
  len (firstnN j c ++ tag_blocks l (skipnN j c) (N.to_nat (2 ^ frag - 1))) = j + 2 ^ frag * (len c - j).
Proof.
  intros Hj. rewrite len_app, len_firstnN_le, len_tag_blocks, len_skipnN, Nnat.N2Nat.id by exact Hj.
  rewrite N.sub_add; [reflexivity|]. pose proof (pow2_pos frag). lia.
Qed.

Lemma craft_expand_spec frag c j l size c' : frag = 1 \/ frag = 2 -> j <= len c ->
  craft_expand frag c j l size = Val c' ->
  l < 32 /\ c' = firstnN j c ++ tag_blocks l (skipnN j c) (N.to_nat (2 ^ frag - 1)) /\ len c' <= size /\
  len c' = j + 2 ^ frag * (len c - j).
Proof.
  intros Hf Hj H. rewrite (craft_expand_eq frag c j l size Hf) in H. cbv zeta in H.
  destruct (N.leb_spec 32 l) as [Hl|Hl]; cbn [bind] in H; [discriminate|].
  match type of H with (if ?b then _ else _) = _ => destruct b eqn:Eb end; [|discriminate].
  injection H as <-. apply N.leb_le in Eb.
  split; [exact Hl|]. split; [reflexivity|]. split; [exact Eb|]. apply len_expand. exact Hj.
Qed.

Lemma craft_expand_total frag c j l size : frag = 1 \/ frag = 2 -> j <= len c -> l < 32 ->
  j + 2 ^ frag * (len c - j) <= size ->
  exists c', craft_expand frag c j l size = Val c' /\ len c' = j + 2 ^ frag * (len c - j).
Proof.
  intros Hf Hj Hl Hs. rewrite (craft_expand_eq frag c j l size Hf). cbv zeta.
  destruct (N.leb_spec 32 l) as [Hl'|_]; [lia|]. cbn [bind].
  pose proof (len_expand frag l c j Hj) as EL. rewrite EL.
  destruct (N.leb_spec (j + 2 ^ frag * (len c - j)) size); [|lia].
  eexists. split; [reflexivity|exact EL].
Qed.

Lemma tag_add k l act : Forall (fun x => x < 2 ^ l) act ->
  map (fun x => N.lor x (N.shiftl k l)) act = map (fun x => x + k * 2 ^ l) act.
Proof.
  intros H. rewrite Forall_forall in H. apply map_ext_in. intros x Hx.
  rewrite N.lor_comm, lor_shiftl_add by exact (H x Hx). lia.
Qed.

(* the expanded part is again strictly decreasing: the copy tagged k lies in [k * 2^l, (k+1) * 2^l) *)
Lemma tag_blocks_dec l act n : dec_lt (2 ^ l) act -> dec_lt ((N.of_nat n + 1) * 2 ^ l) (tag_blocks l act n).
Proof.
  intros Ha. induction n as [|n IH]; cbn [tag_blocks].
  - rewrite N.mul_1_l. exact Ha.
  - rewrite (tag_add _ l act (proj2 Ha)). apply dec_lt_block; [exact Ha|].
    rewrite Nnat.Nat2N.inj_succ, <- N.add_1_r. exact IH.
Qed.

Lemma expand_dec frag l act : dec_lt (2 ^ l) act ->
  dec_lt (2 ^ (l + frag)) (tag_blocks l act (N.to_nat (2 ^ frag - 1))).
Proof.
  intros Ha. pose proof (tag_blocks_dec l act (N.to_nat (2 ^ frag - 1)) Ha) as H.
  rewrite Nnat.N2Nat.id, N.sub_add in H by (pose proof (pow2_pos frag); lia).
  rewrite N.pow_add_r, N.mul_comm. exact H.
Qed.

(* the tags sit above fragment l: residues modulo 2^le, le <= l, are those of the part itself *)
Lemma tag_blocks_mod l act n le e : le <= l ->
  Forall (fun x => x < 2 ^ l) act -> Forall (fun v => v mod 2 ^ le < e) act ->
  Forall (fun v => v mod 2 ^ le < e) (tag_blocks l act n).
Proof.
  intros Hle Hb Hm. induction n as [|n IH]; cbn [tag_blocks]; [exact Hm|]. rewrite (tag_add _ l act Hb).
  replace (2 ^ l) with (2 ^ le * 2 ^ (l - le)) by (rewrite <- N.pow_add_r; f_equal; lia).
  apply Forall_mod_block; [apply N.pow_nonzero; lia|exact Hm|exact IH].
Qed.

Lemma craft_grow_spec frag target size : frag = 1 \/ frag = 2 -> target mod frag = 0 ->
  forall fuel c j l c' l',
  craft_grow frag c j l target size fuel = Val (c', l') ->
  j <= len c -> l mod frag = 0 -> l <= target -> l <= 32 -> dec_lt (2 ^ l) (skipnN j c) ->
  l' = target /\ target <= 32 /\ j <= len c' /\ dec_lt (2 ^ target) (skipnN j c') /\
  (forall le e, le <= l -> Forall (fun v => v mod 2 ^ le < e) (skipnN j c) ->
                Forall (fun v => v mod 2 ^ le < e) (skipnN j c')).
Proof.
  intros Hf Ht. induction fuel as [|fuel IH]; intros c j l c' l' H Hj Hlm Hlt Hl32 Hd;
    cbn [craft_grow] in H; [discriminate|].
  destruct (N.ltb_spec l target) as [Hlt'|Hge].
  - destruct (craft_expand frag c j l size) as [c1|] eqn:E; cbn [bind] in H; [|discriminate].
    destruct (craft_expand_spec frag c j l size c1 Hf Hj E) as (Hl & Hs & _ & HL).
    assert (Hsk : skipnN j c1 = tag_blocks l (skipnN j c) (N.to_nat (2 ^ frag - 1))).
    { rewrite Hs. rewrite <- (len_firstnN_le c j Hj) at 1. apply skipnN_app_exact. }
    assert (Hj1 : j <= len c1) by (rewrite HL; apply N.le_add_r).
    destruct (frag_next frag l target Hf Hlm Ht Hlt') as (A1 & A2).
    destruct (frag_next frag l 32 Hf Hlm (frag_32 frag Hf) Hl) as (_ & A3).
    destruct (IH c1 j (l + frag) c' l' H Hj1 A1 A2 A3) as (R1 & R2 & R3 & R4 & R5).
    { rewrite Hsk. apply expand_dec. exact Hd. }
    split; [exact R1|]. split; [exact R2|]. split; [exact R3|]. split; [exact R4|].
    intros le e Hle Hm. apply R5; [exact (N.le_trans _ _ _ Hle (N.le_add_r l frag))|].
    rewrite Hsk. apply tag_blocks_mod; [exact Hle|exact (proj2 Hd)|exact Hm].
  - injection H as <- <-. assert (l = target) by lia. subst l.
    split; [reflexivity|]. split; [exact Hl32|]. split; [exact Hj|]. split; [exact Hd|].
    intros le e _ Hm. exact Hm.
Qed.

(* an assignment: symbol, entry of the scratch array (first fragment least significant), bits *)
Record asn := mk_asn { a_sym : N; a_e : N; a_len : N }.
Definition asn_code (frag : N) (x : asn) : pcode :=
  mk_pc (rev_frags frag (a_e x) (a_len x) 0 40) (a_len x).
Definition asn_req (x : asn) : N * N := (a_sym x, a_len x).
(* [newer] is assigned after [older]: its first (a_len older) bits, reversed, are below older's *)
Definition Rasn (newer older : asn) : Prop :=
  a_len older <= a_len newer /\ a_e newer mod 2 ^ a_len older < a_e older.
Definition asn_wf (frag : N) (x : asn) : Prop :=
  0 < a_len x /\ a_len x <= 32 /\ a_len x mod frag = 0 /\ a_e x < 2 ^ a_len x.
Definition tab_ok (frag sigma : N) (asg : list asn) (table : list pcode) : Prop :=
  len table = sigma + 1 /\
  (forall x, In x asg -> nthN table (a_sym x) = Some (asn_code frag x)) /\
  (forall s, ~ In s (map a_sym asg) -> s <= sigma -> nthN table s = Some pc_zero).

(* The state of the builder before symbol number j; [asg] holds the assignments made, latest first.  The unassigned
   part c[j..] is strictly decreasing below 2^l and, cut to the length of any assigned code, stays below that code's
   entry: so whatever is assigned later is [Rasn]-related to everything assigned before. *)
Definition assign_inv (frag sigma : N) (c : list N) (j l : N) (table : list pcode) (asg : list asn) : Prop :=
  StronglySorted Rasn asg /\ Forall (asn_wf frag) asg /\ tab_ok frag sigma asg table /\
  l mod frag = 0 /\ l <= 32 /\ j <= len c /\ dec_lt (2 ^ l) (skipnN j c) /\
  Forall (fun x => a_len x <= l /\ Forall (fun v => v mod 2 ^ a_len x < a_e x) (skipnN j c)) asg.

Lemma tab_ok_set frag sigma asg table x : tab_ok frag sigma asg table -> a_sym x < len table ->
  ~ In (a_sym x) (map a_sym asg) ->
  tab_ok frag sigma (x :: asg) (setN table (a_sym x) (asn_code frag x)).
Proof.
  intros (T1 & T2 & T3) Hx Hn. split; [rewrite setN_len; exact T1|]. split.
  - intros y [<-|Hy]; [apply nthN_setN_same; exact Hx|].
    rewrite nthN_setN_other; [exact (T2 y Hy)|]. intros Heq. apply Hn. rewrite Heq. apply in_map. exact Hy.
  - intros s Hs Hss. cbn [map In] in Hs.
    rewrite nthN_setN_other by (intros E; apply Hs; left; exact E).
    apply T3; [|exact Hss]. intros Hc. apply Hs. right. exact Hc.
Qed.

Lemma assign_inv_step frag sigma size c j l table asg sym target c' l' cj : frag = 1 \/ frag = 2 ->
  assign_inv frag sigma c j l table asg ->
  0 < target -> target mod frag = 0 -> l <= target -> sym < len table -> ~ In sym (map a_sym asg) ->
  craft_grow frag c j l target size 40 = Val (c', l') -> nthN c' j = Some cj ->
  l' = target /\
  assign_inv frag sigma c' (j + 1) target (setN table sym (mk_pc (rev_frags frag cj target 0 40) target))
             (mk_asn sym cj target :: asg).
Proof.
  intros Hf (HS & HW & HT & Hlm & Hl32 & Hj & Hd & HI) Htpos Htm Hlt Hsym Hnew EG EN.
  destruct (craft_grow_spec frag target size Hf Htm 40%nat c j l c' l' EG Hj Hlm Hlt Hl32 Hd)
    as (-> & Ht32 & Hj' & Hd' & Hmod).
  split; [reflexivity|].
  rewrite (skipnN_nth c' j cj EN) in Hd', Hmod.
  destruct Hd' as [Hd1 Hd2]. inversion Hd1 as [|? ? Hd1' Hcj]; subst. inversion Hd2 as [|? ? Hcjb Hd2']; subst.
  assert (HI' : forall x, In x asg -> a_len x <= target /\ cj mod 2 ^ a_len x < a_e x /\
                          Forall (fun v => v mod 2 ^ a_len x < a_e x) (skipnN (j + 1) c')).
  { rewrite Forall_forall in HI. intros x Hx. destruct (HI x Hx) as [Hxl Hxm].
    split; [exact (N.le_trans _ _ _ Hxl Hlt)|]. specialize (Hmod (a_len x) (a_e x) Hxl Hxm).
    inversion Hmod; subst. split; assumption. }
  split; [|split; [|split; [|split; [|split; [|split; [|split]]]]]].
  - constructor; [exact HS|]. apply Forall_forall. intros x Hx. destruct (HI' x Hx) as (A & B & _).
    split; assumption.
  - constructor; [|exact HW]. repeat split; assumption.
  - exact (tab_ok_set frag sigma asg table (mk_asn sym cj target) HT Hsym Hnew).
  - exact Htm.
  - exact Ht32.
  - apply nthN_some_lt in EN. clear - EN. lia.
  - split; assumption.
  - constructor.
    + split; [apply N.le_refl|]. rewrite Forall_forall in Hcj, Hd2'.
      apply Forall_forall. intros v Hv. cbn [a_len a_e]. rewrite N.mod_small by exact (Hd2' v Hv). exact (Hcj v Hv).
    + apply Forall_forall. intros x Hx. destruct (HI' x Hx) as (A & _ & C). split; assumption.
Qed.

Lemma craft_assign_inv frag sigma size : frag = 1 \/ frag = 2 ->
  forall rest c j l table asg tab,
  craft_assign frag rest c j l size table = Val tab ->
  assign_inv frag sigma c j l table asg ->
  NoDup (map a_sym asg ++ map fst rest) ->
  Forall (fun p => 0 < snd p /\ snd p mod frag = 0 /\ l <= snd p) rest ->
  StronglySorted (fun p q => snd p <= snd q) rest ->
  exists asgF, StronglySorted Rasn asgF /\ Forall (asn_wf frag) asgF /\ tab_ok frag sigma asgF tab /\
               map asn_req (rev asgF) = map asn_req (rev asg) ++ rest.
Proof.
  intros Hf. induction rest as [|[sym target] rest IH]; intros c j l table asg tab H Hinv HN HR HSr;
    cbn [craft_assign] in H.
  - injection H as <-. exists asg. destruct Hinv as (HS & HW & HT & _). rewrite app_nil_r.
    split; [exact HS|]. split; [exact HW|]. split; [exact HT|reflexivity].
  - inversion HR as [|? ? (Htpos & Htm & Hlt) HR']; subst. cbn [snd] in Htpos, Htm, Hlt.
    inversion HSr as [|? ? HSr' Hhead]; subst.
    cbn [map app fst] in HN. pose proof (NoDup_remove _ _ _ HN) as [HN1 HN2].
    destruct (craft_grow frag c j l target size 40) as [[c' l']|] eqn:EG; cbn [bind] in H; [|discriminate].
    unfold idx in H. destruct (nthN c' j) as [cj|] eqn:EN; cbn [bind] in H; [|discriminate].
    destruct (N.ltb_spec sym (len table)) as [Hsym|Hsym]; cbn [bind] in H; [|discriminate].
    destruct (assign_inv_step frag sigma size c j l table asg sym target c' l' cj Hf Hinv Htpos Htm Hlt Hsym)
      as (-> & Hinv'); [|exact EG|exact EN|].
    { intros Hc. apply HN2, in_or_app. left. exact Hc. }
    destruct (IH c' (j + 1) target _ (mk_asn sym cj target :: asg) tab H Hinv') as (asgF & F1 & F2 & F3 & F4).
    + cbn [map a_sym app]. constructor; assumption.
    + rewrite Forall_forall in HR', Hhead |- *. intros p Hp.
      destruct (HR' p Hp) as (Q1 & Q2 & _). specialize (Hhead p Hp). cbn [snd] in Hhead. repeat split; assumption.
    + exact HSr'.
    + exists asgF. split; [exact F1|]. split; [exact F2|]. split; [exact F3|].
      rewrite F4. cbn [rev]. rewrite map_app, <- app_assoc. reflexivity.
Qed.

Lemma arity_of_pow frag : N.of_nat (arity_of frag) = 2 ^ frag.
Proof. unfold arity_of. apply Nnat.N2Nat.id. Qed.

Lemma code_dig_lt frag tab : forall l x, code_dig frag tab l x < N.of_nat (arity_of frag).
Proof.
  intros l x. rewrite arity_of_pow. unfold code_dig. pose proof (pow2_pos frag) as Hp.
  destruct (nthN tab (sym_index x)) as [c|]; [|exact Hp].
  rewrite land_pred_pow2. apply N.mod_lt. lia.
Qed.

Lemma mul_div_exact l frag : 0 < frag -> l mod frag = 0 -> frag * (l / frag) = l.
Proof. intros Hf Hm. pose proof (N.div_mod l frag ltac:(lia)) as H. lia. Qed.

Lemma asn_code_wf frag x : 0 < frag -> asn_wf frag x -> code_wf frag (asn_code frag x) = true.
Proof.
  intros Hf (H1 & H2 & H3 & H4). unfold code_wf, asn_code. cbn [pc_len pc_content].
  rewrite rev_frags_spec by assumption.
  pose proof (revd_lt (2 ^ frag) (pow2_pos frag) (N.to_nat (a_len x / frag)) (a_e x)) as Hr.
  rewrite Nnat.N2Nat.id, <- N.pow_mul_r, mul_div_exact in Hr by assumption.
  repeat (apply andb_true_intro; split); lia.
Qed.

Lemma entry_bridge frag tab x : 0 < frag -> asn_wf frag x -> a_sym x < 2 ^ 64 ->
  nthN tab (a_sym x) = Some (asn_code frag x) ->
  code_clen frag tab (a_sym x) = N.to_nat (a_len x / frag) /\
  forall n, (n <= N.to_nat (a_len x / frag))%nat ->
    rev_val N (arity_of frag) (code_dig frag tab) n (a_sym x) = a_e x mod (2 ^ frag) ^ N.of_nat n.
Proof.
  intros Hf (H1 & H2 & H3 & H4) Hs Hn.
  assert (Es : sym_index (a_sym x) = a_sym x) by (unfold sym_index; apply N.mod_small; exact Hs).
  split.
  - unfold code_clen. rewrite Es, Hn. reflexivity.
  - induction n as [|n IH]; intros Hle.
    + cbn [rev_val]. change (N.of_nat 0) with 0. rewrite N.pow_0_r, N.mod_1_r. reflexivity.
    + cbn [rev_val]. rewrite IH by apply Nat.lt_le_incl, Hle. rewrite arity_of_pow.
      rewrite (mod_pow_succ (2 ^ frag) (a_e x) n (pow2_pos frag)). f_equal. f_equal.
      unfold code_dig. rewrite Es, Hn. cbn [asn_code pc_content pc_len].
      rewrite land_pred_pow2, N.shiftr_div_pow2, rev_frags_spec by assumption.
      set (k := N.to_nat (a_len x / frag)) in *.
      assert (Ek : a_len x = frag * N.of_nat k).
      { unfold k. rewrite Nnat.N2Nat.id. symmetry. apply mul_div_exact; assumption. }
      assert (Ed : a_len x - frag * (N.of_nat n + 1) = frag * N.of_nat (k - 1 - n)).
      { rewrite Ek, <- N.mul_sub_distr_l. f_equal. clear - Hle. lia. }
      rewrite Ed, N.pow_mul_r. apply revd_digit; [apply pow2_gt_1; exact Hf|exact Hle].
Qed.

Lemma craft_assignments : forall frag f sigma scratch tab,
  craft_input_ok frag f sigma -> craft_wm_codes frag f sigma scratch = Val tab ->
  exists asg, StronglySorted Rasn asg /\ Forall (asn_wf frag) asg /\ tab_ok frag sigma asg tab /\
              map asn_req (rev asg) = f.
Proof.
  intros frag f sigma scratch tab (Hf & HN & HF & HS & Hsig) H. unfold craft_wm_codes in H.
  apply (craft_assign_inv frag sigma scratch Hf f [0] 0 0 _ [] tab H).
  - split; [constructor|]. split; [constructor|]. split; [|split; [|split; [|split; [|split]]]].
    + split; [rewrite len_repeat; lia|]. split; [intros x []|]. intros s _ Hs. apply nthN_repeat. lia.
    + apply N.mod_0_l. destruct Hf as [-> | ->]; discriminate.
    + lia.
    + rewrite len_cons. lia.
    + rewrite skipnN_0. split; repeat constructor.
    + constructor.
  - exact HN.
  - rewrite Forall_forall in HF |- *. intros p Hp. destruct (HF p Hp) as (_ & Q2 & Q3).
    split; [exact Q2|]. split; [exact Q3|apply N.le_0_l].
  - exact HS.
Qed.

Lemma asg_syms asg f s : map asn_req (rev asg) = f -> In s (map fst f) <-> In s (map a_sym asg).
Proof. intros <-. rewrite map_map, map_rev, <- in_rev. reflexivity. Qed.

Theorem craft_table_ok : forall frag f sigma scratch tab,
  craft_input_ok frag f sigma -> craft_wm_codes frag f sigma scratch = Val tab ->
  len tab = sigma + 1 /\
  (forall sym l, In (sym, l) f -> exists c, nthN tab sym = Some c /\ pc_len c = l /\ code_wf frag c = true) /\
  (forall sym, ~ In sym (map fst f) -> sym <= sigma -> nthN tab sym = Some pc_zero) /\
  code_wm_ok frag tab (map fst f) = true.
Proof.
  intros frag f sigma scratch tab Hi H. pose proof Hi as (Hf & _ & _ & _ & Hsig).
  assert (Hfp : 0 < frag) by (destruct Hf as [-> | ->]; lia).
  destruct (craft_assignments frag f sigma scratch tab Hi H) as (asg & A1 & A2 & (T1 & T2 & T3) & A4).
  rewrite Forall_forall in A2.
  assert (Hsym64 : forall x, In x asg -> a_sym x < 2 ^ 64).
  { intros x Hx. pose proof (nthN_some_lt _ _ _ (T2 x Hx)). lia. }
  split; [exact T1|]. split; [|split].
  - intros sym l Hin. rewrite <- A4 in Hin. apply in_map_iff in Hin as (x & Hx1 & Hx2).
    apply in_rev in Hx2. injection Hx1 as <- <-. exists (asn_code frag x).
    split; [exact (T2 x Hx2)|]. split; [reflexivity|]. apply asn_code_wf; [exact Hfp|exact (A2 x Hx2)].
  - intros sym Hnot Hle. apply T3; [|exact Hle]. intros Hc. apply Hnot, (asg_syms asg f sym A4), Hc.
  - unfold code_wm_ok, wm_ok. apply forallb_forall. intros sf Hsf. apply forallb_forall. intros sg Hsg.
    apply (asg_syms asg f sf A4), in_map_iff in Hsf as (xf & <- & Hxf).
    apply (asg_syms asg f sg A4), in_map_iff in Hsg as (xg & <- & Hxg).
    destruct (entry_bridge frag tab xf Hfp (A2 xf Hxf) (Hsym64 xf Hxf) (T2 xf Hxf)) as (Cf & Rf).
    destruct (entry_bridge frag tab xg Hfp (A2 xg Hxg) (Hsym64 xg Hxg) (T2 xg Hxg)) as (Cg & Rg).
    unfold ok_pair. rewrite Cf, Cg.
    destruct (Nat.ltb_spec (N.to_nat (a_len xf / frag)) (N.to_nat (a_len xg / frag))) as [Hlt|Hge];
      cbn [implb]; [|reflexivity].
    apply N.ltb_lt. rewrite Rf by apply Nat.le_refl. rewrite Rg by apply Nat.lt_le_incl, Hlt.
    destruct (A2 xf Hxf) as (W1 & W2 & W3 & W4).
    rewrite Nnat.N2Nat.id, <- N.pow_mul_r, mul_div_exact by assumption.
    rewrite (N.mod_small (a_e xf)) by exact W4.
    destruct (SS_pair Rasn asg xg xf A1 Hxg Hxf) as [E|[[_ R]|[R _]]].
    + subst xg. destruct (Nat.lt_irrefl _ Hlt).
    + exact R.
    + exfalso. assert (a_len xg / frag <= a_len xf / frag) by (apply N.div_le_mono; [clear - Hfp; lia|exact R]).
      clear - Hlt H0. lia.
Qed.

Corollary craft_prefix_free : forall frag f sigma scratch tab,
  craft_input_ok frag f sigma -> craft_wm_codes frag f sigma scratch = Val tab ->
  HuffWM.prefix_free N (code_dig frag tab) (code_clen frag tab) (map fst f) = true.
Proof.
  intros frag f sigma scratch tab Hi H.
  apply (wm_ok_prefix_free N (arity_of frag) (code_dig frag tab) (code_dig_lt frag tab)).
  exact (proj2 (proj2 (proj2 (craft_table_ok frag f sigma scratch tab Hi H)))).
Qed.

Corollary craft_clen_pos : forall frag f sigma scratch tab,
  craft_input_ok frag f sigma -> craft_wm_codes frag f sigma scratch = Val tab ->
  forall sym, In sym (map fst f) -> (0 < code_clen frag tab sym)%nat.
Proof.
  intros frag f sigma scratch tab Hi H sym Hs. pose proof Hi as (Hf & _ & HF & _ & Hsig).
  destruct (craft_table_ok _ _ _ _ _ Hi H) as (_ & HT & _).
  apply in_map_iff in Hs as ([s l] & <- & Hin). cbn [fst].
  destruct (HT s l Hin) as (c & Hc & Hl & Hw). rewrite Forall_forall in HF.
  destruct (HF _ Hin) as (Q1 & Q2 & Q3). cbn [fst snd] in *.
  unfold code_clen, sym_index. rewrite N.mod_small by lia. rewrite Hc, Hl.
  assert (1 <= l / frag); [|lia]. apply N.div_le_lower_bound; destruct Hf as [-> | ->]; lia.
Qed.

(* simulation of the length of the scratch array only: m = len c *)
Fixpoint fits_grow (frag m j l target size : N) (fuel : nat) : option (N * N) :=
  match fuel with
  | O => None
  | S f => if l <? target then
             let m' := j + 2 ^ frag * (m - j) in      (* = 2^frag * m - (2^frag - 1) * j *)
             if m' <=? size then fits_grow frag m' j (l + frag) target size f else None
           else Some (m, l)
  end.
(* the successive lengths of c (after the growth for each symbol), None when the bound is exceeded
   or no codeword is left for symbol number j (Kraft sum above 1) *)
Fixpoint craft_sizes_from (frag : N) (f : list (N * N)) (m j l size : N) : option (list N) :=
  match f with
  | [] => Some []
  | (_, target) :: rest =>
      match fits_grow frag m j l target size 40 with
      | None => None
      | Some (m', l') =>
          if j <? m' then
            match craft_sizes_from frag rest m' (j + 1) l' size with
            | Some r => Some (m' :: r)
            | None => None
            end
          else None
      end
  end.
Definition craft_sizes (frag : N) (f : list (N * N)) (scratch : N) : option (list N) :=
  craft_sizes_from frag f 1 0 0 scratch.
Definition craft_fits (frag : N) (f : list (N * N)) (scratch : N) : bool :=
  match craft_sizes frag f scratch with Some _ => true | None => false end.

Lemma fits_grow_sim frag target size : frag = 1 \/ frag = 2 -> target <= 32 ->
  forall fuel c j l m' l',
  fits_grow frag (len c) j l target size fuel = Some (m', l') -> j <= len c ->
  exists c', craft_grow frag c j l target size fuel = Val (c', l') /\ len c' = m' /\ j <= len c'.
Proof.
  intros Hf Ht. induction fuel as [|fuel IH]; intros c j l m' l' H Hj; cbn [fits_grow] in H; [discriminate|].
  cbn [craft_grow]. destruct (N.ltb_spec l target) as [Hlt|Hge].
  - cbv zeta in H. destruct (N.leb_spec (j + 2 ^ frag * (len c - j)) size) as [Hs|Hs]; [|discriminate].
    destruct (craft_expand_total frag c j l size Hf Hj ltac:(lia) Hs) as (c1 & E1 & L1).
    rewrite E1. cbn [bind]. rewrite <- L1 in H. apply IH; [exact H|lia].
  - injection H as <- <-. exists c. split; [reflexivity|split; [reflexivity|exact Hj]].
Qed.

Lemma craft_sizes_sim frag size : frag = 1 \/ frag = 2 ->
  forall f c j l table r,
  craft_sizes_from frag f (len c) j l size = Some r -> j <= len c ->
  Forall (fun p => snd p <= 32 /\ fst p < len table) f ->
  exists tab, craft_assign frag f c j l size table = Val tab.
Proof.
  intros Hf. induction f as [|[sym target] f IH]; intros c j l table r H Hj HF; cbn [craft_assign].
  - eexists. reflexivity.
  - cbn [craft_sizes_from] in H. inversion HF as [|? ? [Ht Hs] HF']; subst. cbn [fst snd] in Ht, Hs.
    destruct (fits_grow frag (len c) j l target size 40) as [[m' l']|] eqn:EG; [|discriminate].
    destruct (fits_grow_sim frag target size Hf Ht 40%nat c j l m' l' EG Hj) as (c' & E1 & L1 & J1).
    rewrite E1. cbn [bind]. destruct (N.ltb_spec j m') as [Hjm|Hjm]; [|discriminate].
    destruct (craft_sizes_from frag f m' (j + 1) l' size) as [r'|] eqn:ER; [|discriminate].
    destruct (nthN_lt_some c' j ltac:(lia)) as (cj & Ecj). unfold idx. rewrite Ecj. cbn [bind].
    destruct (N.ltb_spec sym (len table)) as [_|Hge]; [|lia]. cbn [bind].
    rewrite <- L1 in ER. apply (IH c' (j + 1) l' _ r' ER); [lia|].
    rewrite setN_len. exact HF'.
Qed.

(* the routine cannot fault except for the three modelled reasons *)
Theorem craft_total : forall frag f sigma scratch, craft_input_ok frag f sigma ->
  Forall (fun p => snd p <= 32) f -> craft_fits frag f scratch = true ->
  exists tab, craft_wm_codes frag f sigma scratch = Val tab.
Proof.
  intros frag f sigma scratch (Hf & _ & HF & _ & _) H32 Hfit. unfold craft_fits, craft_sizes in Hfit.
  destruct (craft_sizes_from frag f 1 0 0 scratch) as [r|] eqn:E; [|discriminate].
  unfold craft_wm_codes. apply (craft_sizes_sim frag scratch Hf f [0] 0 0 _ r).
  - exact E.
  - lia.
  - rewrite Forall_forall in HF, H32. apply Forall_forall. intros p Hp. split; [exact (H32 p Hp)|].
    rewrite len_repeat. destruct (HF p Hp) as (Q & _). lia.
Qed.

(* conversely craft_fits is necessary: the condition is exact for lengths <= 32 *)
Lemma fits_grow_complete frag target size : frag = 1 \/ frag = 2 ->
  forall fuel c j l c' l',
  craft_grow frag c j l target size fuel = Val (c', l') -> j <= len c ->
  fits_grow frag (len c) j l target size fuel = Some (len c', l') /\ j <= len c'.
Proof.
  intros Hf. induction fuel as [|fuel IH]; intros c j l c' l' H Hj; cbn [craft_grow] in H; [discriminate|].
  cbn [fits_grow]. destruct (N.ltb_spec l target) as [Hlt|Hge].
  - destruct (craft_expand frag c j l size) as [c1|] eqn:E; cbn [bind] in H; [|discriminate].
    destruct (craft_expand_spec frag c j l size c1 Hf Hj E) as (_ & _ & Hs & HL).
    cbv zeta. rewrite <- HL. destruct (N.leb_spec (len c1) size); [|lia].
    apply IH; [exact H|lia].
  - injection H as <- <-. split; [reflexivity|exact Hj].
Qed.

Lemma craft_sizes_complete frag size : frag = 1 \/ frag = 2 ->
  forall f c j l table tab,
  craft_assign frag f c j l size table = Val tab -> j <= len c ->
  exists r, craft_sizes_from frag f (len c) j l size = Some r.
Proof.
  intros Hf. induction f as [|[sym target] f IH]; intros c j l table tab H Hj; cbn [craft_sizes_from].
  - eexists. reflexivity.
  - cbn [craft_assign] in H.
    destruct (craft_grow frag c j l target size 40) as [[c' l']|] eqn:EG; cbn [bind] in H; [|discriminate].
    destruct (fits_grow_complete frag target size Hf 40%nat c j l c' l' EG Hj) as (E1 & J1). rewrite E1.
    unfold idx in H. destruct (nthN c' j) as [cj|] eqn:EN; cbn [bind] in H; [|discriminate].
    apply nthN_some_lt in EN. destruct (N.ltb_spec j (len c')); [|lia].
    destruct (sym <? len table); cbn [bind] in H; [|discriminate].
    destruct (IH c' (j + 1) l' _ tab H ltac:(lia)) as (r & Er). rewrite Er. eexists. reflexivity.
Qed.

Theorem craft_fits_necessary : forall frag f sigma scratch tab, frag = 1 \/ frag = 2 ->
  craft_wm_codes frag f sigma scratch = Val tab -> craft_fits frag f scratch = true.
Proof.
  intros frag f sigma scratch tab Hf H. unfold craft_wm_codes in H.
  destruct (craft_sizes_complete frag scratch Hf f [0] 0 0 _ tab H) as (r & Er).
  - unfold len. cbn [length]. lia.
  - unfold craft_fits, craft_sizes. change (len [0]) with 1 in Er. rewrite Er. reflexivity.
Qed.

Example craft4_ex :
  craft4 [(5,2);(9,2);(7,4);(3,4);(1,4)] 9 =
    Val [pc_zero; mk_pc 6 4; pc_zero; mk_pc 3 4; pc_zero; mk_pc 3 2; pc_zero; mk_pc 7 4; pc_zero; mk_pc 2 2] /\
  craft_sizes 2 [(5,2);(9,2);(7,4);(3,4);(1,4)] 20 = Some [4; 4; 10; 10; 10] /\
  craft_fits 2 [(5,2);(9,2);(7,4);(3,4);(1,4)] 20 = true /\
  code_wm_ok 2 [pc_zero; mk_pc 6 4; pc_zero; mk_pc 3 4; pc_zero; mk_pc 3 2; pc_zero; mk_pc 7 4; pc_zero; mk_pc 2 2]
             [5; 9; 7; 3; 1] = true.
Proof. vm_compute. repeat split; reflexivity. Qed.

Example craft2_ex :
  craft2 [(5,1);(9,2);(7,3);(3,4);(1,4)] 9 =
    Val [pc_zero; mk_pc 0 4; pc_zero; mk_pc 1 4; pc_zero; mk_pc 1 1; pc_zero; mk_pc 1 3; pc_zero; mk_pc 1 2] /\
  craft_sizes 1 [(5,1);(9,2);(7,3);(3,4);(1,4)] 5 = Some [2; 3; 4; 5; 5] /\
  craft_fits 1 [(5,1);(9,2);(7,3);(3,4);(1,4)] 5 = true /\
  code_wm_ok 1 [pc_zero; mk_pc 0 4; pc_zero; mk_pc 1 4; pc_zero; mk_pc 1 1; pc_zero; mk_pc 1 3; pc_zero; mk_pc 1 2]
             [5; 9; 7; 3; 1] = true.
Proof. vm_compute. repeat split; reflexivity. Qed.

(* the predicate is not trivially true: the canonical (lexicographic) assignment for the lengths of
   craft4_ex, 5 -> (0), 9 -> (1), 7 -> (2,0), 3 -> (2,1), 1 -> (2,2), is prefix free but not
   wavelet-matrix compatible *)
Example canonical_not_wm :
  let tab := [pc_zero; mk_pc 10 4; pc_zero; mk_pc 9 4; pc_zero; mk_pc 0 2; pc_zero; mk_pc 8 4; pc_zero; mk_pc 1 2] in
  code_wm_ok 2 tab [5; 9; 7; 3; 1] = false /\
  HuffWM.prefix_free N (code_dig 2 tab) (code_clen 2 tab) [5; 9; 7; 3; 1] = true /\
  forallb (code_wf 2) [mk_pc 10 4; mk_pc 9 4; mk_pc 0 2; mk_pc 8 4; mk_pc 1 2] = true.
Proof. vm_compute. repeat split; reflexivity. Qed.

(* a request whose Kraft sum exceeds 1 (five quad codes of one fragment), and one exceeding the scratch bound *)
Example craft_fits_neg :
  craft_fits 2 [(0,2);(1,2);(2,2);(3,2);(4,2)] 20 = false /\
  craft4 [(0,2);(1,2);(2,2);(3,2);(4,2)] 4 = Fault Panic /\
  craft_fits 1 [(5,1);(9,2);(7,3);(3,4);(1,4)] 4 = false /\
  craft_wm_codes 1 [(5,1);(9,2);(7,3);(3,4);(1,4)] 9 4 = Fault Panic.
Proof. vm_compute. repeat split; reflexivity. Qed.

Example craft4_ex_thm : forall tab, craft4 [(5,2);(9,2);(7,4);(3,4);(1,4)] 9 = Val tab ->
  code_wm_ok 2 tab [5; 9; 7; 3; 1] = true.
Proof.
  intros tab H. unfold craft4 in H.
  refine (proj2 (proj2 (proj2 (craft_table_ok 2 [(5,2);(9,2);(7,4);(3,4);(1,4)] 9 _ tab _ H)))).
  split; [now right|]. split; [|split; [|split]].
  - cbn [map fst]. repeat (constructor; [cbn [In]; lia|]). constructor.
  - repeat (constructor; [cbn [fst snd]; lia|]). constructor.
  - repeat (constructor; [|repeat (constructor; [cbn [snd]; lia|]); constructor]). constructor.
  - change (2 ^ 64) with 18446744073709551616. lia.
Qed.

Print Assumptions craft_table_ok.
Print Assumptions craft_prefix_free.
Print Assumptions craft_clen_pos.
Print Assumptions craft_total.
Print Assumptions craft_fits_necessary.
Print Assumptions craft4_ex.
Print Assumptions craft2_ex.
Print Assumptions canonical_not_wm.
Print Assumptions craft_fits_neg.
Print Assumptions craft4_ex_thm.
