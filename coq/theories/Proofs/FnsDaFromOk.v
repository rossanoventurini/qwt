(* DArray: FromIterator<bool> regenerated (Gen/FnsDanew.v: BitVector::from_iter then DArray::new, both regenerated): the public
   construction path from a bit sequence, followed by the regenerated queries, is the list specification. *)
From Coq Require Import ZArith Lia ZifyBool ZifyN ZifyNat.
From QwtModel Require Import ListX Loops BitVec BitVecP.
From QwtModel Require Import FnsBvnew FnsDanew FnsDaOk FnsBvnewOk FnsDanewOk.
Open Scope N_scope.

Definition g_da_from_bools (s0 : bool) := if s0 then g_da0_from_bools else g_da1_from_bools.

Lemma g_da_from_bools_unfold s0 fuel bs :
  g_da_from_bools s0 fuel bs = let! (d, nb, no) := g_bv_from_bools bs in g_da_new s0 fuel d nb no.
Proof. destruct s0; unfold g_da_from_bools, g_da_new, g_da0_from_bools, g_da1_from_bools;
       destruct (g_bv_from_bools bs) as [[[d nb] no]|]; reflexivity. Qed.

Theorem g_da_from_bools_correct : forall s0 bs fuel, len bs < 2 ^ 63 ->
  (N.to_nat (len bs) + N.to_nat (8 * ((len bs + 511) / 512)) + 2 <= fuel)%nat ->
  exists d, g_da_from_bools s0 fuel bs = Val (da_fields d) /\ da_types_ok d /\ C07_gen s0 d bs.
Proof.
  intros s0 bs fuel Hn Hf.
  destruct (g_bv_from_bools_correct bs Hn) as (b & E & Hinv & Habs).
  assert (Hlen : bv_nbits b = len bs).
  { rewrite <- Habs. symmetry. exact (inv_len b Hinv). }
  assert (Hfuel : (N.to_nat (bv_nbits b) + length (bv_words b) + 2 <= fuel)%nat).
  { pose proof (inv_words_len b Hinv) as Hw. unfold len in Hw. rewrite Hlen in *. lia. }
  destruct (g_da_new_of_bitvector s0 b fuel Hinv Hfuel) as (d & G & _ & _ & Ht & Hg).
  exists d. split; [|split; [exact Ht|rewrite <- Habs; exact Hg]].
  rewrite g_da_from_bools_unfold, E. cbn [bind]. exact G.
Qed.
Print Assumptions g_da_from_bools_correct.
