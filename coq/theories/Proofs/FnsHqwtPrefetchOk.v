(* HuffQWaveletTree::rank_prefetch_unchecked / rank_prefetch (WITH_PREFETCH_SUPPORT = false: HQWT256 / HQWT512)
   regenerated (Gen/FnsHqwt.v): the estimation phase (the i64 shift, `while shift >= 2` with the reads of
   occs_smaller_unchecked / rank_block_unchecked of every level, the checked arithmetic and the index checks of the
   arguments of the prefetch_data calls) never faults on a tree the constructor builds and has no effect, and its code
   lookup `codes_encode[symbol as usize]` panics exactly where that of rank_unchecked does: the
   regenerated methods are EQUAL to the regenerated rank_unchecked / rank, hence to the list specification (C09). *)
From Coq Require Import ZArith Lia ZifyBool ZifyN ZifyNat.
From QwtModel Require Import FnsQwtOk.
From QwtModel Require Import ListX Loops Seq RSQ Huff ListXP FnsRsq FnsRsqOk FnsHqwt.
From QwtModel Require Import RSQBuild HQWTCode HQWTP HQWTNewP.
From QwtModel Require Import FnsHqwtOk NBits OutcomeP.
Open Scope N_scope.

(* `(repr >> shift as usize) as u8 & 3`, where rank has `((repr >> shift as usize) & 3) as u8` *)
Lemma land_mod8_3 x : N.land (x mod 2 ^ 8) 3 = N.land x 3.
Proof.
  rewrite <- N.land_ones, <- N.land_assoc. reflexivity.
Qed.

(* the counters of `while shift >= 2 { ..; level += 1; shift -= 2 }` with n + 1 steps to go *)
Lemma est_counters n lv sh : lv + N.of_nat (S n) <= 15 -> sh = (2 * Z.of_nat (S n))%Z ->
  (2 <= sh < 32)%Z /\ lv <= 2 ^ 32 /\ oadd 64 lv 1 = Val (lv + 1) /\ zisub 64 sh 2 = Val (sh - 2)%Z /\
  Z.to_N sh - 2 = Z.to_N (sh - 2) /\ lv + 1 + N.of_nat n <= 15 /\ (sh - 2 = 2 * Z.of_nat n)%Z.
Proof.
  intros Hlv ->. repeat apply conj; try lia; [apply oadd_ok; rewrite p64; lia|apply zisub_ok; lia].
Qed.

Lemma sym_index_idem c : sym_index (sym_index c) = sym_index c.
Proof. unfold sym_index. apply N.mod_mod. discriminate. Qed.

(* on every tree hq_build builds: the levels and the table are well formed, and the hand model's
   rank_prefetch_unchecked returns a value for EVERY symbol that indexes into the code table (with or without a
   code, also symbols >= 2^64 whose `as usize` truncation indexes the table) and every i <= len *)
Lemma hq_pf_facts w bsize seq tab t : width_ok w -> (bsize = 256 \/ bsize = 512) ->
  Forall (fun x => x < 2 ^ w) seq -> len seq < RSQ_MAXN -> table_ok seq tab -> hq_build bsize seq tab = Val t ->
  hq_spec w bsize t seq /\ Forall lvl_rank_ok (h_qvs t) /\ codes_ok t /\ h_n t = len seq /\
  (forall c i, i <= len seq -> forall code, idx (h_codes t) (sym_index c) = Val code ->
     exists v, hq_rank_prefetch_unchecked bsize t c i = Val v).
Proof.
  intros Hw Hb HF Hn Htok Hbuild.
  destruct (hq_build_correct w bsize seq tab Hw Hb HF Hn Htok) as (t' & Et & Hspec).
  rewrite Hbuild in Et. apply Val_inj in Et. subst t'.
  destruct (hq_build_wf bsize seq tab t _ Hb Hn Htok Hbuild (le_n _)) as (Hlv & Hco & _).
  pose proof (lvl_select_rank _ _ _ Hlv) as Hlr.
  pose proof Hspec as (S1 & _ & _ & _ & _ & _ & S7 & _).
  split; [exact Hspec|]. split; [exact Hlr|]. split; [exact Hco|]. split; [exact S1|].
  intros c i Hi code Ec.
  destruct seq as [|x0 seq'].
  - exfalso. unfold hq_build in Hbuild.
    destruct (rsq_default bsize) as [d|]; cbn [bind] in Hbuild; [|discriminate].
    apply Val_inj in Hbuild. subst t. cbn [h_codes] in Ec. discriminate.
  - set (s := x0 :: seq') in *.
    assert (Hcodes : h_codes t = tab).
    { unfold s in Hbuild. rewrite hq_build_cons in Hbuild.
      destruct (hq_levels bsize (x0 :: seq') tab 2 _) as [[qvs lens]|]; cbn [bind] in Hbuild; [|discriminate].
      apply Val_inj in Hbuild. subst t. reflexivity. }
    destruct Htok as (_ & _ & Hocc & _).
    destruct (N.eq_dec (pc_len code) 0) as [E0|Hne].
    + (* a symbol without a code: no estimation step, rank_unchecked returns i *)
      assert (Hq : exists r0, idx (h_qvs t) 0 = Val r0).
      { destruct (S7 x0 0) as [_ P].
        - apply countN_pos_In. left. reflexivity.
        - lia.
        - unfold hq_rank_prefetch_unchecked in P.
          destruct (idx (h_codes t) (sym_index x0)); cbn [bind] in P; [|discriminate].
          destruct (idx (h_qvs t) 0) as [r0|]; cbn [bind] in P; [|discriminate]. now exists r0. }
      destruct Hq as (r0 & Er0).
      unfold hq_rank_prefetch_unchecked, hq_rank_unchecked. rewrite Ec, Er0. cbn [bind]. rewrite E0.
      change (N.to_nat (0 / 2 - 1)) with 0%nat. change (N.to_nat (0 / 2)) with 0%nat.
      cbn [hq_estimate_walk hq_rank_walk bind]. unfold osub. destruct (N.leb_spec 0 i); [|lia].
      eexists. reflexivity.
    + (* a symbol with a code occurs in the sequence (its `as usize` truncation does) *)
      assert (Hcl : hq_rank_prefetch_unchecked bsize t c i = hq_rank_prefetch_unchecked bsize t (sym_index c) i).
      { unfold hq_rank_prefetch_unchecked, hq_rank_unchecked. rewrite sym_index_idem. reflexivity. }
      rewrite Hcodes in Ec. apply idx_Val in Ec.
      pose proof (Hocc _ _ Ec Hne) as Hin. apply countN_pos_In in Hin.
      destruct (S7 (sym_index c) i Hin Hi) as [_ P]. rewrite Hcl, P. eexists. reflexivity.
Qed.

(* the text of Gen/FnsHqwt.v with the functions that depend on the block size abstracted (checked convertible to
   both generated instances by the instance theorems below); the final call is the generic text G_rank_unchecked of
   Proofs/FnsHqwtOk.v *)
Section GenericPf.
  Variable bsize : N.
  Variable g_occs_su : list N -> N -> outcome N.
  Variable g_rank_blk : list (list N) -> N -> N -> outcome N.
  Variable g_rank_u : list (list N) -> list (list N) -> N -> N -> outcome N.
  Hypothesis occs_su_ok : forall r c, g_occs_su (rsq_occs_smaller r) c = rsq_occs_smaller_unchecked r c.
  Hypothesis rank_blk_ok : forall r c i,
    g_rank_blk (rs_superblocks (rsq_rs r)) c i = rss_rank_block bsize (rsq_rs r) c i.
  (* every result of the section takes all the callees and agreement theorems, used or not, so that the instances
     after the section pass the same arguments to each *)
  Set Default Proof Using "All".

  Definition G_pf_cond : N * N * N * Z -> outcome bool :=
    fun '(range_start, range_end, level, shift) => Val (Z.leb (2%Z) shift).

  Definition G_pf_body (repr : N) (qvs_qv_data : list (list (list N))) (qvs_rs_support_superblocks : list (list (list N)))
    (qvs_n_occs_smaller : list (list N)) (BLOCK_SIZE : N) : N * N * N * Z -> outcome (step (N * N * N * Z) N) :=
    fun '(range_start, range_end, level, shift) =>
      let! t3 := oshr 32 repr (Z.to_N (Z.modulo shift (2 ^ 64)%Z)) in
      let two_bits := N.land (t3 mod 2 ^ 8) 3 in
      let! t4 := idx qvs_n_occs_smaller level in
      let! offset := g_occs_su t4 two_bits in
      let! t5 := idx qvs_rs_support_superblocks level in
      let! rank_start := g_rank_blk t5 two_bits range_start in
      let! t6 := idx qvs_rs_support_superblocks level in
      let! rank_end := g_rank_blk t6 two_bits range_end in
      let! t7 := oadd 64 rank_start offset in
      let! t8 := oadd 64 rank_end offset in
      let range_start := t7 in
      let range_end := t8 in
      let! t9 := oadd 64 level 1 in
      let! _ := idx qvs_qv_data t9 in
      let! t10 := oadd 64 level 1 in
      let! _ := idx qvs_qv_data t10 in
      let! t11 := oadd 64 range_start BLOCK_SIZE in
      let! t12 := oadd 64 level 1 in
      let! _ := idx qvs_qv_data t12 in
      let! t13 := oadd 64 level 1 in
      let! _ := idx qvs_qv_data t13 in
      let! t14 := oadd 64 range_end BLOCK_SIZE in
      let! r := for_loop (G_pf_inner qvs_qv_data level range_end BLOCK_SIZE) 0 (N.to_nat (level - 0)) tt in
      match r with
      | Retd v => Val v
      | Done _ =>
          let! level := oadd 64 level 1 in
          let! shift := zisub 64 shift (2%Z) in
          Val (Next (range_start, range_end, level, shift))
      end.

  Definition G_pf_unchecked (fuel : nat) (wT : N) (codes_encode_content : list N) (codes_encode_len : list N) (qvs_qv_data : list (list (list N))) (qvs_rs_support_superblocks : list (list (list N))) (qvs_n_occs_smaller : list (list N)) (symbol : N) (i : N) : outcome N :=
    let t1 := symbol mod 2 ^ 64 in
    let! _ := idx codes_encode_content t1 in
    let range_start := 0 in
    let range_end := i in
    let! t2 := idx codes_encode_len t1 in
    let! shift := zisub 64 (zwrap 64 (Z.of_N t2)) (2%Z) in
    let! repr := idx codes_encode_content t1 in
    let BLOCK_SIZE := 256 in
    let level := 0 in
    let! _ := idx qvs_qv_data 0 in
    let! _ := idx qvs_qv_data 0 in
    let! r := while_loop G_pf_cond
                (G_pf_body repr qvs_qv_data qvs_rs_support_superblocks qvs_n_occs_smaller BLOCK_SIZE)
                fuel (range_start, range_end, level, shift) in
    match r with
    | Retd v => Val v
    | Done (range_start, range_end, level, shift) =>
        G_rank_unchecked g_occs_su g_rank_u fuel wT codes_encode_content codes_encode_len qvs_qv_data qvs_rs_support_superblocks qvs_n_occs_smaller symbol i
    end.

  Definition G_pf (fuel : nat) (wT : N) (n : N) (codes_encode_content : list N) (codes_encode_len : list N) (qvs_qv_data : list (list (list N))) (qvs_rs_support_superblocks : list (list (list N))) (qvs_n_occs_smaller : list (list N)) (symbol : N) (i : N) : outcome (option N) :=
    let! t2 := (if N.ltb n i then Val true else
      let! t1 := g_hqwt256_code_index wT codes_encode_content codes_encode_len symbol in
      Val (match t1 with None => true | Some _ => false end)) in
    if t2 then
      Val None
    else
      let! t3 := G_pf_unchecked fuel wT codes_encode_content codes_encode_len qvs_qv_data qvs_rs_support_superblocks qvs_n_occs_smaller symbol i in
      Val (Some t3).

  (* the state of `while shift >= 2` with n estimation steps to go: the i64 shift of the source is 2 * n while a step
     remains; the loop is left when it is below 2 (0, or -2 for the code of length 0 of a symbol that does not occur) *)
  Definition est_inv (qvs : list rsq) (repr : N) (n : nat) (s : N * N * N * Z) : Prop :=
    let '(rs, re, level, shift) := s in
    level + N.of_nat n <= 15 /\ (shift = 2 * Z.of_nat n \/ n = 0%nat /\ shift = -2)%Z /\
    hq_estimate_walk bsize qvs repr (Z.to_N shift) rs re level n = Val tt.

  (* the estimation phase is transparent wherever the hand model's estimation walk returns (or the code lookup
     already faults: then both sides are the same fault) *)
  Theorem G_pf_unchecked_eq : forall wT t symbol i fuel,
    Forall lvl_rank_ok (h_qvs t) -> codes_ok t -> (17 <= fuel)%nat ->
    (forall code, idx (h_codes t) (sym_index symbol) = Val code ->
       exists v, hq_rank_prefetch_unchecked bsize t symbol i = Val v) ->
    G_pf_unchecked fuel wT (hq_enc_content t) (hq_enc_len t) (hq_data t) (hq_sbs t) (hq_occs t) symbol i
    = G_rank_unchecked g_occs_su g_rank_u fuel wT (hq_enc_content t) (hq_enc_len t) (hq_data t) (hq_sbs t) (hq_occs t) symbol i.
  Proof.
    intros wT t symbol i fuel HF HC Hfuel Hv. unfold G_pf_unchecked. cbv zeta.
    fold (sym_index symbol).
    destruct (idx (h_codes t) (sym_index symbol)) as [code|f] eqn:Ec.
    2:{ unfold G_rank_unchecked. cbv zeta. fold (sym_index symbol).
        unfold hq_enc_content. rewrite !idx_map, Ec. reflexivity. }
    set (final := G_rank_unchecked _ _ _ _ _ _ _ _ _ _ _).
    destruct (Hv code eq_refl) as (v & Ev). clear Hv. revert Ev.
    unfold hq_rank_prefetch_unchecked. rewrite Ec. cbn [bind].
    destruct (idx (h_qvs t) 0) as [r0|] eqn:E0; cbn [bind]; [|discriminate].
    destruct (code_frags t _ code HC Ec) as (m & Hm & Em & Esh & ->).
    replace (N.to_nat (pc_len code / 2 - 1)) with (m - 1)%nat by (clear - Em; rewrite <- Em; lia). clear Em.
    destruct (hq_estimate_walk bsize (h_qvs t) (pc_content code) (Z.to_N (2 * Z.of_nat m - 2)) 0 i 0 (m - 1))
      as [[]|] eqn:Ew; cbn [bind]; [|discriminate].
    intros _. unfold hq_enc_content, hq_enc_len, hq_data, hq_sbs, hq_occs. rewrite !idx_map, Ec, E0. cbn [bind].
    rewrite Esh. cbn [bind].
    apply (bind_post _ _ (fun r => exists st, r = Done st)); [|intros r ([[[a b] c] d] & ->); reflexivity].
    apply (while_loop_inv _ _ _ (est_inv (h_qvs t) (pc_content code))) with (n := (m - 1)%nat).
    - intros [[[rs re] lv] sh] (_ & Hsh & _). split; [unfold G_pf_cond; f_equal; clear - Hsh; lia|eauto].
    - intros n [[[rs re] lv] sh] (Hlv & [Hsh|[Hn _]] & Hw); [|discriminate Hn].
      destruct (est_counters n lv sh Hlv Hsh) as (Hs32 & Hl32 & Elv & Esh' & Eto & Hlv' & Hsh').
      split; [unfold G_pf_cond; f_equal; apply Z.leb_le, Hs32|].
      revert Hw. cbn [hq_estimate_walk]. unfold G_pf_body. cbv beta iota zeta.
      rewrite oshr_i64 by (clear - Hs32; lia). cbn [bind]. rewrite land_mod8_3.
      set (tb := N.land (N.shiftr (pc_content code) (Z.to_N sh)) 3).
      rewrite !idx_map.
      destruct (idx (h_qvs t) lv) as [qv|] eqn:Eqv; cbn [bind]; [|discriminate].
      pose proof (idx_Forall _ _ _ _ HF Eqv) as (_ & Hsb & Ho).
      rewrite occs_su_ok.
      destruct (rsq_occs_smaller_unchecked qv tb) as [o|] eqn:Eo; cbn [bind]; [|discriminate].
      destruct (occs_smaller_bound _ _ _ Ho Eo) as [Ho' _].
      unfold lvl_sbs at 1 2. rewrite !rank_blk_ok.
      destruct (rss_rank_block bsize (rsq_rs qv) tb rs) as [a|] eqn:Ea; cbn [bind]; [|discriminate].
      destruct (rss_rank_block bsize (rsq_rs qv) tb re) as [b|] eqn:Eb; cbn [bind]; [|discriminate].
      destruct (est_range a o (rank_block_bound _ _ _ _ _ Hsb Ea) Ho') as (Ea1 & Ea2 & _).
      destruct (est_range b o (rank_block_bound _ _ _ _ _ Hsb Eb) Ho') as (Eb1 & Eb2 & Hb').
      destruct (idx (h_qvs t) (lv + 1)) as [qv1|] eqn:Eqv1; cbn [bind]; [|discriminate].
      rewrite Eto. intros Hw.
      rewrite Ea1, Eb1, !Elv. cbn [bind]. rewrite !idx_map, Eqv1. cbn [bind]. rewrite Ea2, Eb2. cbn [bind].
      rewrite (pf_inner_done _ lv (b + o) (rsq_wdata qv1)); [|rewrite idx_map, Eqv1; reflexivity|exact Hl32|exact Hb'|clear; lia].
      cbn [bind]. rewrite Esh'. cbn [bind step_ok].
      repeat apply conj; [exact Hlv'|left; exact Hsh'|exact Hw].
    - clear - Hm Hfuel. lia.
    - repeat apply conj; [clear - Hm; lia|clear; lia|exact Ew].
  Qed.

  Theorem G_pf_eq : forall wT t symbol i fuel,
    Forall lvl_rank_ok (h_qvs t) -> codes_ok t -> (17 <= fuel)%nat ->
    (i <= h_n t -> forall code, idx (h_codes t) (sym_index symbol) = Val code ->
       exists v, hq_rank_prefetch_unchecked bsize t symbol i = Val v) ->
    G_pf fuel wT (h_n t) (hq_enc_content t) (hq_enc_len t) (hq_data t) (hq_sbs t) (hq_occs t) symbol i
    = G_rank g_occs_su g_rank_u fuel wT (h_n t) (hq_enc_content t) (hq_enc_len t) (hq_data t) (hq_sbs t) (hq_occs t) symbol i.
  Proof.
    intros wT t symbol i fuel HF HC Hfuel Hv. unfold G_pf, G_rank.
    destruct (N.ltb_spec (h_n t) i) as [Hi|Hi]; [reflexivity|]. cbn [bind].
    rewrite (G_pf_unchecked_eq wT t symbol i fuel HF HC Hfuel (Hv Hi)). reflexivity.
  Qed.

  (* on every tree hq_build builds the estimation phase of rank_prefetch_unchecked never faults and has no effect:
     EVERY symbol (with or without a code, no `c < 2^w` needed; a symbol outside the table is the same index panic
     on both sides), every i <= len; fuel >= 17 *)
  Theorem G_pf_unchecked_built : (bsize = 256 \/ bsize = 512) -> forall w seq tab t fuel, width_ok w ->
    Forall (fun x => x < 2 ^ w) seq -> len seq < RSQ_MAXN -> table_ok seq tab ->
    hq_build bsize seq tab = Val t -> (17 <= fuel)%nat ->
    forall c i, i <= len seq ->
    G_pf_unchecked fuel w (hq_enc_content t) (hq_enc_len t) (hq_data t) (hq_sbs t) (hq_occs t) c i
    = G_rank_unchecked g_occs_su g_rank_u fuel w (hq_enc_content t) (hq_enc_len t) (hq_data t) (hq_sbs t) (hq_occs t) c i.
  Proof.
    intros Hb w seq tab t fuel Hw HF Hn Htok Hbuild Hf17 c i Hi.
    destruct (hq_pf_facts w bsize seq tab t Hw Hb HF Hn Htok Hbuild) as (_ & Hlr & Hco & _ & Hv).
    apply (G_pf_unchecked_eq w t c i fuel Hlr Hco Hf17). now apply Hv.
  Qed.

  (* the checked method: equal to the regenerated rank for EVERY symbol and EVERY i (out of range / no code:
     both None) *)
  Theorem G_pf_eq_rank : (bsize = 256 \/ bsize = 512) -> forall w seq tab t fuel, width_ok w ->
    Forall (fun x => x < 2 ^ w) seq -> len seq < RSQ_MAXN -> table_ok seq tab ->
    hq_build bsize seq tab = Val t -> (17 <= fuel)%nat ->
    forall c i,
    G_pf fuel w (h_n t) (hq_enc_content t) (hq_enc_len t) (hq_data t) (hq_sbs t) (hq_occs t) c i
    = G_rank g_occs_su g_rank_u fuel w (h_n t) (hq_enc_content t) (hq_enc_len t) (hq_data t) (hq_sbs t) (hq_occs t) c i.
  Proof.
    intros Hb w seq tab t fuel Hw HF Hn Htok Hbuild Hf17 c i.
    destruct (hq_pf_facts w bsize seq tab t Hw Hb HF Hn Htok Hbuild) as (_ & Hlr & Hco & Hqn & Hv).
    apply (G_pf_eq w t c i fuel Hlr Hco Hf17). rewrite Hqn. intros Hi. now apply Hv.
  Qed.
End GenericPf.

(* [apply (G_.. ..)] also checks that the generated definition IS the generic text instantiated with the
   B = 256 / B = 512 functions (conversion). *)
Ltac pf256 L :=
  apply (L 256 g_rsq256_occs_smaller_unchecked g_rsq256_rank_block_unchecked g_rsq256_rank_unchecked
           g_rsq256_occs_smaller_unchecked_ok g_rsq256_rank_block_unchecked_ok).
Ltac pf512 L :=
  apply (L 512 g_rsq512_occs_smaller_unchecked g_rsq512_rank_block_unchecked g_rsq512_rank_unchecked
           g_rsq512_occs_smaller_unchecked_ok g_rsq512_rank_block_unchecked_ok).

Theorem g_hqwt256_rank_prefetch_unchecked_sim : forall wT t symbol i fuel,
  Forall lvl_rank_ok (h_qvs t) -> codes_ok t -> (17 <= fuel)%nat ->
  (forall code, idx (h_codes t) (sym_index symbol) = Val code ->
     exists v, hq_rank_prefetch_unchecked 256 t symbol i = Val v) ->
  g_hqwt256_rank_prefetch_unchecked fuel wT (hq_enc_content t) (hq_enc_len t) (hq_data t) (hq_sbs t) (hq_occs t) symbol i
  = g_hqwt256_rank_unchecked fuel wT (hq_enc_content t) (hq_enc_len t) (hq_data t) (hq_sbs t) (hq_occs t) symbol i.
Proof. pf256 G_pf_unchecked_eq. Qed.
Theorem g_hqwt512_rank_prefetch_unchecked_sim : forall wT t symbol i fuel,
  Forall lvl_rank_ok (h_qvs t) -> codes_ok t -> (17 <= fuel)%nat ->
  (forall code, idx (h_codes t) (sym_index symbol) = Val code ->
     exists v, hq_rank_prefetch_unchecked 512 t symbol i = Val v) ->
  g_hqwt512_rank_prefetch_unchecked fuel wT (hq_enc_content t) (hq_enc_len t) (hq_data t) (hq_sbs t) (hq_occs t) symbol i
  = g_hqwt512_rank_unchecked fuel wT (hq_enc_content t) (hq_enc_len t) (hq_data t) (hq_sbs t) (hq_occs t) symbol i.
Proof. pf512 G_pf_unchecked_eq. Qed.

Theorem g_hqwt256_rank_prefetch_sim : forall wT t symbol i fuel,
  Forall lvl_rank_ok (h_qvs t) -> codes_ok t -> (17 <= fuel)%nat ->
  (i <= h_n t -> forall code, idx (h_codes t) (sym_index symbol) = Val code ->
     exists v, hq_rank_prefetch_unchecked 256 t symbol i = Val v) ->
  g_hqwt256_rank_prefetch fuel wT (h_n t) (hq_enc_content t) (hq_enc_len t) (hq_data t) (hq_sbs t) (hq_occs t) symbol i
  = g_hqwt256_rank fuel wT (h_n t) (hq_enc_content t) (hq_enc_len t) (hq_data t) (hq_sbs t) (hq_occs t) symbol i.
Proof. pf256 G_pf_eq. Qed.
Theorem g_hqwt512_rank_prefetch_sim : forall wT t symbol i fuel,
  Forall lvl_rank_ok (h_qvs t) -> codes_ok t -> (17 <= fuel)%nat ->
  (i <= h_n t -> forall code, idx (h_codes t) (sym_index symbol) = Val code ->
     exists v, hq_rank_prefetch_unchecked 512 t symbol i = Val v) ->
  g_hqwt512_rank_prefetch fuel wT (h_n t) (hq_enc_content t) (hq_enc_len t) (hq_data t) (hq_sbs t) (hq_occs t) symbol i
  = g_hqwt512_rank fuel wT (h_n t) (hq_enc_content t) (hq_enc_len t) (hq_data t) (hq_sbs t) (hq_occs t) symbol i.
Proof. pf512 G_pf_eq. Qed.

Theorem g_hqwt256_rank_prefetch_unchecked_built : forall w seq tab t fuel, width_ok w ->
  Forall (fun x => x < 2 ^ w) seq -> len seq < RSQ_MAXN -> table_ok seq tab ->
  hq_build 256 seq tab = Val t -> (17 <= fuel)%nat ->
  forall c i, i <= len seq ->
  g_hqwt256_rank_prefetch_unchecked fuel w (hq_enc_content t) (hq_enc_len t) (hq_data t) (hq_sbs t) (hq_occs t) c i
  = g_hqwt256_rank_unchecked fuel w (hq_enc_content t) (hq_enc_len t) (hq_data t) (hq_sbs t) (hq_occs t) c i.
Proof. pf256 G_pf_unchecked_built. now left. Qed.
Theorem g_hqwt512_rank_prefetch_unchecked_built : forall w seq tab t fuel, width_ok w ->
  Forall (fun x => x < 2 ^ w) seq -> len seq < RSQ_MAXN -> table_ok seq tab ->
  hq_build 512 seq tab = Val t -> (17 <= fuel)%nat ->
  forall c i, i <= len seq ->
  g_hqwt512_rank_prefetch_unchecked fuel w (hq_enc_content t) (hq_enc_len t) (hq_data t) (hq_sbs t) (hq_occs t) c i
  = g_hqwt512_rank_unchecked fuel w (hq_enc_content t) (hq_enc_len t) (hq_data t) (hq_sbs t) (hq_occs t) c i.
Proof. pf512 G_pf_unchecked_built. now right. Qed.

Corollary g_hqwt256_rank_prefetch_unchecked_spec : forall w seq tab t fuel, width_ok w ->
  Forall (fun x => x < 2 ^ w) seq -> len seq < RSQ_MAXN -> table_ok seq tab ->
  hq_build 256 seq tab = Val t -> (17 <= fuel)%nat ->
  forall c i, 0 < countN c seq -> i <= len seq ->
  g_hqwt256_rank_prefetch_unchecked fuel w (hq_enc_content t) (hq_enc_len t) (hq_data t) (hq_sbs t) (hq_occs t) c i
  = Val (rank_spec seq c i).
Proof.
  intros w seq tab t fuel Hw HF Hn Htok Hbuild Hf17 c i Hc Hi.
  rewrite (g_hqwt256_rank_prefetch_unchecked_built w seq tab t fuel Hw HF Hn Htok Hbuild Hf17 c i Hi).
  destruct (hq_pf_facts w 256 seq tab t Hw (or_introl eq_refl) HF Hn Htok Hbuild)
    as ((_ & _ & _ & _ & _ & _ & S7 & _) & Hlr & Hco & _ & _).
  apply (g_hqwt256_rank_unchecked_ok w t c i _ fuel Hlr Hco (N.le_lt_trans _ _ _ Hi (RSQ_MAXN_lt64 _ Hn)) Hf17).
  now apply S7.
Qed.
Corollary g_hqwt512_rank_prefetch_unchecked_spec : forall w seq tab t fuel, width_ok w ->
  Forall (fun x => x < 2 ^ w) seq -> len seq < RSQ_MAXN -> table_ok seq tab ->
  hq_build 512 seq tab = Val t -> (17 <= fuel)%nat ->
  forall c i, 0 < countN c seq -> i <= len seq ->
  g_hqwt512_rank_prefetch_unchecked fuel w (hq_enc_content t) (hq_enc_len t) (hq_data t) (hq_sbs t) (hq_occs t) c i
  = Val (rank_spec seq c i).
Proof.
  intros w seq tab t fuel Hw HF Hn Htok Hbuild Hf17 c i Hc Hi.
  rewrite (g_hqwt512_rank_prefetch_unchecked_built w seq tab t fuel Hw HF Hn Htok Hbuild Hf17 c i Hi).
  destruct (hq_pf_facts w 512 seq tab t Hw (or_intror eq_refl) HF Hn Htok Hbuild)
    as ((_ & _ & _ & _ & _ & _ & S7 & _) & Hlr & Hco & _ & _).
  apply (g_hqwt512_rank_unchecked_ok w t c i _ fuel Hlr Hco (N.le_lt_trans _ _ _ Hi (RSQ_MAXN_lt64 _ Hn)) Hf17).
  now apply S7.
Qed.

Theorem g_hqwt256_rank_prefetch_eq_rank : forall w seq tab t fuel, width_ok w ->
  Forall (fun x => x < 2 ^ w) seq -> len seq < RSQ_MAXN -> table_ok seq tab ->
  hq_build 256 seq tab = Val t -> (17 <= fuel)%nat ->
  forall c i,
  g_hqwt256_rank_prefetch fuel w (h_n t) (hq_enc_content t) (hq_enc_len t) (hq_data t) (hq_sbs t) (hq_occs t) c i
  = g_hqwt256_rank fuel w (h_n t) (hq_enc_content t) (hq_enc_len t) (hq_data t) (hq_sbs t) (hq_occs t) c i.
Proof. pf256 G_pf_eq_rank. now left. Qed.
Theorem g_hqwt512_rank_prefetch_eq_rank : forall w seq tab t fuel, width_ok w ->
  Forall (fun x => x < 2 ^ w) seq -> len seq < RSQ_MAXN -> table_ok seq tab ->
  hq_build 512 seq tab = Val t -> (17 <= fuel)%nat ->
  forall c i,
  g_hqwt512_rank_prefetch fuel w (h_n t) (hq_enc_content t) (hq_enc_len t) (hq_data t) (hq_sbs t) (hq_occs t) c i
  = g_hqwt512_rank fuel w (h_n t) (hq_enc_content t) (hq_enc_len t) (hq_data t) (hq_sbs t) (hq_occs t) c i.
Proof. pf512 G_pf_eq_rank. now right. Qed.

Theorem g_hqwt256_rank_prefetch_built : forall w seq tab t fuel, width_ok w ->
  Forall (fun x => x < 2 ^ w) seq -> len seq < RSQ_MAXN -> table_ok seq tab ->
  hq_build 256 seq tab = Val t ->
  (17 <= fuel)%nat -> (S (S (N.to_nat (len seq / (8 * 256)))) <= fuel)%nat ->
  forall c i, c < 2 ^ w -> i < 2 ^ 64 ->
  g_hqwt256_rank_prefetch fuel w (h_n t) (hq_enc_content t) (hq_enc_len t) (hq_data t) (hq_sbs t) (hq_occs t) c i
  = Val (if (i <=? len seq) && (0 <? countN c seq) then Some (rank_spec seq c i) else None).
Proof.
  intros w seq tab t fuel Hw HF Hn Htok Hbuild Hf17 Hf c i.
  rewrite (g_hqwt256_rank_prefetch_eq_rank w seq tab t fuel Hw HF Hn Htok Hbuild Hf17 c i).
  apply (contract_rank _ _ _ _ _ _ _ _ _ _ _ (g_hqwt256_end_to_end w seq tab t fuel Hw HF Hn Htok Hbuild Hf17 Hf)).
Qed.
Theorem g_hqwt512_rank_prefetch_built : forall w seq tab t fuel, width_ok w ->
  Forall (fun x => x < 2 ^ w) seq -> len seq < RSQ_MAXN -> table_ok seq tab ->
  hq_build 512 seq tab = Val t ->
  (17 <= fuel)%nat -> (S (S (N.to_nat (len seq / (8 * 512)))) <= fuel)%nat ->
  forall c i, c < 2 ^ w -> i < 2 ^ 64 ->
  g_hqwt512_rank_prefetch fuel w (h_n t) (hq_enc_content t) (hq_enc_len t) (hq_data t) (hq_sbs t) (hq_occs t) c i
  = Val (if (i <=? len seq) && (0 <? countN c seq) then Some (rank_spec seq c i) else None).
Proof.
  intros w seq tab t fuel Hw HF Hn Htok Hbuild Hf17 Hf c i.
  rewrite (g_hqwt512_rank_prefetch_eq_rank w seq tab t fuel Hw HF Hn Htok Hbuild Hf17 c i).
  apply (contract_rank _ _ _ _ _ _ _ _ _ _ _ (g_hqwt512_end_to_end w seq tab t fuel Hw HF Hn Htok Hbuild Hf17 Hf)).
Qed.

(* HuffQWaveletTree::new: the tree hq_new builds with the table craft4 returns (hypotheses of
   g_hqwtNNN_new_end_to_end) *)
Corollary g_hqwt256_new_rank_prefetch : forall w seq f tab t fuel, width_ok w ->
  Forall (fun x => x < 2 ^ w) seq -> len seq < RSQ_MAXN -> seq <> [] -> maxN seq < 2 ^ 64 - 1 ->
  lengths_for seq f -> craft4 f (sym_index (maxN seq)) = Val tab -> hq_new 256 seq f = Val t ->
  (17 <= fuel)%nat -> (S (S (N.to_nat (len seq / (8 * 256)))) <= fuel)%nat ->
  let ec := hq_enc_content t in let el := hq_enc_len t in
  let d := hq_data t in let sb := hq_sbs t in let oc := hq_occs t in
  (forall c i, i <= len seq ->
     g_hqwt256_rank_prefetch_unchecked fuel w ec el d sb oc c i = g_hqwt256_rank_unchecked fuel w ec el d sb oc c i) /\
  (forall c i, 0 < countN c seq -> i <= len seq ->
     g_hqwt256_rank_prefetch_unchecked fuel w ec el d sb oc c i = Val (rank_spec seq c i)) /\
  (forall c i, g_hqwt256_rank_prefetch fuel w (h_n t) ec el d sb oc c i = g_hqwt256_rank fuel w (h_n t) ec el d sb oc c i) /\
  (forall c i, c < 2 ^ w -> i < 2 ^ 64 ->
     g_hqwt256_rank_prefetch fuel w (h_n t) ec el d sb oc c i
     = Val (if (i <=? len seq) && (0 <? countN c seq) then Some (rank_spec seq c i) else None)).
Proof.
  intros w seq f tab t fuel Hw HF Hn Hne Hmax Hlf Hc Hnew Hf17 Hf. cbv zeta.
  pose proof (craft_table_ok_seq seq f tab Hne Hmax Hlf Hc) as Htok.
  pose proof (hq_new_build 256 seq f tab t Hne Hc Hnew) as Hbuild.
  split; [|split; [|split]].
  - exact (g_hqwt256_rank_prefetch_unchecked_built w seq tab t fuel Hw HF Hn Htok Hbuild Hf17).
  - exact (g_hqwt256_rank_prefetch_unchecked_spec w seq tab t fuel Hw HF Hn Htok Hbuild Hf17).
  - exact (g_hqwt256_rank_prefetch_eq_rank w seq tab t fuel Hw HF Hn Htok Hbuild Hf17).
  - exact (g_hqwt256_rank_prefetch_built w seq tab t fuel Hw HF Hn Htok Hbuild Hf17 Hf).
Qed.
Corollary g_hqwt512_new_rank_prefetch : forall w seq f tab t fuel, width_ok w ->
  Forall (fun x => x < 2 ^ w) seq -> len seq < RSQ_MAXN -> seq <> [] -> maxN seq < 2 ^ 64 - 1 ->
  lengths_for seq f -> craft4 f (sym_index (maxN seq)) = Val tab -> hq_new 512 seq f = Val t ->
  (17 <= fuel)%nat -> (S (S (N.to_nat (len seq / (8 * 512)))) <= fuel)%nat ->
  let ec := hq_enc_content t in let el := hq_enc_len t in
  let d := hq_data t in let sb := hq_sbs t in let oc := hq_occs t in
  (forall c i, i <= len seq ->
     g_hqwt512_rank_prefetch_unchecked fuel w ec el d sb oc c i = g_hqwt512_rank_unchecked fuel w ec el d sb oc c i) /\
  (forall c i, 0 < countN c seq -> i <= len seq ->
     g_hqwt512_rank_prefetch_unchecked fuel w ec el d sb oc c i = Val (rank_spec seq c i)) /\
  (forall c i, g_hqwt512_rank_prefetch fuel w (h_n t) ec el d sb oc c i = g_hqwt512_rank fuel w (h_n t) ec el d sb oc c i) /\
  (forall c i, c < 2 ^ w -> i < 2 ^ 64 ->
     g_hqwt512_rank_prefetch fuel w (h_n t) ec el d sb oc c i
     = Val (if (i <=? len seq) && (0 <? countN c seq) then Some (rank_spec seq c i) else None)).
Proof.
  intros w seq f tab t fuel Hw HF Hn Hne Hmax Hlf Hc Hnew Hf17 Hf. cbv zeta.
  pose proof (craft_table_ok_seq seq f tab Hne Hmax Hlf Hc) as Htok.
  pose proof (hq_new_build 512 seq f tab t Hne Hc Hnew) as Hbuild.
  split; [|split; [|split]].
  - exact (g_hqwt512_rank_prefetch_unchecked_built w seq tab t fuel Hw HF Hn Htok Hbuild Hf17).
  - exact (g_hqwt512_rank_prefetch_unchecked_spec w seq tab t fuel Hw HF Hn Htok Hbuild Hf17).
  - exact (g_hqwt512_rank_prefetch_eq_rank w seq tab t fuel Hw HF Hn Htok Hbuild Hf17).
  - exact (g_hqwt512_rank_prefetch_built w seq tab t fuel Hw HF Hn Htok Hbuild Hf17 Hf).
Qed.

(* (a) the example tree of Proofs/HQWTP.v (30 symbols; 0, 2 have codes of 4 bits: one estimation step; 5, 9 codes
   of 2 bits: none; 1, 7 are in the table without a code; 300 is outside the table), minimal fuel 17;
   (c, i) with i = len, i = len + 1, symbols without a code *)
Definition hq_pf_example_queries : list (N * N) :=
  [(0, 0); (0, 30); (0, 31); (5, 17); (5, 30); (5, 31); (9, 30); (2, 17); (1, 17); (1, 30); (1, 31); (300, 17); (7, 0);
   (9, 1000)].
Definition hq_pf_example_spec : N * N -> outcome (option N) := fun '(c, i) =>
  Val (if (i <=? 30) && (0 <? countN c hq_ex_seq) then Some (rank_spec hq_ex_seq c i) else None).

Example g_hqwt256_rank_prefetch_example :
  match hq_build 256 hq_ex_seq hq_ex_tab with
  | Val t =>
      let ec := hq_enc_content t in let el := hq_enc_len t in
      let d := hq_data t in let sb := hq_sbs t in let oc := hq_occs t in
      h_n t = 30 /\ h_n_levels t = 2 /\ el = [4; 0; 4; 0; 0; 2; 0; 0; 0; 2] /\
      map (fun '(c, i) => g_hqwt256_rank_prefetch 17 8 (h_n t) ec el d sb oc c i) hq_pf_example_queries
      = map (fun '(c, i) => g_hqwt256_rank 17 8 (h_n t) ec el d sb oc c i) hq_pf_example_queries /\
      map (fun '(c, i) => g_hqwt256_rank_prefetch 17 8 (h_n t) ec el d sb oc c i) hq_pf_example_queries
      = map hq_pf_example_spec hq_pf_example_queries /\
      map (fun '(c, i) => g_hqwt256_rank_prefetch 17 8 (h_n t) ec el d sb oc c i) hq_pf_example_queries
      = [Val (Some 0); Val (Some 5); Val None; Val (Some 5); Val (Some 10); Val None; Val (Some 10); Val (Some 3);
         Val None; Val None; Val None; Val None; Val None; Val None] /\
      map (fun '(c, i) => g_hqwt256_rank_prefetch_unchecked 17 8 ec el d sb oc c i) hq_pf_example_queries
      = map (fun '(c, i) => g_hqwt256_rank_unchecked 17 8 ec el d sb oc c i) hq_pf_example_queries /\
      g_hqwt256_rank_prefetch_unchecked 17 8 ec el d sb oc 2 30 = Val 5 /\
      g_hqwt256_rank_prefetch_unchecked 17 8 ec el d sb oc 1 30 = Val 30 /\
      g_hqwt256_rank_prefetch_unchecked 17 8 ec el d sb oc 300 17 = Fault Panic
  | Fault _ => False
  end.
Proof. vm_compute. repeat split; reflexivity. Qed.

Example g_hqwt512_rank_prefetch_example :
  match hq_build 512 hq_ex_seq hq_ex_tab with
  | Val t =>
      let ec := hq_enc_content t in let el := hq_enc_len t in
      let d := hq_data t in let sb := hq_sbs t in let oc := hq_occs t in
      h_n t = 30 /\ h_n_levels t = 2 /\ el = [4; 0; 4; 0; 0; 2; 0; 0; 0; 2] /\
      map (fun '(c, i) => g_hqwt512_rank_prefetch 17 8 (h_n t) ec el d sb oc c i) hq_pf_example_queries
      = map (fun '(c, i) => g_hqwt512_rank 17 8 (h_n t) ec el d sb oc c i) hq_pf_example_queries /\
      map (fun '(c, i) => g_hqwt512_rank_prefetch 17 8 (h_n t) ec el d sb oc c i) hq_pf_example_queries
      = map hq_pf_example_spec hq_pf_example_queries /\
      map (fun '(c, i) => g_hqwt512_rank_prefetch 17 8 (h_n t) ec el d sb oc c i) hq_pf_example_queries
      = [Val (Some 0); Val (Some 5); Val None; Val (Some 5); Val (Some 10); Val None; Val (Some 10); Val (Some 3);
         Val None; Val None; Val None; Val None; Val None; Val None] /\
      map (fun '(c, i) => g_hqwt512_rank_prefetch_unchecked 17 8 ec el d sb oc c i) hq_pf_example_queries
      = map (fun '(c, i) => g_hqwt512_rank_unchecked 17 8 ec el d sb oc c i) hq_pf_example_queries /\
      g_hqwt512_rank_prefetch_unchecked 17 8 ec el d sb oc 2 30 = Val 5 /\
      g_hqwt512_rank_prefetch_unchecked 17 8 ec el d sb oc 1 30 = Val 30 /\
      g_hqwt512_rank_prefetch_unchecked 17 8 ec el d sb oc 300 17 = Fault Panic
  | Fault _ => False
  end.
Proof. vm_compute. repeat split; reflexivity. Qed.

(* (b) a tree with three levels built by hq_new (codes of 2, 4 and 6 bits: symbols 0, 7, 8, 9 take two estimation
   steps, the second one with level = 1, i.e. one iteration of the inner loop of prefetch arguments) *)
Definition hq_pf_ex2_seq : list N :=
  [1; 2; 3; 4; 5; 6; 7; 8; 9; 0; 1; 1; 2; 7; 7; 3; 0; 9; 8; 4; 1; 2; 3; 1; 2; 3; 5; 6; 0; 7; 1; 1; 2; 2; 3; 3; 9; 4; 8; 0].
Definition hq_pf_ex2_lens : list (N * N) :=
  [(1, 2); (2, 2); (3, 2); (4, 4); (5, 4); (6, 4); (7, 6); (8, 6); (9, 6); (0, 6)].
Definition hq_pf_ex2_queries : list (N * N) :=
  [(0, 0); (0, 40); (0, 41); (7, 17); (7, 40); (8, 39); (9, 40); (4, 40); (1, 40); (1, 41); (10, 17); (300, 17); (12, 40)].
Definition hq_pf_ex2_spec : N * N -> outcome (option N) := fun '(c, i) =>
  Val (if (i <=? 40) && (0 <? countN c hq_pf_ex2_seq) then Some (rank_spec hq_pf_ex2_seq c i) else None).

Example g_hqwt256_rank_prefetch_example2 :
  match hq_new 256 hq_pf_ex2_seq hq_pf_ex2_lens with
  | Val t =>
      let ec := hq_enc_content t in let el := hq_enc_len t in
      let d := hq_data t in let sb := hq_sbs t in let oc := hq_occs t in
      h_n t = 40 /\ h_n_levels t = 3 /\ el = [6; 2; 2; 2; 4; 4; 4; 6; 6; 6] /\
      map (fun '(c, i) => g_hqwt256_rank_prefetch 17 8 (h_n t) ec el d sb oc c i) hq_pf_ex2_queries
      = map (fun '(c, i) => g_hqwt256_rank 17 8 (h_n t) ec el d sb oc c i) hq_pf_ex2_queries /\
      map (fun '(c, i) => g_hqwt256_rank_prefetch 17 8 (h_n t) ec el d sb oc c i) hq_pf_ex2_queries
      = map hq_pf_ex2_spec hq_pf_ex2_queries /\
      map (fun '(c, i) => g_hqwt256_rank_prefetch 17 8 (h_n t) ec el d sb oc c i) hq_pf_ex2_queries
      = [Val (Some 0); Val (Some 4); Val None; Val (Some 3); Val (Some 4); Val (Some 3); Val (Some 3); Val (Some 3);
         Val (Some 7); Val None; Val None; Val None; Val None] /\
      map (fun '(c, i) => g_hqwt256_rank_prefetch_unchecked 17 8 ec el d sb oc c i) hq_pf_ex2_queries
      = map (fun '(c, i) => g_hqwt256_rank_unchecked 17 8 ec el d sb oc c i) hq_pf_ex2_queries /\
      g_hqwt256_rank_prefetch_unchecked 17 8 ec el d sb oc 7 40 = Val 4
  | Fault _ => False
  end.
Proof. vm_compute. repeat split; reflexivity. Qed.

Example g_hqwt512_rank_prefetch_example2 :
  match hq_new 512 hq_pf_ex2_seq hq_pf_ex2_lens with
  | Val t =>
      let ec := hq_enc_content t in let el := hq_enc_len t in
      let d := hq_data t in let sb := hq_sbs t in let oc := hq_occs t in
      h_n t = 40 /\ h_n_levels t = 3 /\ el = [6; 2; 2; 2; 4; 4; 4; 6; 6; 6] /\
      map (fun '(c, i) => g_hqwt512_rank_prefetch 17 8 (h_n t) ec el d sb oc c i) hq_pf_ex2_queries
      = map (fun '(c, i) => g_hqwt512_rank 17 8 (h_n t) ec el d sb oc c i) hq_pf_ex2_queries /\
      map (fun '(c, i) => g_hqwt512_rank_prefetch 17 8 (h_n t) ec el d sb oc c i) hq_pf_ex2_queries
      = map hq_pf_ex2_spec hq_pf_ex2_queries /\
      map (fun '(c, i) => g_hqwt512_rank_prefetch 17 8 (h_n t) ec el d sb oc c i) hq_pf_ex2_queries
      = [Val (Some 0); Val (Some 4); Val None; Val (Some 3); Val (Some 4); Val (Some 3); Val (Some 3); Val (Some 3);
         Val (Some 7); Val None; Val None; Val None; Val None] /\
      map (fun '(c, i) => g_hqwt512_rank_prefetch_unchecked 17 8 ec el d sb oc c i) hq_pf_ex2_queries
      = map (fun '(c, i) => g_hqwt512_rank_unchecked 17 8 ec el d sb oc c i) hq_pf_ex2_queries /\
      g_hqwt512_rank_prefetch_unchecked 17 8 ec el d sb oc 7 40 = Val 4
  | Fault _ => False
  end.
Proof. vm_compute. repeat split; reflexivity. Qed.

(* the general theorem instantiated on example (a) *)
Example g_hqwt256_rank_prefetch_example_thm : exists t, hq_build 256 hq_ex_seq hq_ex_tab = Val t /\
  forall c i, c < 2 ^ 8 -> i < 2 ^ 64 ->
  g_hqwt256_rank_prefetch 17 8 (h_n t) (hq_enc_content t) (hq_enc_len t) (hq_data t) (hq_sbs t) (hq_occs t) c i
  = Val (if (i <=? len hq_ex_seq) && (0 <? countN c hq_ex_seq) then Some (rank_spec hq_ex_seq c i) else None).
Proof.
  destruct (hq_example_thm 256 (or_introl eq_refl)) as (t & Et & _). exists t. split; [exact Et|].
  apply (g_hqwt256_rank_prefetch_built 8 hq_ex_seq hq_ex_tab t 17); try exact Et.
  - left. reflexivity.
  - apply Forall_forall. intros x Hx.
    assert (H : forallb (fun y => y <? 2 ^ 8) hq_ex_seq = true) by (vm_compute; reflexivity).
    rewrite forallb_forall in H. specialize (H x Hx). lia.
  - reflexivity.
  - exact hq_ex_table_ok.
  - lia.
  - vm_compute. lia.
Qed.

Print Assumptions g_hqwt256_rank_prefetch_unchecked_sim.
Print Assumptions g_hqwt512_rank_prefetch_unchecked_sim.
Print Assumptions g_hqwt256_rank_prefetch_sim.
Print Assumptions g_hqwt512_rank_prefetch_sim.
Print Assumptions hq_pf_facts.
Print Assumptions g_hqwt256_rank_prefetch_unchecked_built.
Print Assumptions g_hqwt512_rank_prefetch_unchecked_built.
Print Assumptions g_hqwt256_rank_prefetch_unchecked_spec.
Print Assumptions g_hqwt512_rank_prefetch_unchecked_spec.
Print Assumptions g_hqwt256_rank_prefetch_eq_rank.
Print Assumptions g_hqwt512_rank_prefetch_eq_rank.
Print Assumptions g_hqwt256_rank_prefetch_built.
Print Assumptions g_hqwt512_rank_prefetch_built.
Print Assumptions g_hqwt256_new_rank_prefetch.
Print Assumptions g_hqwt512_new_rank_prefetch.
Print Assumptions g_hqwt256_rank_prefetch_example.
Print Assumptions g_hqwt512_rank_prefetch_example.
Print Assumptions g_hqwt256_rank_prefetch_example2.
Print Assumptions g_hqwt512_rank_prefetch_example2.
Print Assumptions g_hqwt256_rank_prefetch_example_thm.
