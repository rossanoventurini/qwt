(* tree.iter() regenerated (Gen/FnsQwtnew.v, FnsWtnew.v, FnsHqwt.v): the iterator starts at (0, len) over the container's own
   fields.  With Proofs/FnsTitersOk.v: the whole public path  constructor -> iter() -> next / next_back / len ...  through
   regenerated functions only behaves as the deque over the input sequence. *)
From Coq Require Import ZArith Lia.
From QwtModel Require Import ListX Loops Seq Consts Words QVec RSQ QWT Huff Iter RSQBuild QWTP.
From QwtModel Require Import FnsQwt FnsQwtnew FnsWt FnsWtnew FnsHqwt FnsWrapQwtOk FnsWrapWtOk FnsTitersOk.
Open Scope N_scope.

Theorem g_qwt256_iter_path : forall k w s, width_ok w -> Forall (fun x => x < 2 ^ w) s -> len s < RSQ_MAXN ->
  exists n nl sg d p sb sm oc,
    qwt256_ctor k w s = Val (n, nl, sg, d, p, sb, sm, oc) /\
    g_qwt256_iter w n nl sg d p sb sm oc = Val (0, len s, n, nl, sg, d, p, sb, sm, oc) /\
    forall h, g_qwtit256_run w (n, nl, sg, d, p, sb, sm, oc) 0 (len s) h = Val (deque_run s h).
Proof.
  intros k w s Hw HF Hn.
  destruct (g_qwt256_iter_public k w s Hw HF Hn) as (n & nl & sg & d & p & sb & sm & oc & E & L & R).
  exists n, nl, sg, d, p, sb, sm, oc. split; [exact E|]. split; [|exact R].
  unfold g_qwt256_iter. rewrite L. reflexivity.
Qed.
Theorem g_qwt512_iter_path : forall k w s, width_ok w -> Forall (fun x => x < 2 ^ w) s -> len s < RSQ_MAXN ->
  exists n nl sg d p sb sm oc,
    qwt512_ctor k w s = Val (n, nl, sg, d, p, sb, sm, oc) /\
    g_qwt512_iter w n nl sg d p sb sm oc = Val (0, len s, n, nl, sg, d, p, sb, sm, oc) /\
    forall h, g_qwtit512_run w (n, nl, sg, d, p, sb, sm, oc) 0 (len s) h = Val (deque_run s h).
Proof.
  intros k w s Hw HF Hn.
  destruct (g_qwt512_iter_public k w s Hw HF Hn) as (n & nl & sg & d & p & sb & sm & oc & E & L & R).
  exists n, nl, sg, d, p, sb, sm, oc. split; [exact E|]. split; [|exact R].
  unfold g_qwt512_iter. rewrite L. reflexivity.
Qed.

Theorem g_wt_iter_path : forall k w s, (w = 8 \/ w = 16 \/ w = 32 \/ w = 64 \/ w = 128) ->
  Forall (fun x => x < 2 ^ w) s -> len s < RSQ_MAXN ->
  exists n nl sg data nbits nones meta samples nzeros lens,
    wt_ctor k w s = Val (n, nl, sg, None, None, None, data, nbits, nones, meta, samples, nzeros, lens) /\
    g_wt_iter w n nl sg None None None data nbits nones meta samples nzeros lens
      = Val (0, len s, n, nl, sg, None, None, None, data, nbits, nones, meta, samples, nzeros, lens) /\
    forall h, g_wtit_run w (n, nl, sg, None, None, None, data, nbits, nones, meta, samples, nzeros, lens) 0 (len s) h
              = Val (deque_run s h).
Proof.
  intros k w s Hw HF Hn.
  destruct (g_wt_iter_public k w s Hw HF Hn)
    as (n & nl & sg & data & nbits & nones & meta & samples & nzeros & lens & E & L & R).
  exists n, nl, sg, data, nbits, nones, meta, samples, nzeros, lens. split; [exact E|]. split; [|exact R].
  unfold g_wt_iter. rewrite L. reflexivity.
Qed.
Print Assumptions g_qwt256_iter_path.
Print Assumptions g_qwt512_iter_path.
Print Assumptions g_wt_iter_path.
