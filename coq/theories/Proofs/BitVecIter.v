(* The bit-position iterator (BitVectorBitPositionsIter<BIT>) at the word level. *)
From Coq Require Import ZArith Lia ZifyBool ZifyN ZifyNat.
From QwtModel Require Import ListX Consts Words BitVec ListXP NBits OutcomeP BitsLib BitVecW.

Lemma filter_seqN_none (g : N -> bool) : forall n s,
  (forall q, s <= q -> q < s + N.of_nat n -> g q = false) -> filter g (seqN s n) = [].
Proof.
  induction n as [|n IH]; intros s H; cbn [seqN filter]; [reflexivity|].
  rewrite H by lia. apply IH. intros q H1 H2. apply H; lia.
Qed.
Lemma filter_seqN_first (g g' : N -> bool) p : forall n s,
  s <= p -> p < s + N.of_nat n -> g p = true -> (forall q, s <= q -> q < p -> g q = false) ->
  (forall q, p < q -> g' q = g q) -> (forall q, q <= p -> g' q = false) ->
  filter g (seqN s n) = p :: filter g' (seqN s n).
Proof.
  induction n as [|n IH]; intros s H1 H2 Hp Hlo Hhi Hlo'; [lia|].
  cbn [seqN filter]. destruct (N.eq_dec s p) as [->|Hne].
  - rewrite Hp, Hlo' by lia. f_equal. apply filter_ext_in. intros a Ha. apply in_seqN in Ha.
    symmetry. apply Hhi. lia.
  - rewrite Hlo, Hlo' by lia. apply IH; try assumption; try lia. intros q Hq1 Hq2. apply Hlo; lia.
Qed.

(* the word the iterator loads at index i, 0 past the end; bit j of the concatenation of those words *)
Definition cword (bit : bool) (ws : list N) (i : N) : N :=
  match nthN ws i with Some w => word_for bit w | None => 0 end.
Definition ebit (bit : bool) (ws : list N) (j : N) : bool := N.testbit (cword bit ws (j / 64)) (j mod 64).

Lemma word_for_bits bit w k : word_ok w ->
  N.testbit (word_for bit w) k = (k <? 64) && Bool.eqb (N.testbit w k) bit.
Proof.
  intros Hw. unfold word_for. destruct bit.
  - destruct (N.ltb_spec k 64) as [Hk|Hk]; cbn [andb].
    + now destruct (N.testbit w k).
    + now apply (lt_pow2_bits w 64).
  - change (M64 - 1) with (N.ones 64). rewrite N.lxor_spec. destruct (N.ltb_spec k 64) as [Hk|Hk]; cbn [andb].
    + rewrite N.ones_spec_low by assumption. now destruct (N.testbit w k).
    + rewrite N.ones_spec_high by assumption. now rewrite (lt_pow2_bits w 64).
Qed.
Lemma word_for_ok bit w : word_ok w -> word_ok (word_for bit w).
Proof.
  intros Hw. apply bits_lt_pow2. intros j Hj. rewrite word_for_bits by assumption.
  destruct (N.ltb_spec j 64); [lia|reflexivity].
Qed.
Lemma cword_ok bit ws i : words_ok ws -> word_ok (cword bit ws i).
Proof.
  intros Hok. unfold cword. destruct (nthN ws i) as [w|] eqn:E; [|apply word_ok_0].
  apply word_for_ok. apply (Forall_nthN _ _ _ _ Hok E).
Qed.
Lemma ebit_wbit bit ws j : words_ok ws ->
  ebit bit ws j = (j <? 64 * len ws) && Bool.eqb (wbit ws j) bit.
Proof.
  intros Hok. unfold ebit, cword, wbit. destruct (nthN ws (j / 64)) as [w|] eqn:E.
  - pose proof (nthN_some_lt _ _ _ E). rewrite word_for_bits by apply (Forall_nthN _ _ _ _ Hok E).
    destruct (N.ltb_spec (j mod 64) 64); [|lia]. destruct (N.ltb_spec j (64 * len ws)); [reflexivity|lia].
  - apply nthN_None_ge in E. rewrite N.bits_0. destruct (N.ltb_spec j (64 * len ws)); [lia|reflexivity].
Qed.
Lemma ebit_out bit ws j : 64 * len ws <= j -> ebit bit ws j = false.
Proof. intros H. unfold ebit, cword. rewrite nthN_none by lia. apply N.bits_0. Qed.

Lemma shiftr_ok w s : word_ok w -> word_ok (N.shiftr w s).
Proof. unfold word_ok. pose proof (shiftr_le w s). lia. Qed.

(* cur_word holds the not yet reported bits of word (cur_word_pos - 1), shifted so that bit 0
   is position cur_position *)
Definition pi_ok (bit : bool) (ws : list N) (st : positer) : Prop :=
  word_ok (pi_cur_word st) /\
  pi_cur_position st <= 64 * pi_cur_word_pos st /\
  forall k, N.testbit (pi_cur_word st) k =
            (pi_cur_position st + k <? 64 * pi_cur_word_pos st) && ebit bit ws (pi_cur_position st + k).

Lemma pi_ok_new bit ws : pi_ok bit ws pi_new.
Proof.
  unfold pi_ok, pi_new. cbn [pi_cur_word pi_cur_position pi_cur_word_pos].
  split; [apply word_ok_0|]. split; [lia|]. intros k. rewrite N.bits_0.
  destruct (N.ltb_spec (0 + k) (64 * 0)); [lia|reflexivity].
Qed.

Lemma pi_ok_with_pos bit b pos : words_ok (bv_words b) -> pi_ok bit (bv_words b) (pi_with_pos bit b pos).
Proof.
  intros Hok. unfold pi_ok, pi_with_pos. cbn [pi_cur_word pi_cur_position pi_cur_word_pos].
  rewrite shiftr6. fold (cword bit (bv_words b) (pos / 64)).
  pose proof (cword_ok bit (bv_words b) (pos / 64) Hok) as Hc.
  split; [now apply shiftr_ok|]. split; [lia|]. intros k. rewrite N.shiftr_spec'.
  destruct (N.ltb_spec (pos + k) (64 * (pos / 64 + 1))) as [H|H]; cbn [andb].
  - unfold ebit. replace ((pos + k) / 64) with (pos / 64) by lia. f_equal. lia.
  - apply (lt_pow2_bits _ 64 Hc). lia.
Qed.

Lemma pi_ok_bit bit ws st q : pi_ok bit ws st ->
  pi_cur_position st <= q -> q < 64 * pi_cur_word_pos st ->
  ebit bit ws q = N.testbit (pi_cur_word st) (q - pi_cur_position st).
Proof.
  intros (_ & _ & Hbits) Hq Hlt. rewrite Hbits.
  replace (pi_cur_position st + (q - pi_cur_position st)) with q by lia.
  destruct (N.ltb_spec q (64 * pi_cur_word_pos st)); [reflexivity|lia].
Qed.
Lemma pi_ok_zero bit ws st q : pi_ok bit ws st -> pi_cur_word st = 0 ->
  pi_cur_position st <= q -> q < 64 * pi_cur_word_pos st -> ebit bit ws q = false.
Proof. intros Hst Hz Hq Hlt. rewrite (pi_ok_bit _ _ _ _ Hst Hq Hlt), Hz. apply N.bits_0. Qed.

Lemma pi_refill_spec bit ws : words_ok ws -> forall fuel st, pi_ok bit ws st ->
  len ws < pi_cur_word_pos st + N.of_nat fuel ->
  match pi_refill bit ws st fuel with
  | Some st1 => pi_ok bit ws st1 /\ pi_cur_word st1 <> 0 /\ pi_cur_position st <= pi_cur_position st1 /\
                (forall q, pi_cur_position st <= q -> q < pi_cur_position st1 -> ebit bit ws q = false)
  | None => forall q, pi_cur_position st <= q -> ebit bit ws q = false
  end.
Proof.
  intros Hok. induction fuel as [|fuel IH]; intros st Hst Hfuel.
  - cbn [pi_refill]. destruct (N.eqb_spec (pi_cur_word st) 0) as [Hz|Hnz].
    + intros q Hq. destruct (N.ltb_spec q (64 * pi_cur_word_pos st)); [now apply (pi_ok_zero bit ws st)|].
      apply ebit_out. lia.
    + split; [assumption|]. split; [assumption|]. split; [lia|]. intros q H1 H2. lia.
  - cbn [pi_refill]. destruct (N.eqb_spec (pi_cur_word st) 0) as [Hz|Hnz].
    + pose proof (fun q => pi_ok_zero bit ws st q Hst Hz) as Hlow.
      destruct (nthN ws (pi_cur_word_pos st)) as [w|] eqn:Ew.
      * set (st' := mk_pi (N.shiftl (pi_cur_word_pos st) 6) (pi_cur_word_pos st + 1) (word_for bit w)).
        assert (Hw : word_ok w) by apply (Forall_nthN _ _ _ _ Hok Ew).
        assert (Ecp : pi_cur_position st' = 64 * pi_cur_word_pos st).
        { unfold st'. cbn [pi_cur_position]. rewrite N.shiftl_mul_pow2. change (2 ^ 6) with 64. lia. }
        assert (Hst' : pi_ok bit ws st').
        { unfold pi_ok. rewrite Ecp. unfold st'. cbn [pi_cur_word pi_cur_word_pos].
          split; [now apply word_for_ok|]. split; [lia|]. intros k.
          destruct (N.ltb_spec (64 * pi_cur_word_pos st + k) (64 * (pi_cur_word_pos st + 1))) as [H|H]; cbn [andb].
          - unfold ebit, cword. replace ((64 * pi_cur_word_pos st + k) / 64) with (pi_cur_word_pos st) by lia.
            rewrite Ew. f_equal. lia.
          - apply (lt_pow2_bits _ 64 (word_for_ok bit w Hw)). lia. }
        specialize (IH st' Hst'). destruct Hst as (_ & Hle & _).
        assert (Ecw : pi_cur_word_pos st' = pi_cur_word_pos st + 1) by reflexivity.
        rewrite Ecp, Ecw in IH.
        destruct (pi_refill bit ws st' fuel) as [st1|].
        -- destruct IH as (H1 & H2 & H3 & H4); [lia|]. split; [assumption|]. split; [assumption|].
           split; [lia|]. intros q Hq1 Hq2.
           destruct (N.ltb_spec q (64 * pi_cur_word_pos st)); [now apply Hlow|now apply H4].
        -- intros q Hq. destruct (N.ltb_spec q (64 * pi_cur_word_pos st)); [now apply Hlow|].
           apply IH; lia.
      * intros q Hq. destruct (N.ltb_spec q (64 * pi_cur_word_pos st)); [now apply Hlow|].
        apply nthN_None_ge in Ew. apply ebit_out. lia.
    + split; [assumption|]. split; [assumption|]. split; [lia|]. intros q H1 H2. lia.
Qed.

Lemma pi_next_spec bit b st : words_ok (bv_words b) -> pi_ok bit (bv_words b) st ->
  match pi_next bit b st with
  | (Some p, st') => pi_cur_position st <= p /\ p < bv_nbits b /\ ebit bit (bv_words b) p = true /\
                     (forall q, pi_cur_position st <= q -> q < p -> ebit bit (bv_words b) q = false) /\
                     pi_ok bit (bv_words b) st' /\ pi_cur_position st' = p + 1
  | (None, _) => forall q, pi_cur_position st <= q -> q < bv_nbits b -> ebit bit (bv_words b) q = false
  end.
Proof.
  intros Hok Hst. unfold pi_next. destruct (N.leb_spec (bv_nbits b) (pi_cur_position st)) as [Hend|Hin].
  { intros q H1 H2. lia. }
  pose proof (pi_refill_spec bit (bv_words b) Hok (S (length (bv_words b))) st Hst) as Hre.
  destruct (pi_refill bit (bv_words b) st (S (length (bv_words b)))) as [st1|].
  2:{ intros q H1 H2. apply Hre; [unfold len; lia|assumption]. }
  destruct Hre as (Hst1 & Hnz & Hle & Hskip); [unfold len; lia|].
  pose proof Hst1 as (Hw1 & Hle1 & Hbits1).
  destruct (ctz_spec _ Hnz) as [Hc1 Hc2]. pose proof (ctz_lt _ 64 Hnz Hw1) as Hc3.
  set (l := ctz (pi_cur_word st1)) in *. cbv zeta.
  pose proof (Hbits1 l) as Hl. rewrite Hc1 in Hl. symmetry in Hl. apply andb_true_iff in Hl.
  destruct Hl as [Hl1 Hl2]. apply N.ltb_lt in Hl1.
  assert (Hbelow : forall q, pi_cur_position st <= q -> q < pi_cur_position st1 + l -> ebit bit (bv_words b) q = false).
  { intros q Hq1 Hq2. destruct (N.ltb_spec q (pi_cur_position st1)) as [Hlt|Hge]; [now apply Hskip|].
    rewrite (pi_ok_bit bit _ st1) by (assumption || lia). apply Hc2. lia. }
  destruct (N.leb_spec (bv_nbits b) (pi_cur_position st1 + l)) as [Hpast|Hpos].
  { intros q H1 H2. apply Hbelow; lia. }
  split; [lia|]. split; [assumption|]. split; [assumption|]. split; [assumption|].
  split; [|reflexivity].
  unfold pi_ok. cbn [pi_cur_word pi_cur_position pi_cur_word_pos].
  assert (Hcw : forall k, N.testbit (if 63 <=? l then 0 else N.shiftr (pi_cur_word st1) (l + 1)) k =
                          N.testbit (pi_cur_word st1) (k + (l + 1))).
  { intros k. destruct (N.leb_spec 63 l).
    - rewrite N.bits_0. symmetry. apply (lt_pow2_bits _ 64 Hw1). lia.
    - apply N.shiftr_spec'. }
  split; [|split].
  - destruct (N.leb_spec 63 l); [apply word_ok_0|now apply shiftr_ok].
  - lia.
  - intros k. rewrite Hcw, Hbits1.
    replace (pi_cur_position st1 + (k + (l + 1))) with (pi_cur_position st1 + l + 1 + k) by lia. reflexivity.
Qed.

Lemma pi_next_none_stable bit b st st' :
  pi_next bit b st = (None, st') -> pi_next bit b st' = (None, st').
Proof.
  unfold pi_next. destruct (N.leb_spec (bv_nbits b) (pi_cur_position st)) as [Hend|Hin].
  { intros E. injection E as <-. destruct (N.leb_spec (bv_nbits b) (pi_cur_position st)); [reflexivity|lia]. }
  destruct (pi_refill bit (bv_words b) st (S (length (bv_words b)))) as [st1|].
  - cbv zeta. destruct (N.leb_spec (bv_nbits b) (pi_cur_position st1 + ctz (pi_cur_word st1))) as [Hp|Hp];
      [|discriminate]. intros E. injection E as <-. cbn [pi_cur_position].
    destruct (N.leb_spec (bv_nbits b) (pi_cur_position st1 + ctz (pi_cur_word st1) + 1)); [reflexivity|lia].
  - intros E. injection E as <-. cbn [pi_cur_position pi_cur_word pi_cur_word_pos].
    destruct (N.leb_spec (bv_nbits b) (pi_cur_position st)); [lia|].
    cbn [pi_refill pi_cur_word pi_cur_word_pos]. rewrite N.eqb_refl.
    rewrite nthN_none by lia. f_equal. f_equal. lia.
Qed.
