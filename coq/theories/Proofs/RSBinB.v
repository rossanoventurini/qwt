(* Bit level lemmas; the flat 0/1 view [FL] of the words of a bit vector with its counting functions
   [R1] / [Rc]; what both construction loops maintain about them [cinv]; [bv_wf] and the checks around
   the unchecked queries. popcount / select_in_word are used through the two hypotheses of the Section. *)
From Coq Require Import ZArith Lia ZifyBool ZifyN ZifyNat.
From QwtModel Require Import ListX Seq RSBin ListXP NBits OutcomeP BitsLib SeqP RSBinL.

Definition popcount_ok : Prop :=
  forall n x, x < 2 ^ N.of_nat n -> popcount x = countN 1 (bits_of n x).
Definition siw_ok : Prop := forall w k, w < 2 ^ 64 -> k < 128 ->
  select_in_word w k = Val (match select_spec (bits_of 64 w) 1 k with Some p => p | None => 64 end).

Definition cbit (one : bool) : N := if one then 1 else 0.
Definition wsel (one : bool) (w : N) : N := if one then w else notw w.

Lemma bin_bits_of n x : bin (bits_of n x).
Proof.
  unfold bits_of, bin. apply Forall_map, Forall_forall. intros i _. destruct (N.testbit x i); cbn [N.b2n]; lia.
Qed.

Lemma popcount_mul_pow2 x k : popcount (x * 2 ^ k) = popcount x.
Proof.
  induction k as [|k IH] using N.peano_ind.
  - rewrite N.pow_0_r, N.mul_1_r. reflexivity.
  - rewrite N.pow_succ_r'. replace (x * (2 * 2 ^ k)) with (2 * (x * 2 ^ k)) by lia.
    now rewrite popcount_double.
Qed.

Lemma M64m1 : M64 - 1 = N.ones 64. Proof. reflexivity. Qed.
Lemma M64_val : M64 = 2 ^ 64. Proof. reflexivity. Qed.

Lemma testbit_notw w i : N.testbit (notw w) i = xorb (N.testbit w i) (i <? 64).
Proof.
  unfold notw. rewrite M64m1, N.lxor_spec. f_equal.
  destruct (N.ltb_spec i 64); [now apply N.ones_spec_low | now apply N.ones_spec_high].
Qed.

Lemma notw_lt w : w < 2 ^ 64 -> notw w < 2 ^ 64.
Proof.
  intros H. apply bits_lt_pow2. intros i Hi. rewrite testbit_notw, (lt_pow2_bits w 64 H i Hi).
  destruct (N.ltb_spec i 64); [lia|reflexivity].
Qed.

Lemma bits_of_notw w : bits_of 64 (notw w) = map flip01 (bits_of 64 w).
Proof.
  unfold bits_of. rewrite map_map. apply map_ext_in. intros i Hi. apply in_seqN in Hi.
  rewrite testbit_notw. destruct (N.ltb_spec i 64); [|lia].
  destruct (N.testbit w i); reflexivity.
Qed.

Lemma countN_mod_seq w r : forall n a,
  countN 1 (map (fun i => N.b2n (N.testbit (w mod 2 ^ r) i)) (seqN a n)) =
  rank_spec (map (fun i => N.b2n (N.testbit w i)) (seqN a n)) 1 (r - a).
Proof.
  induction n as [|n IH]; intros a; cbn [seqN map countN]; [reflexivity|].
  destruct (N.lt_ge_cases a r) as [Ha|Ha].
  - replace (r - a) with (r - (a + 1) + 1) by lia. rewrite rank_spec_cons, IH.
    rewrite N.mod_pow2_bits_low by lia. reflexivity.
  - replace (r - a) with 0 by lia. rewrite rank_spec_0, IH. replace (r - (a + 1)) with 0 by lia.
    rewrite rank_spec_0. rewrite N.mod_pow2_bits_high by lia. reflexivity.
Qed.

Section Bits.
Hypothesis PC : popcount_ok.
Hypothesis SIW : siw_ok.

Lemma popcount_bits w : w < 2 ^ 64 -> popcount w = countN 1 (bits_of 64 w).
Proof. intros H. apply (PC 64%nat). exact H. Qed.

Lemma rank_bits_low w r : r <= 64 -> rank_spec (bits_of 64 w) 1 r = popcount (w mod 2 ^ r).
Proof.
  intros Hr.
  assert (Hm : w mod 2 ^ r < 2 ^ 64).
  { assert (w mod 2 ^ r < 2 ^ r) by (apply N.mod_lt, N.pow_nonzero; lia).
    assert (2 ^ r <= 2 ^ 64) by (apply N.pow_le_mono_r; lia). lia. }
  rewrite (popcount_bits _ Hm). unfold bits_of. rewrite countN_mod_seq, N.sub_0_r. reflexivity.
Qed.

(* the masked word of RSNarrow's rank: keeps the low l bits *)
Lemma popcount_shl_low w l : 1 <= l -> l <= 64 ->
  popcount (N.shiftl w (64 - l) mod M64) = popcount (w mod 2 ^ l).
Proof.
  intros H1 H2. rewrite N.shiftl_mul_pow2, M64_val.
  replace (2 ^ 64) with (2 ^ l * 2 ^ (64 - l)) by (rewrite <- N.pow_add_r; f_equal; lia).
  rewrite N.mul_mod_distr_r by (apply N.pow_nonzero; lia).
  apply popcount_mul_pow2.
Qed.

Lemma popcount_wsel one w : w < 2 ^ 64 -> popcount (wsel one w) = countN (cbit one) (bits_of 64 w).
Proof.
  intros H. destruct one; cbn [wsel cbit].
  - apply popcount_bits. exact H.
  - rewrite (popcount_bits _ (notw_lt w H)), bits_of_notw. apply countN_flip, bin_bits_of.
Qed.

Lemma siw_c one w d q : w < 2 ^ 64 -> select_spec (bits_of 64 w) (cbit one) d = Some q ->
  select_in_word (wsel one w) d = Val q.
Proof.
  intros Hw Hs. pose proof (select_spec_some_lt _ _ _ _ Hs) as [Hd _].
  pose proof (countN_le_len (cbit one) (bits_of 64 w)) as Hc. rewrite len_bits_of in Hc.
  change (N.of_nat 64) with 64 in Hc.
  assert (Hd' : d < 128) by lia. clear Hd Hc.
  destruct one.
  - change (select_in_word w d = Val q). change (select_spec (bits_of 64 w) 1 d = Some q) in Hs.
    rewrite (SIW w d Hw Hd'). rewrite Hs. reflexivity.
  - change (select_in_word (notw w) d = Val q). change (select_spec (bits_of 64 w) 0 d = Some q) in Hs.
    rewrite (SIW _ d (notw_lt w Hw) Hd'). rewrite bits_of_notw.
    rewrite select_spec_flip by apply bin_bits_of. rewrite Hs. reflexivity.
Qed.

Definition FL (ws : list N) : list N := concat (map (bits_of 64) ws).
Definition words_ok (ws : list N) : Prop := Forall (fun w => w < 2 ^ 64) ws.
Definition R1 (ws : list N) (j : N) : N := rank_spec (FL ws) 1 j.
Definition Rc (ws : list N) (one : bool) (j : N) : N := if one then R1 ws j else j - R1 ws j.

Lemma FL_uniform ws : Forall (fun l => len l = 64) (map (bits_of 64) ws).
Proof. apply Forall_map, Forall_forall. intros w _. apply len_bits_of. Qed.

Lemma len_FL ws : len (FL ws) = 64 * len ws.
Proof. unfold FL. rewrite (len_concat_uniform 64), len_map by apply FL_uniform. reflexivity. Qed.

Lemma FL_cons w l : FL (w :: l) = bits_of 64 w ++ FL l.
Proof. reflexivity. Qed.

Lemma bin_FL ws : bin (FL ws).
Proof. apply bin_concat, Forall_map, Forall_forall. intros w _. apply bin_bits_of. Qed.

Lemma skipnN_map {A B} (f : A -> B) l n : skipnN n (map f l) = map f (skipnN n l).
Proof. rewrite !skipnN_skipn. apply skipn_map. Qed.
Lemma window_map {A B} (f : A -> B) l a n : window a n (map f l) = map f (window a n l).
Proof. unfold window. now rewrite skipnN_map, firstnN_map. Qed.

Lemma FL_window ws a n : window (64 * a) (64 * n) (FL ws) = FL (window a n ws).
Proof. unfold FL. rewrite (window_concat_uniform 64) by apply FL_uniform. now rewrite window_map. Qed.

Lemma FL_window_word ws g w : nthN ws g = Some w -> window (64 * g) 64 (FL ws) = bits_of 64 w.
Proof.
  intros H. change 64 with (64 * 1) at 2. rewrite FL_window, (window_one ws g w H).
  unfold FL. cbn [map concat]. apply app_nil_r.
Qed.

Lemma line_of_window ws b : line_of ws b = window (8 * b) 8 ws.
Proof. unfold line_of, window. rewrite firstnN_firstn. rewrite (N.mul_comm b 8). reflexivity. Qed.

Lemma FL_window_line ws b : window (512 * b) 512 (FL ws) = FL (line_of ws b).
Proof.
  rewrite line_of_window. replace (512 * b) with (64 * (8 * b)) by lia. change 512 with (64 * 8).
  apply FL_window.
Qed.

Lemma words_ok_window ws a n : words_ok ws -> words_ok (window a n ws).
Proof. intros H. unfold window. apply Forall_firstnN, Forall_skipnN. exact H. Qed.

Lemma R1_0 ws : R1 ws 0 = 0. Proof. apply rank_spec_0. Qed.
Lemma R1_mono ws i j : i <= j -> R1 ws i <= R1 ws j. Proof. apply rank_spec_mono. Qed.
Lemma R1_lip ws i j : i <= j -> R1 ws j <= R1 ws i + (j - i). Proof. apply rank_spec_lip. Qed.
Lemma R1_le ws i : R1 ws i <= i. Proof. apply rank_spec_le. Qed.
Lemma R1_sat ws j : 64 * len ws <= j -> R1 ws j = R1 ws (64 * len ws).
Proof. intros H. unfold R1. rewrite !rank_spec_all by (rewrite len_FL; lia). reflexivity. Qed.
Lemma R1_le_len ws j : R1 ws j <= 64 * len ws.
Proof.
  destruct (N.le_gt_cases j (64 * len ws)).
  - pose proof (R1_le ws j). lia.
  - rewrite R1_sat by lia. apply R1_le.
Qed.

Lemma Rc_mono ws one i j : i <= j -> Rc ws one i <= Rc ws one j.
Proof.
  intros H. destruct one; cbn [Rc]; [now apply R1_mono|].
  pose proof (R1_lip ws i j H). pose proof (R1_le ws i). lia.
Qed.
Lemma Rc_0 ws one : Rc ws one 0 = 0.
Proof. destruct one; cbn [Rc]; rewrite R1_0; reflexivity. Qed.
Lemma Rc_lip ws one i j : i <= j -> Rc ws one j <= Rc ws one i + (j - i).
Proof.
  intros H. destruct one; cbn [Rc]; [now apply R1_lip|].
  pose proof (R1_mono ws i j H). pose proof (R1_le ws i). lia.
Qed.

(* What both construction loops know after reading p bits: the ones, the zeros, and the two sample lists
   (blocks of BS bits, a sample every HS occurrences). *)
Definition cinv (ws : list N) (BS HS lastb p ones zeros : N) (s1 : list N) (h1 : N) (s0 : list N) (h0 : N) : Prop :=
  ones = R1 ws p /\ zeros = p - R1 ws p /\
  sinv (Rc ws true) BS HS lastb s1 h1 (Rc ws true p) /\ sinv (Rc ws false) BS HS lastb s0 h0 (Rc ws false p).

Lemma cinv_init ws BS HS lastb : 0 < HS -> cinv ws BS HS lastb 0 0 0 [0] 0 [0] 0.
Proof.
  intros H. unfold cinv. rewrite !Rc_0, R1_0. split; [reflexivity|]. split; [reflexivity|].
  split; (apply sinv_init; [exact H|apply Rc_0]).
Qed.

(* d more bits of block b, pop of them ones *)
Lemma cinv_step ws BS HS lastb p ones zeros s1 h1 s0 h0 d pop b :
  0 < HS -> d < HS -> b <= lastb -> BS * b <= p -> p + d <= BS * (b + 1) -> R1 ws (p + d) = R1 ws p + pop ->
  cinv ws BS HS lastb p ones zeros s1 h1 s0 h0 ->
  cinv ws BS HS lastb (p + d) (ones + pop) (zeros + (d - pop))
       (fst (hint_upd HS s1 h1 (ones + pop) b)) (snd (hint_upd HS s1 h1 (ones + pop) b))
       (fst (hint_upd HS s0 h0 (zeros + (d - pop)) b)) (snd (hint_upd HS s0 h0 (zeros + (d - pop)) b)).
Proof.
  intros HH Hd Hb Hlo Hhi HR (-> & -> & I1 & I0).
  pose proof (R1_le ws p). pose proof (R1_lip ws p (p + d)).
  replace (R1 ws p + pop) with (Rc ws true (p + d)) by (cbn [Rc]; lia).
  replace (p - R1 ws p + (d - pop)) with (Rc ws false (p + d)) by (cbn [Rc]; lia).
  split; [reflexivity|]. split; [reflexivity|].
  split; (apply (sinv_step _ BS HS lastb _ _ p); [apply Rc_mono|apply Rc_lip|assumption|assumption|lia..]).
Qed.

Lemma Rc_rank ws one j : j <= 64 * len ws -> Rc ws one j = rank_spec (FL ws) (cbit one) j.
Proof.
  intros H. destruct one; cbn [Rc cbit]; [reflexivity|].
  pose proof (rank01 (FL ws) j (bin_FL ws)) as E. rewrite len_FL in E. unfold R1. lia.
Qed.

Lemma Rc_select ws one k p : select_spec (FL ws) (cbit one) k = Some p ->
  p < 64 * len ws /\ Rc ws one p = k /\ Rc ws one (p + 1) = k + 1.
Proof.
  intros H. pose proof (select_spec_some_lt _ _ _ _ H) as [_ Hp]. rewrite len_FL in Hp.
  apply select_spec_some_iff in H. destruct H as [Hn Hr].
  rewrite !Rc_rank by lia. rewrite (rank_spec_succ _ _ _ _ Hn), N.eqb_refl. lia.
Qed.

Lemma select_window s c k p a n : select_spec s c k = Some p -> a <= p -> p < a + n ->
  select_spec (window a n s) c (k - rank_spec s c a) = Some (p - a).
Proof.
  intros H Ha Hp. apply select_spec_some_iff in H. destruct H as [Hn Hr].
  apply select_spec_some_iff. split.
  - rewrite nthN_window by lia. replace (a + (p - a)) with p by lia. exact Hn.
  - rewrite rank_spec_window by lia. replace (a + (p - a)) with p by lia. lia.
Qed.

Lemma R1_word ws g w r : nthN ws g = Some w -> r <= 64 ->
  R1 ws (64 * g + r) = R1 ws (64 * g) + popcount (w mod 2 ^ r).
Proof.
  intros Hg Hr. rewrite <- rank_bits_low by assumption. rewrite <- (FL_window_word ws g w Hg).
  rewrite rank_spec_window by assumption. fold (R1 ws (64 * g + r)). fold (R1 ws (64 * g)).
  pose proof (R1_mono ws (64 * g) (64 * g + r)). lia.
Qed.

Lemma R1_word_full ws g w : words_ok ws -> nthN ws g = Some w ->
  R1 ws (64 * (g + 1)) = R1 ws (64 * g) + popcount w.
Proof.
  intros Hok Hg. replace (64 * (g + 1)) with (64 * g + 64) by lia.
  rewrite (R1_word ws g w 64 Hg) by lia. rewrite N.mod_small; [reflexivity|].
  apply (Forall_nthN _ _ _ _ Hok Hg).
Qed.

Lemma nthN_FL_word ws g w r : nthN ws g = Some w -> r < 64 ->
  nthN (FL ws) (64 * g + r) = Some (N.b2n (N.testbit w r)).
Proof.
  intros Hg Hr. rewrite <- nthN_window with (n := 64) by assumption.
  rewrite (FL_window_word ws g w Hg). apply nthN_bits_of_lt. lia.
Qed.

Lemma sum_popcount l : words_ok l -> sumN (map popcount l) = countN 1 (FL l).
Proof.
  induction 1 as [|w l Hw Hl IH]; [reflexivity|].
  rewrite FL_cons. cbn [map sumN]. rewrite countN_app. rewrite IH, popcount_bits by assumption.
  reflexivity.
Qed.

Lemma R1_line ws b : words_ok ws ->
  R1 ws (512 * (b + 1)) = R1 ws (512 * b) + line_n_ones (line_of ws b).
Proof.
  intros Hok. unfold line_n_ones. rewrite sum_popcount by (rewrite line_of_window; now apply words_ok_window).
  rewrite <- FL_window_line.
  rewrite <- (rank_spec_all _ 1 512) by (unfold window; rewrite firstnN_len; lia).
  rewrite rank_spec_window by lia. fold (R1 ws (512 * b + 512)). fold (R1 ws (512 * b)).
  replace (512 * (b + 1)) with (512 * b + 512) by lia.
  pose proof (R1_mono ws (512 * b) (512 * b + 512)). lia.
Qed.

Lemma line_n_ones_le ws b : words_ok ws -> line_n_ones (line_of ws b) <= 512.
Proof.
  intros Hok. pose proof (R1_line ws b Hok). pose proof (R1_lip ws (512 * b) (512 * (b + 1))). lia.
Qed.

(* the aligned window of B positions around a selected position: a word (B = 64) or a line (B = 512) *)
Lemma select_local ws one k p B : 0 < B -> select_spec (FL ws) (cbit one) k = Some p ->
  select_spec (window (B * (p / B)) B (FL ws)) (cbit one) (k - Rc ws one (B * (p / B))) = Some (p mod B).
Proof.
  intros HB Hs. pose proof (Rc_select _ _ _ _ Hs) as (Hp & _).
  assert (HB' : B <> 0) by lia.
  pose proof (N.mul_div_le p B HB') as H1. pose proof (N.mul_succ_div_gt p B HB') as H2.
  rewrite N.mul_succ_r in H2. rewrite (N.mod_eq p B HB'). set (a := B * (p / B)) in *. clearbody a.
  rewrite Rc_rank by lia. apply select_window; [assumption|lia|lia].
Qed.

Lemma select_word_local ws one k p w : select_spec (FL ws) (cbit one) k = Some p ->
  nthN ws (p / 64) = Some w ->
  select_spec (bits_of 64 w) (cbit one) (k - Rc ws one (64 * (p / 64))) = Some (p mod 64).
Proof. intros Hs Hw. rewrite <- (FL_window_word ws (p / 64) w Hw). apply select_local; [lia|exact Hs]. Qed.

Lemma select_line_local ws one k p : select_spec (FL ws) (cbit one) k = Some p ->
  select_spec (FL (line_of ws (p / 512))) (cbit one) (k - Rc ws one (512 * (p / 512))) = Some (p mod 512).
Proof. intros Hs. rewrite <- FL_window_line. apply select_local; [lia|exact Hs]. Qed.

Lemma bline_rank1_loop_spec l : words_ok l -> forall left,
  bline_rank1_loop l left false = rank_spec (FL l) 1 left.
Proof.
  induction 1 as [|w l Hw Hl IH]; intros left; [reflexivity|].
  cbn [bline_rank1_loop]. rewrite FL_cons.
  rewrite rank_spec_app, len_bits_of. change (N.of_nat 64) with 64.
  destruct (N.ltb_spec 63 left) as [H63|H63].
  - rewrite M64m1, N.land_ones, N.mod_small by assumption.
    destruct (N.ltb_spec left 64) as [H64|H64]; [lia|].
    destruct (N.leb_spec left 64) as [Hle|Hle].
    + assert (left = 64) by lia. subst left. rewrite N.sub_diag.
      rewrite (rank_spec_all (bits_of 64 w)) by (rewrite len_bits_of; lia).
      rewrite IH, rank_spec_0, popcount_bits by assumption. lia.
    + rewrite IH, popcount_bits by assumption. reflexivity.
  - destruct (N.ltb_spec left 64) as [H64|H64]; [|lia].
    destruct (N.leb_spec left 64) as [Hle|Hle]; [|lia].
    replace (N.shiftl 1 left - 1) with (N.ones left) by (unfold N.ones; rewrite N.pred_sub; reflexivity).
    rewrite N.land_ones, rank_bits_low by lia. lia.
Qed.

Lemma bline_select_loop_spec one l : words_ok l -> forall d rank off q,
  rank <= d -> select_spec (FL l) (cbit one) (d - rank) = Some q ->
  bline_select_loop (negb one) l d rank off = Val (off + q).
Proof.
  induction 1 as [|w l Hw Hl IH]; intros d rank off q Hr Hs; [discriminate|].
  cbn [bline_select_loop].
  replace (if negb one then notw w else w) with (wsel one w) by (destruct one; reflexivity).
  rewrite popcount_wsel by assumption.
  unfold osub. destruct (N.leb_spec rank d); [|lia]. cbn [bind].
  rewrite FL_cons, select_spec_app in Hs.
  destruct (N.ltb_spec (d - rank) (countN (cbit one) (bits_of 64 w))) as [Hlt|Hge].
  - rewrite (siw_c one w (d - rank) q Hw Hs). reflexivity.
  - rewrite len_bits_of in Hs. change (N.of_nat 64) with 64 in Hs.
    destruct (select_spec (FL l) (cbit one) (d - rank - countN (cbit one) (bits_of 64 w))) as [q'|] eqn:E;
      [|discriminate].
    cbn [option_map] in Hs. injection Hs as <-.
    rewrite (IH d (rank + countN (cbit one) (bits_of 64 w)) (off + 64) q'); [f_equal; lia|lia|].
    rewrite <- E. f_equal. lia.
Qed.

End Bits.

Definition bv_wf (b : bitvec) : Prop :=
  len (bv_words b) = 8 * ((bv_nbits b + 511) / 512) /\ Forall (fun w => w < 2 ^ 64) (bv_words b) /\
  (forall j, bv_nbits b <= j -> j < 64 * len (bv_words b) -> nthN (concat (map (bits_of 64) (bv_words b))) j = Some 0) /\
  bv_nbits b < 2 ^ 43.

Definition nlines (b : bitvec) : N := (bv_nbits b + 511) / 512.

Lemma wf_len b : bv_wf b -> len (bv_words b) = 8 * nlines b.
Proof. intros (H & _). exact H. Qed.
Lemma wf_ok b : bv_wf b -> words_ok (bv_words b).
Proof. intros (_ & H & _). exact H. Qed.
Lemma wf_nbits b : bv_wf b -> bv_nbits b <= 512 * nlines b /\ 512 * nlines b < bv_nbits b + 512 /\ bv_nbits b < 2 ^ 43.
Proof. intros (_ & _ & _ & H). unfold nlines. change (2 ^ 43) with 8796093022208 in *. lia. Qed.

Lemma R1_pad b j : bv_wf b -> bv_nbits b <= j -> R1 (bv_words b) j = R1 (bv_words b) (bv_nbits b).
Proof.
  intros Hwf Hj. replace j with (bv_nbits b + (j - bv_nbits b)) by lia.
  generalize (j - bv_nbits b) as d. clear j Hj.
  induction d as [|d IH] using N.peano_ind; [now rewrite N.add_0_r|].
  replace (bv_nbits b + N.succ d) with (bv_nbits b + d + 1) by lia. rewrite <- IH.
  unfold R1. destruct (nthN (FL (bv_words b)) (bv_nbits b + d)) as [x|] eqn:E.
  - rewrite (rank_spec_succ _ _ _ _ E). pose proof (nthN_some_lt _ _ _ E) as Hlt. rewrite len_FL in Hlt.
    destruct Hwf as (_ & _ & Hpad & _). unfold FL in E. rewrite Hpad in E by lia. injection E as <-.
    change (0 =? 1) with false. cbv iota. lia.
  - apply rank_spec_succ_none. exact E.
Qed.

Lemma abs_map b : map N_of_bool (bv_abs b) = firstnN (bv_nbits b) (FL (bv_words b)).
Proof. unfold bv_abs. apply map_N_of_bool_bin. apply Forall_firstnN. apply bin_FL. Qed.

Lemma len_abs b : bv_wf b -> len (bv_abs b) = bv_nbits b.
Proof.
  intros Hwf. unfold bv_abs. rewrite len_map, firstnN_len. fold (FL (bv_words b)). rewrite len_FL, (wf_len b Hwf).
  pose proof (wf_nbits b Hwf). lia.
Qed.

Lemma rank1_abs b i : bv_wf b -> i <= bv_nbits b -> rank1_spec (bv_abs b) i = R1 (bv_words b) i.
Proof.
  intros Hwf Hi. unfold rank1_spec. rewrite abs_map, rank_spec_firstnN.
  now replace (N.min i (bv_nbits b)) with i by lia.
Qed.
Lemma rank0_abs b i : bv_wf b -> i <= bv_nbits b -> rank0_spec (bv_abs b) i = i - R1 (bv_words b) i.
Proof.
  intros Hwf Hi. unfold rank0_spec. rewrite abs_map, rank_spec_firstnN.
  replace (N.min i (bv_nbits b)) with i by lia.
  pose proof (rank01 (FL (bv_words b)) i (bin_FL _)) as E. rewrite len_FL, (wf_len b Hwf) in E.
  pose proof (wf_nbits b Hwf). unfold R1. lia.
Qed.
Lemma countb_abs b : bv_wf b -> countb (bv_abs b) = R1 (bv_words b) (bv_nbits b).
Proof.
  intros Hwf. rewrite countb_countN, abs_map. unfold R1. rewrite rank_spec_count. reflexivity.
Qed.

Lemma select_abs b one k p : select_spec (map N_of_bool (bv_abs b)) (cbit one) k = Some p ->
  select_spec (FL (bv_words b)) (cbit one) k = Some p.
Proof.
  rewrite abs_map. intros H. apply select_spec_some_iff in H. destruct H as [Hn Hr].
  rewrite nthN_firstnN in Hn. destruct (N.ltb_spec p (bv_nbits b)) as [Hp|Hp]; [|discriminate].
  rewrite rank_spec_firstnN in Hr. replace (N.min p (bv_nbits b)) with p in Hr by lia.
  apply select_spec_some_iff. split; assumption.
Qed.

Lemma count_abs b one : bv_wf b ->
  countN (cbit one) (map N_of_bool (bv_abs b)) = Rc (bv_words b) one (bv_nbits b).
Proof.
  intros Hwf. rewrite Rc_rank by (rewrite (wf_len b Hwf); pose proof (wf_nbits b Hwf); lia).
  rewrite abs_map, rank_spec_count. reflexivity.
Qed.

Lemma count0_abs b : bv_wf b -> countN 0 (map N_of_bool (bv_abs b)) = len (bv_abs b) - countb (bv_abs b).
Proof. intros Hwf. rewrite (len_abs b Hwf), (countb_abs b Hwf). exact (count_abs b false Hwf). Qed.

(* rank1, rank0, select1 and select0 of RSNarrow and of RSWide wrap the unchecked queries in the same way *)
Lemma rank1_checked b (f : N -> outcome N) i : bv_wf b ->
  (i <= bv_nbits b -> f i = Val (R1 (bv_words b) i)) ->
  (if bv_is_empty b || (bv_len b <? i) then Val None else let! v := f i in Val (Some v)) =
  Val (if negb (len (bv_abs b) =? 0) && (i <=? len (bv_abs b)) then Some (rank1_spec (bv_abs b) i) else None).
Proof.
  intros Hwf Hf. rewrite (len_abs b Hwf). unfold bv_is_empty, bv_len.
  destruct (N.eqb_spec (bv_nbits b) 0) as [E|E]; cbn [negb orb andb]; [reflexivity|].
  destruct (N.ltb_spec (bv_nbits b) i); destruct (N.leb_spec i (bv_nbits b)); try lia; [reflexivity|].
  rewrite Hf by assumption. cbn [bind]. rewrite rank1_abs by assumption. reflexivity.
Qed.

Lemma rank0_checked b (o : outcome (option N)) i : bv_wf b ->
  o = Val (if negb (len (bv_abs b) =? 0) && (i <=? len (bv_abs b)) then Some (rank1_spec (bv_abs b) i) else None) ->
  (let! k := o in match k with Some k => let! z := osub i k in Val (Some z) | None => Val None end) =
  Val (if negb (len (bv_abs b) =? 0) && (i <=? len (bv_abs b)) then Some (rank0_spec (bv_abs b) i) else None).
Proof.
  intros Hwf ->. cbn [bind]. rewrite (len_abs b Hwf).
  destruct (N.eqb_spec (bv_nbits b) 0) as [E|E]; cbn [negb andb]; [reflexivity|].
  destruct (N.leb_spec i (bv_nbits b)); [|reflexivity].
  rewrite rank1_abs, rank0_abs, osub_ok by (assumption || apply R1_le). reflexivity.
Qed.

Lemma select_checked b one (f : N -> outcome N) k :
  (forall p, select_spec (map N_of_bool (bv_abs b)) (cbit one) k = Some p -> f k = Val p) ->
  (if countN (cbit one) (map N_of_bool (bv_abs b)) <=? k then Val None else let! v := f k in Val (Some v)) =
  Val (select_spec (map N_of_bool (bv_abs b)) (cbit one) k).
Proof.
  intros Hf. destruct (N.leb_spec (countN (cbit one) (map N_of_bool (bv_abs b))) k) as [Hle|Hlt].
  - symmetry. f_equal. apply select_spec_none_iff. exact Hle.
  - destruct (select_spec_lt _ _ k Hlt) as (p & Ep). rewrite Ep, (Hf p Ep). reflexivity.
Qed.

(* the zeros side of a query is the ones side subtracted from the position *)
Lemma Rc_of_R1 ws (one : bool) (o : outcome N) p : o = Val (R1 ws p) ->
  (if one then o else let! x := o in osub p x) = Val (Rc ws one p).
Proof. intros ->. destruct one; [reflexivity|]. cbn [bind Rc]. apply osub_ok, R1_le. Qed.

Lemma bv_get_correct b i : bv_wf b -> bv_get b i = Val (nthN (bv_abs b) i).
Proof.
  intros Hwf. unfold bv_get, bv_abs. rewrite nthN_map, nthN_firstnN. fold (FL (bv_words b)).
  destruct (N.leb_spec (bv_nbits b) i) as [Hge|Hlt].
  - destruct (N.ltb_spec i (bv_nbits b)); [lia|reflexivity].
  - destruct (N.ltb_spec i (bv_nbits b)); [|lia].
    unfold bv_get_unchecked, bv_get_bit_slice. rewrite shiftr6, land63.
    pose proof (wf_nbits b Hwf) as Hn. pose proof (wf_len b Hwf) as Hl.
    destruct (nthN_lt_some (bv_words b) (i / 64)) as (w & Ew); [lia|].
    unfold idx. rewrite Ew. cbn [bind].
    assert (Ei : nthN (FL (bv_words b)) i = Some (N.b2n (N.testbit w (i mod 64)))).
    { rewrite <- (nthN_FL_word _ _ _ _ Ew) by lia. f_equal. lia. }
    rewrite Ei. cbn [option_map]. do 2 f_equal.
    assert (El : N.land (N.shiftr w (i mod 64)) 1 = N.b2n (N.testbit w (i mod 64))).
    { change 1 with (N.ones 1). rewrite N.land_ones, N.shiftr_div_pow2, N.testbit_spec', N.pow_1_r. reflexivity. }
    rewrite El. reflexivity.
Qed.
