(* C01 helper: arithmetic of the quad wavelet tree (Model/QWT.v): two_bits, msb / number of
   levels, base-4 digits, and the stable 4-way partition. *)
From Coq Require Import ZArith Lia ZifyBool ZifyN ZifyNat.
From QwtModel Require Import ListX Seq Consts QVec RSQ QWT ListXP SeqP NBits OutcomeP RSQList.
From QwtModel Require Import WaveletMatrix.
Arguments N.log2 : simpl never.
Arguments N.max : simpl never.

(* number of levels the constructor picks: ceil(bitlen(max)/2), at least 1
   (the same as [levels_of] of QWTP.v) *)
Definition qlevels (seq : list N) : N := (msb (maxN seq) + 1 + 1) / 2.

(* digit of x at level l in a tree of L levels *)
Definition qdig (L : nat) (l : nat) (x : N) : N := (x / 4 ^ N.of_nat (L - 1 - l)) mod 4.

Lemma qdig_lt L : forall l x, qdig L l x < N.of_nat 4.
Proof. intros l x. unfold qdig. change (N.of_nat 4) with 4. apply N.mod_lt. lia. Qed.

Lemma qdig_le3 L l x : qdig L l x <= 3.
Proof. pose proof (qdig_lt L l x) as H. change (N.of_nat 4) with 4 in H. lia. Qed.

Lemma mod64_mod4 y : (y mod 2 ^ 64) mod 4 = y mod 4.
Proof. change (2 ^ 64) with 18446744073709551616. lia. Qed.

Lemma two_bits_val w x sh : sh < w -> two_bits w x sh = Val ((x / 2 ^ sh) mod 4).
Proof.
  intros H. unfold two_bits, oshr. replace (sh <? w) with true by lia. cbn [bind].
  rewrite land3, N.shiftr_div_pow2, mod64_mod4. reflexivity.
Qed.

Lemma pow2_double m : 2 ^ (2 * m) = 4 ^ m.
Proof. rewrite N.pow_mul_r. reflexivity. Qed.

Lemma two_bits_qdig w L l x : 2 * N.of_nat (L - 1 - l) < w ->
  two_bits w x (2 * N.of_nat (L - 1 - l)) = Val (qdig L l x).
Proof. intros H. rewrite two_bits_val by exact H. rewrite pow2_double. reflexivity. Qed.

Lemma mapo_val {A B} (f : A -> outcome B) (g : A -> B) l :
  (forall x, In x l -> f x = Val (g x)) -> mapo f l = Val (map g l).
Proof.
  induction l as [|x l IH]; intros H; cbn [mapo map]; [reflexivity|].
  rewrite (H x (or_introl eq_refl)). cbn [bind]. rewrite IH; [reflexivity|].
  intros y Hy. apply H. now right.
Qed.

Lemma mapo_Forall {A B} (f : A -> outcome B) (P : A -> Prop) (Q : B -> Prop) :
  (forall x y, P x -> f x = Val y -> Q y) ->
  forall l l', Forall P l -> mapo f l = Val l' -> Forall Q l' /\ len l' = len l.
Proof.
  intros H. induction l as [|x l IH]; intros l' HF E; cbn [mapo] in E.
  - injection E as <-. split; [constructor|reflexivity].
  - inversion HF as [|? ? Hx HF']; subst. binv E y Ey. binv E l1 El1. injection E as <-.
    destruct (IH l1 HF' El1) as (I1 & I2). split; [constructor; [exact (H x y Hx Ey)|exact I1]|].
    rewrite !len_cons, I2. reflexivity.
Qed.

Lemma mapo_len {A B} (f : A -> outcome B) : forall l l', mapo f l = Val l' -> len l' = len l.
Proof.
  intros l l' E. refine (proj2 (mapo_Forall f (fun _ => True) (fun _ => True) _ l l' _ E)).
  - intros; exact I.
  - apply Forall_forall. intros; exact I.
Qed.

Lemma pick_filter (f : N -> N) d seq :
  map snd (filter (fun p => fst p =? d) (combine (map f seq) seq)) = filter (fun x => f x =? d) seq.
Proof.
  induction seq as [|x seq IH]; cbn [map combine filter fst snd]; [reflexivity|].
  destruct (f x =? d); cbn [map snd]; now rewrite IH.
Qed.

Lemma stable_partition_of_4_val w seq shift : shift < w ->
  stable_partition_of_4 w seq shift =
  Val (concat (map (fun d => filter (fun x => (x / 2 ^ shift) mod 4 =? d) seq) [0;1;2;3])).
Proof.
  intros Hs. unfold stable_partition_of_4.
  rewrite (mapo_val _ (fun x => (x / 2 ^ shift) mod 4)) by (intros x _; now apply two_bits_val).
  cbn [bind]. rewrite !pick_filter. cbn [map concat]. now rewrite app_nil_r.
Qed.

Lemma parts4 L l s :
  parts N (qdig L) l 4 s =
  concat (map (fun d => filter (fun x => qdig L l x =? d) s) [0;1;2;3]).
Proof.
  cbn [parts map concat].
  change (N.of_nat 0) with 0. change (N.of_nat 1) with 1. change (N.of_nat 2) with 2. change (N.of_nat 3) with 3.
  rewrite app_nil_r. cbn [app]. now rewrite <- !app_assoc.
Qed.

Lemma stable_partition_parts w L l s : 2 * N.of_nat (L - 1 - l) < w ->
  stable_partition_of_4 w s (2 * N.of_nat (L - 1 - l)) = Val (parts N (qdig L) l 4 s).
Proof.
  intros H. rewrite stable_partition_of_4_val by exact H. rewrite parts4, pow2_double. reflexivity.
Qed.

Lemma qlevels_pos seq : 1 <= qlevels seq.
Proof. unfold qlevels. lia. Qed.

Lemma lt_pow2_msb v : v < 2 ^ (msb v + 1).
Proof.
  unfold msb. destruct (N.eqb_spec v 0) as [->|Hv]; [reflexivity|].
  rewrite N.add_1_r. apply N.log2_spec. lia.
Qed.

Lemma qlevels_bound seq : maxN seq < 4 ^ qlevels seq.
Proof.
  rewrite <- pow2_double. eapply N.lt_le_trans; [apply lt_pow2_msb|].
  apply N.pow_le_mono_r; [lia|]. unfold qlevels. lia.
Qed.

Lemma msb_lt v w : 0 < w -> v < 2 ^ w -> msb v < w.
Proof.
  intros Hw Hv. unfold msb. destruct (N.eqb_spec v 0) as [->|Hz]; [exact Hw|].
  apply N.log2_lt_pow2; [lia|exact Hv].
Qed.

Lemma qlevels_shift seq w : 0 < w -> maxN seq < 2 ^ w -> 2 * (qlevels seq - 1) < w.
Proof.
  intros Hw Hm. pose proof (msb_lt _ _ Hw Hm) as H. unfold qlevels. lia.
Qed.

Lemma qdig_step L l x : (l < L)%nat ->
  x / 4 ^ N.of_nat (L - S l) = (x / 4 ^ N.of_nat (L - l)) * 2 ^ 2 + qdig L l x.
Proof.
  intros Hl. unfold qdig. replace (L - 1 - l)%nat with (L - S l)%nat by lia.
  replace (L - l)%nat with (S (L - S l)) by lia.
  rewrite Nnat.Nat2N.inj_succ, N.pow_succ_r', (N.mul_comm 4).
  rewrite <- N.div_div by (try lia; apply N.pow_nonzero; lia).
  change (2 ^ 2) with 4. generalize (x / 4 ^ N.of_nat (L - S l)). intros y. lia.
Qed.

Lemma push_eq X C dx dc : dx <= 3 -> dc <= 3 ->
  (X =? C) && (dx =? dc) = (X * 2 ^ 2 + dx =? C * 2 ^ 2 + dc).
Proof.
  intros Hx Hc. change (2 ^ 2) with 4.
  destruct (N.eqb_spec X C), (N.eqb_spec dx dc), (N.eqb_spec (X * 4 + dx) (C * 4 + dc));
    cbn [andb]; try reflexivity; exfalso; lia.
Qed.

Lemma pre_div L c x : forall k, (k <= L)%nat -> x < 4 ^ N.of_nat L -> c < 4 ^ N.of_nat L ->
  pre N (qdig L) k c x = (x / 4 ^ N.of_nat (L - k) =? c / 4 ^ N.of_nat (L - k)).
Proof.
  induction k as [|k IH]; intros Hk Hx Hc; cbn [pre].
  - rewrite Nat.sub_0_r, !N.div_small by assumption. reflexivity.
  - rewrite (IH (Nat.lt_le_incl _ _ Hk) Hx Hc), !(qdig_step L k) by exact Hk.
    apply push_eq; apply qdig_le3.
Qed.

Lemma pre_eq L c x : x < 4 ^ N.of_nat L -> c < 4 ^ N.of_nat L ->
  pre N (qdig L) L c x = (x =? c).
Proof.
  intros Hx Hc. rewrite pre_div by (try assumption; lia).
  rewrite Nat.sub_diag. change (4 ^ N.of_nat 0) with 1. now rewrite !N.div_1_r.
Qed.

(* what the get walk does to its accumulator when it reads digit l of x *)
Lemma qdig_push w L l x : (l < L)%nat -> x < 2 ^ w ->
  N.lor (N.shiftl (x / 4 ^ N.of_nat (L - l)) 2 mod 2 ^ w) (qdig L l x) = x / 4 ^ N.of_nat (L - S l).
Proof.
  intros Hl Hx. pose proof (qdig_le3 L l x) as Hd.
  assert (Hle : x / 4 ^ N.of_nat (L - S l) <= x).
  { rewrite <- (N.div_1_r x) at 2. apply N.div_le_compat_l.
    pose proof (N.pow_nonzero 4 (N.of_nat (L - S l))). lia. }
  rewrite (qdig_step L l x Hl) in Hle |- *.
  generalize dependent (x / 4 ^ N.of_nat (L - l)). generalize dependent (qdig L l x). intros d Hd Y Hle.
  rewrite N.shiftl_mul_pow2, N.mod_small, lor_add by (change (2 ^ 2) with 4 in *; lia). reflexivity.
Qed.

Lemma select_pred_eqb (f : N -> bool) c s : (forall x, In x s -> f x = (x =? c)) ->
  forall k pos, select_pred N f s k pos = select_from s c k pos.
Proof.
  induction s as [|x s IH]; intros H k pos; cbn [select_pred select_from]; [reflexivity|].
  rewrite (H x (or_introl eq_refl)), !IH by (intros y Hy; apply H; now right). reflexivity.
Qed.

Lemma In_lev {A} a (dig : nat -> A -> N) l s x : In x (lev A a dig l s) -> In x s.
Proof.
  induction l as [|l IH]; cbn [lev]; [tauto|]. intros H. apply In_parts in H as [H _]. now apply IH.
Qed.

Lemma rank_spec_lrank D c i : rank_spec D c i = lrank D c i.
Proof. rewrite rank_spec_rk. reflexivity. Qed.

Lemma count_split d D : countN d D + count_lt d D <= len D.
Proof. rewrite N.add_comm. apply count_lt_eq_le_len. Qed.

Lemma select_from_rk s c : forall k pos p, select_from s c k pos = Some p ->
  exists q, p = pos + q /\ nthN s q = Some c /\ rk s c q = k.
Proof.
  intros k pos p H. apply select_from_sound in H as (H1 & H2 & H3). exists (p - pos).
  rewrite <- rank_spec_rk. split; [lia|]. split; assumption.
Qed.

Lemma select_spec_ge s c k p b : select_spec s c k = Some p -> rk s c b <= k -> b <= p.
Proof.
  unfold select_spec. intros H Hb. apply select_from_rk in H. destruct H as (q & -> & Hn & Hr).
  rewrite N.add_0_l. destruct (N.le_gt_cases b q) as [Hle|Hgt]; [exact Hle|exfalso].
  pose proof (rk_succ s c q c Hn) as Hs. rewrite N.eqb_refl in Hs.
  pose proof (rk_mono s c (q + 1) b) as Hm. lia.
Qed.
