(* C12: the double-ended, exact-size iterator WTIterator (Model/Iter.v) over any indexed structure
   behaves, on EVERY finite call history (next / next_back / len in any order, including calls after
   exhaustion), exactly like a deque over the not-yet-yielded elements, and never faults.
   Instantiated for the plain quad wavelet tree (QWTP.qwt_spec) and the Huffman-shaped one
   (HQWTP.hq_spec). *)
From Coq Require Import ZArith Lia ZifyBool ZifyN ZifyNat.
From QwtModel Require Import ListX Iter ListXP QWT Huff RSQBuild QWTP HQWTP.

(* the not yet yielded elements of [s] in state (i, e) *)
Definition slice {A} (s : list A) (i e : N) : list A := firstnN (e - i) (skipnN i s).

Lemma nthN_slice {A} (s : list A) i e j :
  nthN (slice s i e) j = if j <? e - i then nthN s (i + j) else None.
Proof. unfold slice. now rewrite nthN_firstnN, nthN_skipnN. Qed.

Lemma slice_len {A} (s : list A) i e : i <= e -> e <= len s -> len (slice s i e) = e - i.
Proof. intros H1 H2. unfold slice. rewrite firstnN_len, len_skipnN. lia. Qed.

Lemma slice_empty {A} (s : list A) i e : e <= i -> slice s i e = [].
Proof.
  intros H. apply nthN_ext. intros j. rewrite nthN_slice.
  replace (j <? e - i) with false by lia. reflexivity.
Qed.

Lemma slice_full {A} (s : list A) : slice s 0 (len s) = s.
Proof. unfold slice. rewrite skipnN_0, N.sub_0_r. now apply firstnN_all. Qed.

Lemma slice_cons {A} (s : list A) i e x : i < e -> nthN s i = Some x ->
  slice s i e = x :: slice s (i + 1) e.
Proof.
  intros H Hx. unfold slice. rewrite (skipnN_nth s i x Hx).
  replace (e - i) with (e - (i + 1) + 1) by lia. apply firstnN_succ.
Qed.

Lemma firstnN_snoc {A} (l : list A) k x : nthN l k = Some x -> firstnN (k + 1) l = firstnN k l ++ [x].
Proof.
  intros H. pose proof (nthN_some_lt l k x H) as Hk.
  rewrite <- (firstnN_skipnN l k) at 1. rewrite (skipnN_nth l k x H), firstnN_app.
  rewrite len_firstnN_le, firstnN_all by (rewrite ?len_firstnN_le; lia).
  replace (k + 1 - k) with (0 + 1) by lia. now rewrite firstnN_succ, firstnN_0.
Qed.

Lemma slice_snoc {A} (s : list A) i e x : i < e -> e <= len s -> nthN s (e - 1) = Some x ->
  slice s i e = slice s i (e - 1) ++ [x].
Proof.
  intros H He Hx. unfold slice. replace (e - i) with (e - 1 - i + 1) by lia.
  apply firstnN_snoc. rewrite nthN_skipnN. now replace (i + (e - 1 - i)) with (e - 1) by lia.
Qed.

(* invariant: state (i, e) with i <= e <= len s, remaining elements = slice s i e *)
Lemma wtit_run_inv (get_u : N -> outcome N) (s : list N) :
  len s < 2 ^ 64 -> (forall i x, nthN s i = Some x -> get_u i = Val x) ->
  forall h i e, i <= e -> e <= len s ->
  wtit_run get_u (mk_wtit i e) h = Val (deque_run (slice s i e) h).
Proof.
  intros Hlen Hget. induction h as [|op h IH]; intros i e Hie Hes; [reflexivity|].
  destruct op; cbn [wtit_run deque_run].
  - unfold wtit_next. cbn [it_i it_end]. destruct (N.ltb_spec i e) as [Hlt|Hge].
    + unfold oadd. replace (i + 1 <? 2 ^ 64) with true by lia. cbn [bind].
      replace (i + 1 - 1) with i by lia.
      destruct (nthN_lt_some s i ltac:(lia)) as (x & Hx).
      rewrite (Hget i x Hx). cbn [bind]. rewrite IH by lia. cbn [bind].
      now rewrite (slice_cons s i e x Hlt Hx).
    + cbn [bind]. rewrite IH by lia. cbn [bind]. rewrite (slice_empty s i e) by lia. reflexivity.
  - unfold wtit_next_back. cbn [it_i it_end]. destruct (N.ltb_spec i e) as [Hlt|Hge].
    + unfold osub. replace (1 <=? e) with true by lia. cbn [bind].
      destruct (nthN_lt_some s (e - 1) ltac:(lia)) as (x & Hx).
      rewrite (Hget (e - 1) x Hx). cbn [bind]. rewrite IH by lia. cbn [bind].
      rewrite (slice_snoc s i e x Hlt Hes Hx). rewrite rev_app_distr. cbn [rev app].
      now rewrite rev_involutive.
    + cbn [bind]. rewrite IH by lia. cbn [bind]. rewrite (slice_empty s i e) by lia. reflexivity.
  - unfold wtit_len, osub. cbn [it_i it_end]. replace (i <=? e) with true by lia. cbn [bind].
    rewrite IH by lia. cbn [bind]. now rewrite slice_len by lia.
Qed.

Theorem wtit_run_correct : forall (get_u : N -> outcome N) (s : list N),
  len s < 2 ^ 64 -> (forall i x, nthN s i = Some x -> get_u i = Val x) ->
  forall h, wtit_run get_u (wtit_new (len s)) h = Val (deque_run s h).
Proof.
  intros get_u s Hlen Hget h. unfold wtit_new.
  rewrite (wtit_run_inv get_u s Hlen Hget) by lia. now rewrite slice_full.
Qed.

(* the remaining elements after a history *)
Fixpoint deque_rem (rem : list N) (h : list itop) : list N :=
  match h with
  | [] => rem
  | INext :: r => match rem with [] => deque_rem [] r | _ :: rem' => deque_rem rem' r end
  | IBack :: r => match rev rem with [] => deque_rem [] r | _ :: rr => deque_rem (rev rr) r end
  | ILen :: r => deque_rem rem r
  end.

Lemma deque_run_app : forall h1 rem h2,
  deque_run rem (h1 ++ h2) = deque_run rem h1 ++ deque_run (deque_rem rem h1) h2.
Proof.
  induction h1 as [|op h1 IH]; intros rem h2; [reflexivity|].
  destruct op; cbn [app deque_run deque_rem].
  - destruct rem; cbn [app]; now rewrite IH.
  - destruct (rev rem); cbn [app]; now rewrite IH.
  - cbn [app]. now rewrite IH.
Qed.

Lemma deque_rem_app : forall h1 rem h2, deque_rem rem (h1 ++ h2) = deque_rem (deque_rem rem h1) h2.
Proof.
  induction h1 as [|o h1 IH]; intros rem h2; [reflexivity|].
  destruct o; cbn [app deque_rem]; [destruct rem|destruct (rev rem)|]; apply IH.
Qed.

Lemma deque_run_length : forall h rem, length (deque_run rem h) = length h.
Proof.
  induction h as [|op h IH]; intros rem; [reflexivity|].
  destruct op; cbn [deque_run].
  - destruct rem; cbn [length]; now rewrite IH.
  - destruct (rev rem); cbn [length]; now rewrite IH.
  - cbn [length]. now rewrite IH.
Qed.

(* what an exhausted iterator answers *)
Definition exhausted_out (op : itop) : itout := match op with ILen => OLen 0 | _ => ONone end.

Lemma deque_run_nil : forall h, deque_run [] h = map exhausted_out h.
Proof.
  induction h as [|op h IH]; [reflexivity|].
  destruct op; cbn [deque_run rev map exhausted_out]; now rewrite IH.
Qed.

(* a call that answers None leaves (and found) the deque empty *)
Lemma deque_none_rem : forall h1 rem op h2,
  nth_error (deque_run rem (h1 ++ op :: h2)) (length h1) = Some ONone ->
  deque_rem rem (h1 ++ [op]) = [].
Proof.
  intros h1 rem op h2. rewrite deque_run_app.
  rewrite nth_error_app2 by (rewrite deque_run_length; lia).
  rewrite deque_run_length, Nat.sub_diag, deque_rem_app.
  generalize (deque_rem rem h1) as r. intros r.
  destruct op; cbn [deque_run deque_rem nth_error].
  - destruct r; [reflexivity|discriminate].
  - destruct (rev r); [reflexivity|discriminate].
  - discriminate.
Qed.

Lemma deque_forward : forall s k,
  deque_run s (repeat INext (length s + k)) = map OSome s ++ repeat ONone k.
Proof.
  induction s as [|x s IH]; intros k.
  - cbn [length Nat.add map app]. rewrite deque_run_nil. apply map_repeat.
  - cbn [length Nat.add repeat deque_run map app]. now rewrite IH.
Qed.

Lemma deque_backward_rev : forall r k,
  deque_run (rev r) (repeat IBack (length r + k)) = map OSome r ++ repeat ONone k.
Proof.
  induction r as [|x r IH]; intros k.
  - cbn [rev length Nat.add map app]. rewrite deque_run_nil. apply map_repeat.
  - cbn [length Nat.add repeat deque_run map app]. rewrite rev_involutive. now rewrite IH.
Qed.

Lemma deque_backward : forall s k,
  deque_run s (repeat IBack (length s + k)) = map OSome (rev s) ++ repeat ONone k.
Proof.
  intros s k. rewrite <- (deque_backward_rev (rev s) k). now rewrite rev_involutive, rev_length.
Qed.

(* number of elements yielded in a list of outputs *)
Fixpoint count_some (o : list itout) : N :=
  match o with
  | [] => 0
  | OSome _ :: r => 1 + count_some r
  | _ :: r => count_some r
  end.

Lemma deque_len_exact : forall h rem k n,
  nth_error (deque_run rem h) k = Some (OLen n) ->
  n = len rem - count_some (firstn k (deque_run rem h)).
Proof.
  induction h as [|op h IH]; intros rem k n H.
  - destruct k; discriminate H.
  - destruct op; cbn [deque_run] in *.
    + destruct rem as [|x rem'].
      * destruct k as [|k]; [discriminate H|]. cbn [nth_error firstn count_some] in *.
        now apply IH.
      * destruct k as [|k]; [discriminate H|]. cbn [nth_error firstn count_some] in *.
        apply IH in H. rewrite len_cons. lia.
    + destruct (rev rem) as [|x rr] eqn:E.
      * destruct k as [|k]; [discriminate H|]. cbn [nth_error firstn count_some] in *.
        apply IH in H. assert (rem = []) as -> by (now apply (f_equal (@rev N)) in E; rewrite rev_involutive in E).
        exact H.
      * destruct k as [|k]; [discriminate H|]. cbn [nth_error firstn count_some] in *.
        apply IH in H. assert (Hl : len rem = len (rev rr) + 1).
        { rewrite <- (len_rev rem), E, len_cons, len_rev. reflexivity. }
        lia.
    + destruct k as [|k]; cbn [nth_error firstn count_some] in *.
      * injection H as <-. lia.
      * now apply IH.
Qed.

(* fused: once call number |h1| (a next or next_back, since len never answers None) returned None,
   every later next/next_back returns None and every later len returns 0 *)
Corollary deque_fused : forall s h1 op h2,
  nth_error (deque_run s (h1 ++ op :: h2)) (length h1) = Some ONone ->
  skipn (S (length h1)) (deque_run s (h1 ++ op :: h2)) = map exhausted_out h2.
Proof.
  intros s h1 op h2 Hn. pose proof (deque_none_rem h1 s op h2 Hn) as Hrem.
  replace (h1 ++ op :: h2) with ((h1 ++ [op]) ++ h2) by (now rewrite <- app_assoc).
  rewrite deque_run_app, Hrem, deque_run_nil.
  replace (S (length h1)) with (length (deque_run s (h1 ++ [op])) + 0)%nat
    by (rewrite deque_run_length, app_length; cbn [length]; lia).
  rewrite skipn_app, skipn_all2 by lia.
  replace (_ - _)%nat with 0%nat by lia. reflexivity.
Qed.

(* len s + k calls of next(): the elements in order, then None k times *)
Corollary wtit_forward : forall (get_u : N -> outcome N) (s : list N),
  len s < 2 ^ 64 -> (forall i x, nthN s i = Some x -> get_u i = Val x) ->
  forall k, wtit_run get_u (wtit_new (len s)) (repeat INext (length s + k)) =
            Val (map OSome s ++ repeat ONone k).
Proof.
  intros get_u s Hlen Hget k. rewrite (wtit_run_correct get_u s Hlen Hget). now rewrite deque_forward.
Qed.

(* len s + k calls of next_back(): the elements in reverse order, then None k times *)
Corollary wtit_backward : forall (get_u : N -> outcome N) (s : list N),
  len s < 2 ^ 64 -> (forall i x, nthN s i = Some x -> get_u i = Val x) ->
  forall k, wtit_run get_u (wtit_new (len s)) (repeat IBack (length s + k)) =
            Val (map OSome (rev s) ++ repeat ONone k).
Proof.
  intros get_u s Hlen Hget k. rewrite (wtit_run_correct get_u s Hlen Hget). now rewrite deque_backward.
Qed.

Corollary wtit_fused : forall (get_u : N -> outcome N) (s : list N),
  len s < 2 ^ 64 -> (forall i x, nthN s i = Some x -> get_u i = Val x) ->
  forall h1 op h2 out,
  wtit_run get_u (wtit_new (len s)) (h1 ++ op :: h2) = Val out ->
  nth_error out (length h1) = Some ONone ->
  skipn (S (length h1)) out = map exhausted_out h2.
Proof.
  intros get_u s Hlen Hget h1 op h2 out E Hn.
  rewrite (wtit_run_correct get_u s Hlen Hget) in E. injection E as <-. now apply deque_fused.
Qed.

(* exact size: every len() reports the number of elements not yet yielded *)
Corollary wtit_len_exact : forall (get_u : N -> outcome N) (s : list N),
  len s < 2 ^ 64 -> (forall i x, nthN s i = Some x -> get_u i = Val x) ->
  forall h out k n,
  wtit_run get_u (wtit_new (len s)) h = Val out ->
  nth_error out k = Some (OLen n) ->
  n = len s - count_some (firstn k out).
Proof.
  intros get_u s Hlen Hget h out k n E H.
  rewrite (wtit_run_correct get_u s Hlen Hget) in E. injection E as <-. now apply deque_len_exact.
Qed.

Theorem qwt_iter_correct : forall w bsize t seq, qwt_spec w bsize t seq -> len seq < 2 ^ 64 ->
  forall h, wtit_run (qwt_get_unchecked w bsize t) (wtit_new (qwt_len t)) h = Val (deque_run seq h).
Proof.
  intros w bsize t seq HS Hl h.
  destruct HS as (El & _ & _ & _ & _ & _ & _ & _ & Hgu & _).
  rewrite El. now apply wtit_run_correct.
Qed.

Theorem hq_iter_correct : forall w bsize t seq, hq_spec w bsize t seq -> len seq < 2 ^ 64 ->
  forall h, wtit_run (hq_get_unchecked w bsize t) (wtit_new (hq_len t)) h = Val (deque_run seq h).
Proof.
  intros w bsize t seq HS Hl h.
  destruct HS as (El & _ & _ & _ & _ & Hgu & _).
  rewrite El. now apply wtit_run_correct.
Qed.

Corollary qwt_new_iter : forall w bsize seq, QWTP.width_ok w -> (bsize = 256 \/ bsize = 512) ->
  Forall (fun x => x < 2 ^ w) seq -> len seq < RSQBuild.RSQ_MAXN ->
  exists t, qwt_new w bsize seq = Val t /\
    forall h, wtit_run (qwt_get_unchecked w bsize t) (wtit_new (qwt_len t)) h = Val (deque_run seq h).
Proof.
  intros w bsize seq Hw Hb HF Hn.
  destruct (qwt_new_correct w bsize seq Hw Hb HF Hn) as (t & E & HS).
  exists t. split; [exact E|]. apply (qwt_iter_correct w bsize t seq HS).
  rewrite RSQBuild.RSQ_MAXN_val in Hn. change (2 ^ 64) with 18446744073709551616. lia.
Qed.

Corollary hq_build_iter : forall w bsize seq tab, HQWTP.width_ok w -> (bsize = 256 \/ bsize = 512) ->
  Forall (fun x => x < 2 ^ w) seq -> len seq < RSQBuild.RSQ_MAXN -> table_ok seq tab ->
  exists t, hq_build bsize seq tab = Val t /\
    forall h, wtit_run (hq_get_unchecked w bsize t) (wtit_new (hq_len t)) h = Val (deque_run seq h).
Proof.
  intros w bsize seq tab Hw Hb HF Hn HT.
  destruct (hq_build_correct w bsize seq tab Hw Hb HF Hn HT) as (t & E & HS).
  exists t. split; [exact E|]. apply (hq_iter_correct w bsize t seq HS).
  rewrite RSQBuild.RSQ_MAXN_val in Hn. change (2 ^ 64) with 18446744073709551616. lia.
Qed.

Example deque_example :
  deque_run [10; 20; 30] [INext; ILen; IBack; IBack; ILen; INext; IBack; ILen] =
  [OSome 10; OLen 2; OSome 30; OSome 20; OLen 0; ONone; ONone; OLen 0].
Proof. vm_compute. reflexivity. Qed.

(* the model iterator on the same history, over a list-backed get_unchecked *)
Example wtit_example :
  wtit_run (uidx [10; 20; 30]) (wtit_new 3) [INext; ILen; IBack; IBack; ILen; INext; IBack; ILen] =
  Val [OSome 10; OLen 2; OSome 30; OSome 20; OLen 0; ONone; ONone; OLen 0].
Proof. vm_compute. reflexivity. Qed.

Print Assumptions wtit_run_correct.
Print Assumptions wtit_forward.
Print Assumptions wtit_backward.
Print Assumptions wtit_fused.
Print Assumptions wtit_len_exact.
Print Assumptions deque_fused.
Print Assumptions deque_len_exact.
Print Assumptions qwt_iter_correct.
Print Assumptions hq_iter_correct.
Print Assumptions qwt_new_iter.
Print Assumptions hq_build_iter.
Print Assumptions deque_example.
Print Assumptions wtit_example.
