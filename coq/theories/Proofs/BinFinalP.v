(* End-to-end statements for the binary rank/select structures: RSNarrow / RSWide (RSBinP.v) and
   DArray (DArrayP.v) glued to the bit vector refinement (BitVecP.v).  The theorems start from plain
   inputs (a list of booleans, a list of positions, or any state satisfying the BitVectorMut
   invariant [bv_inv]) instead of from an abstract well-formed bit vector.  The only premises left
   are the two word-level facts about [select_in_word] and [popcount] (Section hypotheses; proved
   in WordsP.v). *)
From Coq Require Import ZArith Lia ZifyBool ZifyN ZifyNat.
From QwtModel Require Import ListX Words BitVec RSBin DArrayM Seq ListXP BitVecIter BitVecP.
(* RSBinB and DArrayP each define a [bv_wf], and RSBinB a [bv_get_correct]: qualified names only *)
From QwtModel Require RSBinB RSBinP DArrayP.

Notation bin_spec := RSBinP.bin_spec.
Notation da_spec := DArrayP.da_spec.
Notation positions_of := DArrayP.positions_of.

(* the same words and length, with the ones counter set to the right value *)
Definition fix_nones (b : bitvec) : bitvec :=
  {| bv_words := bv_words b; bv_nbits := bv_nbits b; bv_nones := countb (bv_abs b) |}.

Lemma fix_nones_abs b : bv_abs (fix_nones b) = bv_abs b.
Proof. reflexivity. Qed.

Lemma fix_nones_get b i : bv_get (fix_nones b) i = bv_get b i.
Proof. reflexivity. Qed.

Lemma fix_nones_pi_next bit b st : pi_next bit (fix_nones b) st = pi_next bit b st.
Proof. reflexivity. Qed.

Lemma fix_nones_pi_collect bit b : forall fuel st,
  pi_collect bit (fix_nones b) st fuel = pi_collect bit b st fuel.
Proof.
  induction fuel as [|fuel IH]; intros st; cbn [pi_collect]; [reflexivity|].
  rewrite fix_nones_pi_next. destruct (pi_next bit b st) as [[p|] st']; [|reflexivity].
  now rewrite IH.
Qed.

(* a vector that is well formed in the sense of the DArray files satisfies [bv_inv] once the ones
   counter is repaired *)
Lemma wf_da_fix_inv b : DArrayP.bv_wf b -> bv_inv (fix_nones b).
Proof.
  intros (H1 & H2 & H3 & H4). unfold bv_inv. rewrite fix_nones_abs.
  cbn [fix_nones bv_words bv_nbits bv_nones]. repeat split; assumption.
Qed.

Lemma positions_of_filter bit : forall l pos,
  positions_of bit l pos =
  filter (fun p => Bool.eqb (nthb l (p - pos)) bit) (seqN pos (length l)).
Proof.
  induction l as [|x l IH]; intros pos; cbn [DArrayP.positions_of length seqN filter]; [reflexivity|].
  replace (pos - pos) with 0 by lia. unfold nthb at 1. rewrite nthN_0.
  rewrite IH.
  assert (Et : filter (fun p => Bool.eqb (nthb (x :: l) (p - pos)) bit) (seqN (pos + 1) (length l)) =
               filter (fun p => Bool.eqb (nthb l (p - (pos + 1))) bit) (seqN (pos + 1) (length l))).
  { apply filter_ext_in. intros p Hp. apply in_seqN in Hp. unfold nthb.
    rewrite nthN_cons_pos by lia. replace (p - pos - 1) with (p - (pos + 1)) by lia. reflexivity. }
  rewrite Et. destruct (Bool.eqb x bit); reflexivity.
Qed.

Lemma ext_pos_step_len l p : len (ext_pos_step l p) = N.max (len l) (p + 1).
Proof.
  unfold ext_pos_step. rewrite setN_len. destruct (N.leb_spec (len l) p) as [H|H].
  - rewrite len_app, len_repeat. lia.
  - lia.
Qed.

Lemma ext_pos_step_nthb l p j : nthb (ext_pos_step l p) j = (j =? p) || nthb l j.
Proof.
  unfold ext_pos_step. rewrite nthb_setN.
  destruct (N.leb_spec (len l) p) as [H|H].
  - rewrite len_app, len_repeat, nthb_app_false.
    destruct (N.ltb_spec p (len l + N.of_nat (N.to_nat (p + 1 - len l)))) as [_|H']; [|lia].
    destruct (j =? p); reflexivity.
  - destruct (N.ltb_spec p (len l)) as [_|H']; [|lia].
    destruct (j =? p); reflexivity.
Qed.

Lemma ext_pos_fold_len : forall ps l,
  len (fold_left ext_pos_step ps l) = N.max (len l) (maxN (map (fun p => p + 1) ps)).
Proof.
  induction ps as [|p ps IH]; intros l; cbn [fold_left map maxN]; [lia|].
  rewrite IH, ext_pos_step_len. lia.
Qed.

Lemma ext_pos_fold_nthb : forall ps l j,
  nthb (fold_left ext_pos_step ps l) j = nthb l j || existsb (N.eqb j) ps.
Proof.
  induction ps as [|p ps IH]; intros l j; cbn [fold_left existsb].
  - now rewrite orb_false_r.
  - rewrite IH, ext_pos_step_nthb. destruct (j =? p), (nthb l j); reflexivity.
Qed.

Definition pos_len (ps : list N) : N := match last_opt ps with Some p => p + 1 | None => 0 end.

Lemma strictly_increasing_max : forall ps, strictly_increasing ps = true ->
  maxN (map (fun p => p + 1) ps) = pos_len ps.
Proof.
  unfold pos_len. induction ps as [|x ps IH]; intros H; [reflexivity|].
  destruct ps as [|y r]; [cbn [map maxN last_opt]; lia|].
  change (strictly_increasing (x :: y :: r)) with ((x <? y) && strictly_increasing (y :: r)) in H.
  apply andb_true_iff in H. destruct H as (Hxy & Hr). specialize (IH Hr).
  change (last_opt (x :: y :: r)) with (last_opt (y :: r)).
  change (maxN (map (fun p => p + 1) (x :: y :: r))) with (N.max (x + 1) (maxN (map (fun p => p + 1) (y :: r)))).
  rewrite IH. cbn [map maxN] in IH. apply N.ltb_lt in Hxy. lia.
Qed.

(* the list built by `extend_with_positions` on the empty vector, for ANY positions *)
Theorem ext_pos_char_gen : forall ps i,
  nthN (op_spec [] (OExtPos ps)) i =
  if i <? maxN (map (fun p => p + 1) ps) then Some (existsb (N.eqb i) ps) else None.
Proof.
  intros ps i. cbn [op_spec].
  pose proof (ext_pos_fold_len ps []) as Hl. rewrite len_nil in Hl.
  pose proof (ext_pos_fold_nthb ps [] i) as Hb.
  destruct (N.ltb_spec i (maxN (map (fun p => p + 1) ps))) as [Hi|Hi].
  - rewrite nthN_nthb by lia. rewrite Hb. reflexivity.
  - apply nthN_none. lia.
Qed.

(* strictly increasing positions: the characteristic vector of the set, of length last + 1 *)
Theorem ext_pos_char : forall ps, strictly_increasing ps = true -> forall i,
  nthN (op_spec [] (OExtPos ps)) i = if i <? pos_len ps then Some (existsb (N.eqb i) ps) else None.
Proof. intros ps H i. rewrite ext_pos_char_gen, strictly_increasing_max by exact H. reflexivity. Qed.

Corollary ext_pos_len : forall ps, strictly_increasing ps = true ->
  len (op_spec [] (OExtPos ps)) = pos_len ps.
Proof.
  intros ps H. cbn [op_spec]. rewrite ext_pos_fold_len, len_nil, strictly_increasing_max by exact H. lia.
Qed.

Corollary ext_pos_In : forall ps, strictly_increasing ps = true -> forall i,
  nthN (op_spec [] (OExtPos ps)) i = Some true <-> In i ps.
Proof.
  intros ps H i. rewrite ext_pos_char by exact H.
  assert (Hin : In i ps -> i < pos_len ps).
  { intros Hi. rewrite <- strictly_increasing_max by exact H.
    clear H. induction ps as [|x ps IH]; [destruct Hi|]. cbn [map maxN].
    destruct Hi as [->|Hi]; [lia|]. specialize (IH Hi). lia. }
  split.
  - destruct (i <? pos_len ps); [|discriminate]. intros E. injection E as E.
    apply existsb_exists in E. destruct E as (x & Hx & Ex). apply N.eqb_eq in Ex. now subst.
  - intros Hi. destruct (N.ltb_spec i (pos_len ps)) as [_|Hge]; [|specialize (Hin Hi); lia].
    f_equal. apply existsb_exists. exists i. split; [exact Hi|apply N.eqb_refl].
Qed.

Section Final.
Hypothesis select_in_word_correct : forall w k, w < 2 ^ 64 -> k < 128 ->
  select_in_word w k = Val (match select_spec (bits_of 64 w) 1 k with Some p => p | None => 64 end).
Hypothesis popcount_correct : forall n x, x < 2 ^ N.of_nat n -> popcount x = countN 1 (bits_of n x).

Lemma bv_inv_wf_rs : forall b, bv_inv b -> bv_nbits b < 2 ^ 43 -> RSBinB.bv_wf b.
Proof. intros b (H1 & H2 & H3 & _ & _) H43. unfold RSBinB.bv_wf. repeat split; assumption. Qed.

Lemma bv_inv_wf_da : forall b, bv_inv b -> DArrayP.bv_wf b.
Proof. intros b (H1 & H2 & H3 & _ & H63). unfold DArrayP.bv_wf. repeat split; assumption. Qed.

(* the two specifications of the position iterator agree *)
Lemma positions_from_of : forall bit l, positions_from bit l 0 = positions_of bit l 0.
Proof.
  intros bit l. rewrite positions_of_filter. unfold positions_from. apply filter_ext.
  intros p. rewrite N.sub_0_r. destruct (N.leb_spec 0 p) as [_|H]; [reflexivity|lia].
Qed.

(* the bit-vector premises of the DArray theorems *)
Lemma pi_collect_new_wf : forall bit b fuel, DArrayP.bv_wf b -> bv_nbits b < N.of_nat fuel ->
  pi_collect bit b pi_new fuel = positions_of bit (bv_abs b) 0.
Proof.
  intros bit b fuel Hwf Hfuel. pose proof (wf_da_fix_inv b Hwf) as Hinv.
  rewrite <- fix_nones_pi_collect, <- positions_from_of, <- (fix_nones_abs b).
  apply (pi_collect_correct bit (fix_nones b) 0 fuel Hinv).
  rewrite (inv_len _ Hinv). exact Hfuel.
Qed.

Lemma bv_get_wf : forall b i, DArrayP.bv_wf b -> bv_get b i = Val (nthN (bv_abs b) i).
Proof.
  intros b i Hwf. rewrite <- fix_nones_get, <- (fix_nones_abs b).
  apply BitVecP.bv_get_correct. apply wf_da_fix_inv. exact Hwf.
Qed.

(* from any reachable BitVectorMut state (below the 2^43 bits these structures support) *)
Theorem rsn_of_inv_correct : forall bv, bv_inv bv -> bv_nbits bv < 2 ^ 43 ->
  exists r, rsn_new bv = Val r /\ rsn_bv r = bv /\
    bin_spec (bv_abs bv) (rsn_get r) (rsn_rank1 r) (rsn_rank0 r) (rsn_select1 r) (rsn_select0 r) (rsn_n_ones r) (rsn_n_zeros r) /\
    (forall i, 0 < len (bv_abs bv) -> i <= len (bv_abs bv) -> rsn_rank1_unchecked r i = Val (rank1_spec (bv_abs bv) i)) /\
    (forall k p, select1_spec (bv_abs bv) k = Some p -> rsn_select_unchecked true r k = Val p) /\
    (forall k p, select0_spec (bv_abs bv) k = Some p -> rsn_select_unchecked false r k = Val p).
Proof.
  intros bv Hinv H43.
  exact (RSBinP.rsn_correct select_in_word_correct popcount_correct bv (bv_inv_wf_rs bv Hinv H43)).
Qed.

Theorem rsw_of_inv_correct : forall bv, bv_inv bv -> bv_nbits bv < 2 ^ 43 ->
  exists r, rsw_new bv = Val r /\ rsw_bv r = bv /\
    bin_spec (bv_abs bv) (rsw_get r) (rsw_rank1 r) (rsw_rank0 r) (rsw_select1 r) (rsw_select0 r) (rsw_n_ones r) (Val (rsw_n_zeros_q r)) /\
    (forall i, 0 < len (bv_abs bv) -> i <= len (bv_abs bv) ->
       rsw_rank1_unchecked r i = Val (rank1_spec (bv_abs bv) i) /\ rsw_rank0_unchecked r i = Val (rank0_spec (bv_abs bv) i)) /\
    (forall k p, select1_spec (bv_abs bv) k = Some p -> rsw_select_unchecked true r k = Val p) /\
    (forall k p, select0_spec (bv_abs bv) k = Some p -> rsw_select_unchecked false r k = Val p).
Proof.
  intros bv Hinv H43.
  exact (RSBinP.rsw_correct select_in_word_correct popcount_correct bv (bv_inv_wf_rs bv Hinv H43)).
Qed.

(* built from any list of booleans (FromIterator<bool> for BitVector, then From<BitVector>) *)
Theorem rsn_of_bools_correct : forall bs, len bs < 2 ^ 43 ->
  exists bv r, bv_from_bools bs = Val bv /\ rsn_new bv = Val r /\
    bin_spec bs (rsn_get r) (rsn_rank1 r) (rsn_rank0 r) (rsn_select1 r) (rsn_select0 r) (rsn_n_ones r) (rsn_n_zeros r) /\
    (forall i, 0 < len bs -> i <= len bs -> rsn_rank1_unchecked r i = Val (rank1_spec bs i)) /\
    (forall k p, select1_spec bs k = Some p -> rsn_select_unchecked true r k = Val p) /\
    (forall k p, select0_spec bs k = Some p -> rsn_select_unchecked false r k = Val p).
Proof.
  intros bs Hl. assert (Hl63 : len bs < 2 ^ 63) by lia.
  destruct (bv_from_bools_correct bs Hl63) as (bv & E & Hinv & Habs).
  assert (H43 : bv_nbits bv < 2 ^ 43) by (rewrite <- (inv_len bv Hinv), Habs; exact Hl).
  destruct (rsn_of_inv_correct bv Hinv H43) as (r & Er & _ & Hspec). rewrite Habs in Hspec.
  exists bv, r. split; [exact E|]. split; [exact Er|exact Hspec].
Qed.

Theorem rsw_of_bools_correct : forall bs, len bs < 2 ^ 43 ->
  exists bv r, bv_from_bools bs = Val bv /\ rsw_new bv = Val r /\
    bin_spec bs (rsw_get r) (rsw_rank1 r) (rsw_rank0 r) (rsw_select1 r) (rsw_select0 r) (rsw_n_ones r) (Val (rsw_n_zeros_q r)) /\
    (forall i, 0 < len bs -> i <= len bs ->
       rsw_rank1_unchecked r i = Val (rank1_spec bs i) /\ rsw_rank0_unchecked r i = Val (rank0_spec bs i)) /\
    (forall k p, select1_spec bs k = Some p -> rsw_select_unchecked true r k = Val p) /\
    (forall k p, select0_spec bs k = Some p -> rsw_select_unchecked false r k = Val p).
Proof.
  intros bs Hl. assert (Hl63 : len bs < 2 ^ 63) by lia.
  destruct (bv_from_bools_correct bs Hl63) as (bv & E & Hinv & Habs).
  assert (H43 : bv_nbits bv < 2 ^ 43) by (rewrite <- (inv_len bv Hinv), Habs; exact Hl).
  destruct (rsw_of_inv_correct bv Hinv H43) as (r & Er & _ & Hspec). rewrite Habs in Hspec.
  exists bv, r. split; [exact E|]. split; [exact Er|exact Hspec].
Qed.

Theorem da_of_inv_correct : forall s0 bv, bv_inv bv ->
  exists d, da_new s0 bv = Val d /\ da_bv d = bv /\ da_spec s0 d (bv_abs bv).
Proof.
  intros s0 bv Hinv.
  exact (DArrayP.da_new_correct select_in_word_correct popcount_correct pi_collect_new_wf bv_get_wf
           s0 bv (bv_inv_wf_da bv Hinv)).
Qed.

Theorem da_of_bools_correct : forall s0 bs, len bs < 2 ^ 63 ->
  exists d, da_from_bools s0 bs = Val d /\ da_spec s0 d bs.
Proof.
  intros s0 bs Hl. destruct (bv_from_bools_correct bs Hl) as (bv & E & Hinv & Habs).
  destruct (da_of_inv_correct s0 bv Hinv) as (d & Ed & _ & Hspec).
  exists d. unfold da_from_bools. rewrite E. cbn [bind]. rewrite <- Habs. auto.
Qed.

(* position-list constructor: strictly increasing positions below 2^63 - 1 *)
Theorem da_of_positions_correct : forall s0 ps, strictly_increasing ps = true ->
  Forall (fun p => p < 2 ^ 63 - 1) ps ->
  exists d, da_from_positions s0 ps = Val d /\ da_spec s0 d (op_spec [] (OExtPos ps)).
Proof.
  intros s0 ps Hinc HF. destruct (bv_from_positions_correct ps HF) as (bv & E & Hinv & Habs).
  destruct (da_of_inv_correct s0 bv Hinv) as (d & Ed & _ & Hspec).
  exists d. unfold da_from_positions. rewrite Hinc. cbn [oassert bind]. rewrite E. cbn [bind].
  rewrite <- Habs. split; [exact Ed|exact Hspec].
Qed.

(* ... and the documented panic otherwise (DArrayP.da_from_positions_panics): together, for
   positions below 2^63 - 1 the constructor panics iff the list is not strictly increasing *)
Theorem da_of_positions_total : forall s0 ps, Forall (fun p => p < 2 ^ 63 - 1) ps ->
  if strictly_increasing ps
  then exists d, da_from_positions s0 ps = Val d /\ da_spec s0 d (op_spec [] (OExtPos ps))
  else da_from_positions s0 ps = Fault Panic.
Proof.
  intros s0 ps HF. destruct (strictly_increasing ps) eqn:E.
  - apply da_of_positions_correct; assumption.
  - apply DArrayP.da_from_positions_panics. exact E.
Qed.

End Final.

Print Assumptions ext_pos_char_gen.
Print Assumptions ext_pos_char.
Print Assumptions ext_pos_len.
Print Assumptions ext_pos_In.
Print Assumptions bv_inv_wf_rs.
Print Assumptions bv_inv_wf_da.
Print Assumptions positions_from_of.
Print Assumptions pi_collect_new_wf.
Print Assumptions bv_get_wf.
Print Assumptions rsn_of_inv_correct.
Print Assumptions rsw_of_inv_correct.
Print Assumptions rsn_of_bools_correct.
Print Assumptions rsw_of_bools_correct.
Print Assumptions da_of_inv_correct.
Print Assumptions da_of_bools_correct.
Print Assumptions da_of_positions_correct.
Print Assumptions da_of_positions_total.
