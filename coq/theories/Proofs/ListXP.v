(* Lemmas about the N-indexed list helpers of Base/ListX.v.
   Every file requires this one: the zify hook below makes [lia] handle / and mod on N and Z everywhere, and the
   [Arguments] lines keep [simpl]/[cbn] from unfolding N arithmetic (both are global and survive Require). *)
From Coq Require Import ZArith Lia ZifyBool ZifyN ZifyNat Permutation.
From QwtModel Require Import ListX.
Ltac Zify.zify_post_hook ::= Z.div_mod_to_equations.
Arguments N.add : simpl never.
Arguments N.sub : simpl never.
Arguments N.mul : simpl never.
Arguments N.eqb : simpl never.
Arguments N.ltb : simpl never.
Arguments N.leb : simpl never.
Arguments N.pred : simpl never.
Arguments N.of_nat : simpl never.

Lemma len_nil {A} : len (@nil A) = 0. Proof. reflexivity. Qed.
Lemma len_cons {A} (x : A) l : len (x :: l) = len l + 1.
Proof. unfold len. cbn [length]. lia. Qed.
Lemma len_app {A} (l1 l2 : list A) : len (l1 ++ l2) = len l1 + len l2.
Proof. unfold len. rewrite app_length. lia. Qed.

Ltac lens :=
  repeat first [rewrite len_app | rewrite len_cons
               | match goal with |- context [@len ?A (@nil ?A)] => change (@len A (@nil A)) with 0 end].
Tactic Notation "lens" "in" hyp(H) :=
  repeat first [rewrite len_app in H | rewrite len_cons in H
               | match type of H with context [@len ?A (@nil ?A)] => change (@len A (@nil A)) with 0 in H end].

Lemma len_rev {A} (l : list A) : len (rev l) = len l.
Proof. unfold len. now rewrite rev_length. Qed.
Lemma len_map {A B} (f : A -> B) l : len (map f l) = len l.
Proof. unfold len. now rewrite map_length. Qed.
Lemma len_repeat {A} (a : A) n : len (repeat a n) = N.of_nat n.
Proof. unfold len. now rewrite repeat_length. Qed.
Lemma len_0_nil {A} (l : list A) : len l = 0 -> l = [].
Proof. destruct l; [reflexivity|]. rewrite len_cons. lia. Qed.
Lemma len_perm {A} (l1 l2 : list A) : Permutation l1 l2 -> len l1 = len l2.
Proof. intros H. unfold len. now rewrite (Permutation_length H). Qed.

Lemma nthN_nth_error {A} (l : list A) : forall i, nthN l i = nth_error l (N.to_nat i).
Proof.
  induction l as [|x l IH]; intros i; cbn [nthN].
  - now destruct (N.to_nat i).
  - destruct (N.eqb_spec i 0) as [->|Hn]; [reflexivity|].
    rewrite IH. replace (N.to_nat i) with (S (N.to_nat (N.pred i))) by lia. reflexivity.
Qed.
Lemma nthN_0 {A} (x : A) l : nthN (x :: l) 0 = Some x.
Proof. reflexivity. Qed.
Lemma nthN_succ {A} (x : A) l i : nthN (x :: l) (i + 1) = nthN l i.
Proof.
  cbn [nthN]. destruct (N.eqb_spec (i + 1) 0); [lia|]. f_equal. lia.
Qed.
Lemma nthN_cons_pos {A} (x : A) l i : 0 < i -> nthN (x :: l) i = nthN l (i - 1).
Proof. intros H. replace i with (i - 1 + 1) at 1 by lia. apply nthN_succ. Qed.

Lemma nthN_some_lt {A} (l : list A) i a : nthN l i = Some a -> i < len l.
Proof.
  rewrite nthN_nth_error. intros H. assert (N.to_nat i < length l)%nat.
  { apply nth_error_Some. congruence. } unfold len. lia.
Qed.
Lemma nthN_none {A} (l : list A) i : len l <= i -> nthN l i = None.
Proof.
  rewrite nthN_nth_error. intros H. apply nth_error_None. unfold len in H. lia.
Qed.
Lemma nthN_lt_some {A} (l : list A) i : i < len l -> exists a, nthN l i = Some a.
Proof.
  intros H. destruct (nthN l i) eqn:E; eauto.
  rewrite nthN_nth_error in E. apply nth_error_None in E. unfold len in H. lia.
Qed.
Lemma nthN_lt_len {A} (l : list A) i : i < len l <-> nthN l i <> None.
Proof.
  split.
  - intros H. destruct (nthN_lt_some l i H) as (a & ->). discriminate.
  - intros H. destruct (N.ltb_spec i (len l)) as [|Hge]; [assumption|].
    now rewrite nthN_none in H.
Qed.
Lemma nthN_None_ge {A} (l : list A) i : nthN l i = None -> len l <= i.
Proof. intros H. destruct (N.leb_spec (len l) i); [assumption|]. now apply nthN_lt_len in H. Qed.

Lemma nthN_app1 {A} (l1 l2 : list A) i : i < len l1 -> nthN (l1 ++ l2) i = nthN l1 i.
Proof.
  intros H. rewrite !nthN_nth_error. apply nth_error_app1. unfold len in H. lia.
Qed.
Lemma nthN_app2 {A} (l1 l2 : list A) i : len l1 <= i -> nthN (l1 ++ l2) i = nthN l2 (i - len l1).
Proof.
  intros H. rewrite !nthN_nth_error. unfold len in *. rewrite nth_error_app2 by lia. f_equal. lia.
Qed.
Lemma nthN_app {A} (l1 l2 : list A) i : nthN (l1 ++ l2) i = if i <? len l1 then nthN l1 i else nthN l2 (i - len l1).
Proof. destruct (N.ltb_spec i (len l1)); [now apply nthN_app1|now apply nthN_app2]. Qed.
Lemma nthN_snoc {A} (l : list A) v i :
  nthN (l ++ [v]) i = if i <? len l then nthN l i else if i =? len l then Some v else None.
Proof.
  destruct (N.ltb_spec i (len l)) as [H|H]; [now apply nthN_app1|].
  rewrite nthN_app2 by assumption. destruct (N.eqb_spec i (len l)) as [->|Hn].
  - now rewrite N.sub_diag.
  - apply nthN_none. rewrite len_cons, len_nil. lia.
Qed.
Lemma nthN_snoc_last {A} (l : list A) a : nthN (l ++ [a]) (len l) = Some a.
Proof. rewrite nthN_app2 by lia. now rewrite N.sub_diag. Qed.

Lemma nthN_map {A B} (f : A -> B) l i : nthN (map f l) i = option_map f (nthN l i).
Proof. rewrite !nthN_nth_error. apply nth_error_map. Qed.
Lemma nthN_repeat {A} (a : A) n i : i < N.of_nat n -> nthN (repeat a n) i = Some a.
Proof.
  intros H. rewrite nthN_nth_error.
  destruct (nth_error (repeat a n) (N.to_nat i)) eqn:E.
  - apply nth_error_In in E. apply repeat_spec in E. now subst.
  - apply nth_error_None in E. rewrite repeat_length in E. lia.
Qed.
Lemma nthN_repeat_gen {A} (a : A) n i : nthN (repeat a n) i = if i <? N.of_nat n then Some a else None.
Proof.
  destruct (N.ltb_spec i (N.of_nat n)) as [H|H].
  - now apply nthN_repeat.
  - apply nthN_none. rewrite len_repeat. exact H.
Qed.

Lemma nthN_In {A} (l : list A) i x : nthN l i = Some x -> In x l.
Proof. rewrite nthN_nth_error. apply nth_error_In. Qed.
Lemma In_nthN {A} (l : list A) a : In a l -> exists i, nthN l i = Some a.
Proof.
  induction l as [|b l IH]; intros H; [destruct H|].
  destruct H as [->|H].
  - exists 0. apply nthN_0.
  - destruct (IH H) as (i & Hi). exists (i + 1). now rewrite nthN_succ.
Qed.
Lemma nthN_ext {A} : forall (l1 l2 : list A), (forall i, nthN l1 i = nthN l2 i) -> l1 = l2.
Proof.
  induction l1 as [|x l1 IH]; intros [|y l2] H.
  - reflexivity.
  - specialize (H 0). discriminate.
  - specialize (H 0). discriminate.
  - pose proof (H 0) as H0. rewrite !nthN_0 in H0. injection H0 as ->. f_equal.
    apply IH. intros i. specialize (H (i + 1)). now rewrite !nthN_succ in H.
Qed.

Lemma nthN_split {B} (l : list B) : forall i x, nthN l i = Some x ->
  exists X Z, l = X ++ x :: Z /\ len X = i.
Proof.
  intros i x H. rewrite nthN_nth_error in H. apply nth_error_split in H.
  destruct H as (X & Z & E & HL). exists X, Z. split; [exact E|]. unfold len. lia.
Qed.

Lemma firstnN_firstn {A} (l : list A) : forall i, firstnN i l = firstn (N.to_nat i) l.
Proof.
  induction l as [|x l IH]; intros i; cbn [firstnN].
  - now destruct (N.to_nat i).
  - destruct (N.eqb_spec i 0) as [->|Hn]; [reflexivity|].
    rewrite IH. replace (N.to_nat i) with (S (N.to_nat (N.pred i))) by lia. reflexivity.
Qed.
Lemma skipnN_skipn {A} (l : list A) : forall i, skipnN i l = skipn (N.to_nat i) l.
Proof.
  induction l as [|x l IH]; intros i; cbn [skipnN].
  - now destruct (N.to_nat i).
  - destruct (N.eqb_spec i 0) as [->|Hn]; [reflexivity|].
    rewrite IH. replace (N.to_nat i) with (S (N.to_nat (N.pred i))) by lia. reflexivity.
Qed.

Lemma firstnN_0 {A} (l : list A) : firstnN 0 l = [].
Proof. destruct l; reflexivity. Qed.
Lemma firstnN_succ {A} (x : A) l i : firstnN (i + 1) (x :: l) = x :: firstnN i l.
Proof. cbn [firstnN]. destruct (N.eqb_spec (i + 1) 0); [lia|]. do 2 f_equal. lia. Qed.
Lemma firstnN_all {A} (l : list A) i : len l <= i -> firstnN i l = l.
Proof. intros H. rewrite firstnN_firstn. apply firstn_all2. unfold len in H. lia. Qed.
Lemma firstnN_app {A} (l1 l2 : list A) i :
  firstnN i (l1 ++ l2) = firstnN i l1 ++ firstnN (i - len l1) l2.
Proof. rewrite !firstnN_firstn, firstn_app. do 2 f_equal. unfold len. lia. Qed.
Lemma firstnN_app_exact {A} (l1 l2 : list A) : firstnN (len l1) (l1 ++ l2) = l1.
Proof.
  rewrite firstnN_firstn. unfold len. rewrite Nnat.Nat2N.id.
  rewrite firstn_app, Nat.sub_diag, firstn_all. cbn. now rewrite app_nil_r.
Qed.
Lemma firstnN_len {A} (l : list A) i : len (firstnN i l) = N.min i (len l).
Proof. rewrite firstnN_firstn. unfold len. rewrite firstn_length. lia. Qed.
Lemma len_firstnN_le {A} (l : list A) a : a <= len l -> len (firstnN a l) = a.
Proof. intros H. rewrite firstnN_len. lia. Qed.
Lemma firstnN_map {A B} (f : A -> B) l n : firstnN n (map f l) = map f (firstnN n l).
Proof. rewrite !firstnN_firstn. apply firstn_map. Qed.
Lemma nthN_firstnN {A} (l : list A) : forall n j, nthN (firstnN n l) j = if j <? n then nthN l j else None.
Proof.
  induction l as [|x l IH]; intros n j; cbn [firstnN].
  - cbn [nthN]. now destruct (j <? n).
  - destruct (N.eqb_spec n 0) as [->|Hn].
    + cbn [nthN]. destruct (N.ltb_spec j 0); [lia|reflexivity].
    + cbn [nthN]. destruct (N.eqb_spec j 0) as [->|Hj].
      * destruct (N.ltb_spec 0 n); [reflexivity|lia].
      * rewrite IH. destruct (N.ltb_spec (N.pred j) (N.pred n)), (N.ltb_spec j n); try lia; reflexivity.
Qed.

Lemma skipnN_0 {A} (l : list A) : skipnN 0 l = l.
Proof. destruct l; reflexivity. Qed.
Lemma skipnN_all {A} (l : list A) n : len l <= n -> skipnN n l = [].
Proof. intros H. rewrite skipnN_skipn. apply skipn_all2. unfold len in H. lia. Qed.
Lemma len_skipnN {A} (l : list A) a : len (skipnN a l) = len l - a.
Proof. rewrite skipnN_skipn. unfold len. rewrite skipn_length. lia. Qed.
Lemma skipnN_app_exact {A} (l1 l2 : list A) : skipnN (len l1) (l1 ++ l2) = l2.
Proof. rewrite skipnN_skipn. unfold len. rewrite Nnat.Nat2N.id, skipn_app, Nat.sub_diag, skipn_all. reflexivity. Qed.
Lemma nthN_skipnN {A} (l : list A) : forall i j, nthN (skipnN i l) j = nthN l (i + j).
Proof.
  induction l as [|x l IH]; intros i j; cbn [skipnN].
  - reflexivity.
  - destruct (N.eqb_spec i 0) as [->|Hi].
    + now rewrite N.add_0_l.
    + rewrite IH. cbn [nthN]. destruct (N.eqb_spec (i + j) 0); [lia|]. f_equal. lia.
Qed.
Lemma skipnN_nth {A} (l : list A) : forall i x, nthN l i = Some x -> skipnN i l = x :: skipnN (i + 1) l.
Proof.
  induction l as [|y l IH]; intros i x H; [discriminate|].
  cbn [nthN] in H. cbn [skipnN]. destruct (N.eqb_spec i 0) as [->|Hn].
  - injection H as ->. change (0 + 1 =? 0) with false. cbv iota. change (N.pred (0 + 1)) with 0.
    now rewrite skipnN_0.
  - destruct (N.eqb_spec (i + 1) 0); [lia|]. rewrite (IH _ _ H). do 2 f_equal. lia.
Qed.
Lemma skipnN_skipnN {A} (l : list A) i j : skipnN j (skipnN i l) = skipnN (i + j) l.
Proof. apply nthN_ext. intros k. rewrite !nthN_skipnN. f_equal. lia. Qed.
Lemma firstnN_skipnN {A} (l : list A) a : firstnN a l ++ skipnN a l = l.
Proof. rewrite firstnN_firstn, skipnN_skipn. apply firstn_skipn. Qed.
Lemma In_firstnN {A} (l : list A) i x : In x (firstnN i l) -> In x l.
Proof. intros H. rewrite <- (firstnN_skipnN l i). apply in_or_app. now left. Qed.

Lemma setN_len {A} (l : list A) : forall i v, len (setN l i v) = len l.
Proof.
  induction l as [|x l IH]; intros i v; cbn [setN]; [reflexivity|].
  destruct (N.eqb_spec i 0); rewrite !len_cons; [reflexivity|]. now rewrite IH.
Qed.
Lemma setN_length {A} (l : list A) i v : length (setN l i v) = length l.
Proof. pose proof (setN_len l i v) as H. unfold len in H. lia. Qed.
Lemma nthN_setN_same {A} (l : list A) : forall i v, i < len l -> nthN (setN l i v) i = Some v.
Proof.
  induction l as [|x l IH]; intros i v H; [rewrite len_nil in H; lia|].
  cbn [setN nthN]. destruct (N.eqb_spec i 0) as [->|Hn]; cbn [nthN].
  - reflexivity.
  - destruct (N.eqb_spec i 0); [lia|]. apply IH. rewrite len_cons in H. lia.
Qed.
Lemma nthN_setN_other {A} (l : list A) : forall i j v, i <> j -> nthN (setN l i v) j = nthN l j.
Proof.
  induction l as [|x l IH]; intros i j v H; [reflexivity|].
  cbn [setN]. destruct (N.eqb_spec i 0) as [->|Hn]; cbn [nthN].
  - destruct (N.eqb_spec j 0); [lia|reflexivity].
  - destruct (N.eqb_spec j 0); [reflexivity|]. apply IH. lia.
Qed.
Lemma nthN_setN {A} (l : list A) i j v :
  nthN (setN l i v) j = if (j =? i) && (i <? len l) then Some v else nthN l j.
Proof.
  destruct (N.eqb_spec j i) as [->|Hne]; cbn [andb].
  - destruct (N.ltb_spec i (len l)) as [H|H].
    + now apply nthN_setN_same.
    + rewrite !nthN_none; [reflexivity|exact H|now rewrite setN_len].
  - apply nthN_setN_other. congruence.
Qed.
Lemma setN_app1 {A} (l1 l2 : list A) : forall i v, i < len l1 -> setN (l1 ++ l2) i v = setN l1 i v ++ l2.
Proof.
  induction l1 as [|x l1 IH]; intros i v H; [rewrite len_nil in H; lia|].
  cbn [app setN]. destruct (N.eqb_spec i 0); [reflexivity|].
  cbn [app]. f_equal. apply IH. rewrite len_cons in H. lia.
Qed.
Lemma setN_app2 {A} (l1 l2 : list A) : forall i v, len l1 <= i -> setN (l1 ++ l2) i v = l1 ++ setN l2 (i - len l1) v.
Proof.
  induction l1 as [|x l1 IH]; intros i v H.
  - cbn [app]. rewrite len_nil. now rewrite N.sub_0_r.
  - rewrite len_cons in H. cbn [app setN]. destruct (N.eqb_spec i 0); [lia|].
    f_equal. rewrite IH by lia. do 2 f_equal. rewrite len_cons. lia.
Qed.

Lemma last_opt_app {A} (l : list A) x : last_opt (l ++ [x]) = Some x.
Proof.
  induction l as [|y l IH]; [reflexivity|].
  cbn [app]. destruct (l ++ [x]) eqn:E; [now destruct l|]. cbn [last_opt]. exact IH.
Qed.
Lemma set_last_app {A} (l : list A) x v : set_last (l ++ [x]) v = l ++ [v].
Proof.
  induction l as [|y l IH]; [reflexivity|].
  cbn [app]. destruct (l ++ [x]) eqn:E; [now destruct l|]. cbn [set_last]. f_equal. exact IH.
Qed.

Lemma Forall_nthN {A} (P : A -> Prop) l i a : Forall P l -> nthN l i = Some a -> P a.
Proof. intros HF H. eapply Forall_forall; [exact HF|eapply nthN_In, H]. Qed.
Lemma Forall_of_nthN {A} (P : A -> Prop) (l : list A) : (forall i a, nthN l i = Some a -> P a) -> Forall P l.
Proof.
  induction l as [|x l IH]; intros H; constructor.
  - apply (H 0). apply nthN_0.
  - apply IH. intros i a E. apply (H (i + 1)). rewrite nthN_succ. exact E.
Qed.
Lemma Forall_firstnN {A} (P : A -> Prop) l : Forall P l -> forall n, Forall P (firstnN n l).
Proof.
  induction 1 as [|x l Hx Hl IH]; intros n; cbn [firstnN]; [constructor|].
  destruct (n =? 0); constructor; [assumption|apply IH].
Qed.
Lemma Forall_skipnN {A} (P : A -> Prop) l : Forall P l -> forall n, Forall P (skipnN n l).
Proof.
  induction 1 as [|x l Hx Hl IH]; intros n; cbn [skipnN]; [constructor|].
  destruct (n =? 0); [constructor; assumption|apply IH].
Qed.
Lemma Forall_setN {A} (P : A -> Prop) l : forall i v, Forall P l -> P v -> Forall P (setN l i v).
Proof.
  induction l as [|x l IH]; intros i v HF Hv; cbn [setN]; [constructor|].
  inversion HF as [|? ? Hx HF']; subst.
  destruct (i =? 0); constructor; auto.
Qed.
Lemma Forall_repeat {A} (P : A -> Prop) a n : P a -> Forall P (repeat a n).
Proof. intros H. induction n; cbn [repeat]; constructor; auto. Qed.
Lemma map_repeat {A B} (f : A -> B) x n : map f (repeat x n) = repeat (f x) n.
Proof. induction n as [|n IH]; cbn [repeat map]; [reflexivity|]. rewrite IH. reflexivity. Qed.

Lemma Forall2_nthN {A B} (R : A -> B -> Prop) xs ys : Forall2 R xs ys ->
  forall i y, nthN ys i = Some y -> exists x, nthN xs i = Some x /\ R x y.
Proof.
  induction 1 as [|x y xs ys Hxy HF IH]; intros i y0 Hy; [discriminate|].
  cbn [nthN] in *. destruct (i =? 0).
  - injection Hy as <-. eauto.
  - exact (IH _ _ Hy).
Qed.
Lemma Forall2_imp {A B} (P Q : A -> B -> Prop) l1 l2 :
  (forall x y, P x y -> Q x y) -> Forall2 P l1 l2 -> Forall2 Q l1 l2.
Proof. intros H. induction 1; constructor; auto. Qed.

Lemma seqN_length n : forall s, length (seqN s n) = n.
Proof. induction n as [|n IH]; intros s; cbn [seqN length]; [reflexivity|]. now rewrite IH. Qed.
Lemma len_seqN n s : len (seqN s n) = N.of_nat n.
Proof. unfold len. now rewrite seqN_length. Qed.
Lemma in_seqN i n : forall s, In i (seqN s n) <-> s <= i < s + N.of_nat n.
Proof.
  induction n as [|n IH]; intros s; cbn [seqN In].
  - lia.
  - rewrite IH. lia.
Qed.
Lemma seqN_app s n m : seqN s (n + m) = seqN s n ++ seqN (s + N.of_nat n) m.
Proof.
  revert s. induction n as [|n IH]; intros s; cbn [seqN Nat.add app].
  - f_equal. lia.
  - f_equal. rewrite IH. do 2 f_equal. lia.
Qed.
Lemma seqN_shift d n : forall s, seqN (s + d) n = map (fun i => i + d) (seqN s n).
Proof.
  induction n as [|n IH]; intros s; cbn [seqN map]; [reflexivity|].
  f_equal. rewrite <- IH. f_equal. lia.
Qed.
Lemma nthN_seqN : forall n s j, nthN (seqN s n) j = if j <? N.of_nat n then Some (s + j) else None.
Proof.
  induction n as [|n IH]; intros s j; cbn [seqN].
  - destruct (N.ltb_spec j (N.of_nat 0)); [lia|reflexivity].
  - cbn [nthN]. destruct (N.eqb_spec j 0) as [->|Hj].
    + destruct (N.ltb_spec 0 (N.of_nat (S n))); [|lia]. f_equal. lia.
    + rewrite IH. destruct (N.ltb_spec (N.pred j) (N.of_nat n)), (N.ltb_spec j (N.of_nat (S n))); try lia.
      * f_equal. lia.
      * reflexivity.
Qed.
Lemma nthN_seqN_lt n s j : j < N.of_nat n -> nthN (seqN s n) j = Some (s + j).
Proof. intros H. rewrite nthN_seqN. destruct (N.ltb_spec j (N.of_nat n)); [reflexivity|lia]. Qed.

Lemma countb_app l1 l2 : countb (l1 ++ l2) = countb l1 + countb l2.
Proof. induction l1 as [|x l1 IH]; cbn [app countb]; [lia|]. rewrite IH. lia. Qed.
Lemma countb_le_len l : countb l <= len l.
Proof. induction l as [|x l IH]; cbn [countb]; [lens; lia|]. rewrite len_cons. destruct x; lia. Qed.
Lemma countb_repeat_false n : countb (repeat false n) = 0.
Proof. induction n as [|n IH]; cbn [repeat countb]; [reflexivity|]. rewrite IH. lia. Qed.
Lemma countb_setN l : forall i v old, nthN l i = Some old ->
  countb (setN l i v) + N.b2n old = countb l + N.b2n v.
Proof.
  induction l as [|x l IH]; intros i v old H; [discriminate H|].
  cbn [nthN] in H. cbn [setN]. destruct (N.eqb_spec i 0) as [->|Hi].
  - injection H as ->. cbn [countb]. destruct v, old; cbn [N.b2n]; lia.
  - cbn [countb]. specialize (IH _ v _ H). destruct x; lia.
Qed.
Lemma countb_nth_pos l i : nthN l i = Some true -> 1 <= countb l.
Proof. intros H. pose proof (countb_setN l i false true H) as E. cbn [N.b2n] in E. lia. Qed.

Lemma countN_app c l1 l2 : countN c (l1 ++ l2) = countN c l1 + countN c l2.
Proof. induction l1 as [|x l1 IH]; cbn [app countN]; [lia|]. rewrite IH. lia. Qed.
Lemma countN_le_len c l : countN c l <= len l.
Proof. induction l as [|x l IH]; cbn [countN]; [unfold len; cbn; lia|]. rewrite len_cons. destruct (x =? c); lia. Qed.
Lemma countN_repeat_other c d n : c <> d -> countN c (repeat d n) = 0.
Proof. intros H. induction n as [|n IH]; cbn [repeat countN]; [reflexivity|]. destruct (N.eqb_spec d c); [congruence|lia]. Qed.
Lemma countN_pos_In c l : 0 < countN c l <-> In c l.
Proof.
  induction l as [|x l IH]; cbn [countN In]; [lia|].
  destruct (N.eqb_spec x c) as [->|Hx]; split; intros H.
  - now left.
  - lia.
  - right. apply IH. lia.
  - destruct H as [H|H]; [congruence|]. apply IH in H. lia.
Qed.
Lemma count4_le l : countN 0 l + countN 1 l + countN 2 l + countN 3 l <= len l.
Proof.
  induction l as [|x l IH]; cbn [countN]; [lia|]. rewrite len_cons.
  destruct (N.eqb_spec x 0), (N.eqb_spec x 1), (N.eqb_spec x 2), (N.eqb_spec x 3); lia.
Qed.

Lemma count_lt_app c l1 l2 : count_lt c (l1 ++ l2) = count_lt c l1 + count_lt c l2.
Proof. induction l1 as [|x l1 IH]; cbn [app count_lt]; [lia|]. rewrite IH. lia. Qed.
Lemma count_lt_0 l : count_lt 0 l = 0.
Proof. induction l as [|x l IH]; cbn [count_lt]; [reflexivity|]. rewrite IH. destruct (N.ltb_spec x 0); lia. Qed.
Lemma count_lt_succ c l : count_lt (c + 1) l = count_lt c l + countN c l.
Proof.
  induction l as [|x l IH]; cbn [count_lt countN]; [reflexivity|]. rewrite IH.
  destruct (N.ltb_spec x (c + 1)), (N.ltb_spec x c), (N.eqb_spec x c); lia.
Qed.
Lemma count_lt_1 l : count_lt 1 l = countN 0 l.
Proof. pose proof (count_lt_succ 0 l) as H. change (0 + 1) with 1 in H. rewrite count_lt_0 in H. lia. Qed.
Lemma count_lt_eq_le_len d l : count_lt d l + countN d l <= len l.
Proof.
  induction l as [|x l IH]; cbn [count_lt countN]; [unfold len; cbn [length]; lia|].
  rewrite len_cons. destruct (N.ltb_spec x d), (N.eqb_spec x d); lia.
Qed.

Lemma sumN_app l1 l2 : sumN (l1 ++ l2) = sumN l1 + sumN l2.
Proof. induction l1 as [|x l1 IH]; cbn [app sumN]; [lia|]. rewrite IH. lia. Qed.

Lemma maxN_ge s : forall x, In x s -> x <= maxN s.
Proof.
  induction s as [|y s IH]; intros x Hx; [destruct Hx|].
  cbn [maxN]. destruct Hx as [->|Hx]; [lia|]. specialize (IH x Hx). lia.
Qed.
Lemma maxN_le b l : (forall x, In x l -> x <= b) -> maxN l <= b.
Proof.
  induction l as [|y l IH]; intros H; cbn [maxN]; [lia|].
  pose proof (H y (or_introl eq_refl)). specialize (IH (fun x Hx => H x (or_intror Hx))). lia.
Qed.
Lemma maxN_lt s b : 0 < b -> Forall (fun x => x < b) s -> maxN s < b.
Proof. intros Hb. induction 1 as [|y s Hy HF IH]; cbn [maxN]; lia. Qed.
Lemma maxN_in s : s <> [] -> In (maxN s) s.
Proof.
  induction s as [|y s IH]; intros H; [congruence|].
  cbn [maxN]. destruct s as [|z s'].
  - cbn [maxN]. left. lia.
  - destruct (N.max_spec y (maxN (z :: s'))) as [[_ ->]|[_ ->]]; [right; apply IH; congruence|now left].
Qed.
Lemma fold_max_maxN : forall l x, fold_left N.max l x = N.max x (maxN l).
Proof. induction l as [|y l IH]; intros x; cbn [fold_left maxN]; [lia|]. rewrite IH. lia. Qed.

Lemma nthN_concat_uniform {A} (k : N) (ls : list (list A)) :
  0 < k -> Forall (fun l => len l = k) ls ->
  forall i, nthN (concat ls) i = match nthN ls (i / k) with Some l => nthN l (i mod k) | None => None end.
Proof.
  intros Hk. induction ls as [|l ls IH]; intros HF i.
  - reflexivity.
  - inversion HF as [|? ? Hl HF']; subst. cbn [concat].
    destruct (N.ltb_spec i (len l)) as [Hi|Hi].
    + rewrite nthN_app1 by assumption. rewrite N.div_small, N.mod_small by assumption. reflexivity.
    + rewrite nthN_app2 by assumption. rewrite IH by assumption.
      assert (E1 : i / len l = (i - len l) / len l + 1).
      { replace i with ((i - len l) + 1 * len l) at 1 by lia. rewrite N.div_add by lia. reflexivity. }
      assert (E2 : i mod len l = (i - len l) mod len l).
      { replace i with ((i - len l) + 1 * len l) at 1 by lia. rewrite N.mod_add by lia. reflexivity. }
      rewrite E1, E2, nthN_succ. reflexivity.
Qed.
Lemma len_concat_uniform {A} (k : N) (ls : list (list A)) :
  Forall (fun l => len l = k) ls -> len (concat ls) = k * len ls.
Proof.
  induction 1 as [|l ls Hl HF IH]; [unfold len; cbn [concat length]; lia|].
  cbn [concat]. rewrite len_app, len_cons, IH, Hl. lia.
Qed.

Lemma filter_all {A} (p : A -> bool) l : (forall x, In x l -> p x = true) -> filter p l = l.
Proof.
  induction l as [|a l IH]; intros H; cbn [filter]; [reflexivity|].
  rewrite (H a (or_introl eq_refl)), IH; [reflexivity|]. intros y Hy. apply H. now right.
Qed.
Lemma filter_none {A} (p : A -> bool) l : (forall x, In x l -> p x = false) -> filter p l = [].
Proof.
  induction l as [|a l IH]; intros H; cbn [filter]; [reflexivity|].
  rewrite (H a (or_introl eq_refl)), IH; [reflexivity|]. intros y Hy. apply H. now right.
Qed.
Lemma filter_filter {A} (f g : A -> bool) l : filter g (filter f l) = filter (fun x => f x && g x) l.
Proof.
  induction l as [|x l IH]; cbn [filter]; [reflexivity|].
  destruct (f x) eqn:Ef; cbn [filter andb]; [destruct (g x)|]; now rewrite IH.
Qed.
Lemma len_filter_le {A} (f : A -> bool) l : len (filter f l) <= len l.
Proof.
  induction l as [|x l IH]; cbn [filter]; [lia|].
  destruct (f x); rewrite ?len_cons; lia.
Qed.
Lemma len_filter_eqb c l : len (filter (fun x => x =? c) l) = countN c l.
Proof.
  induction l as [|x l IH]; cbn [filter countN]; [reflexivity|].
  destruct (x =? c); rewrite ?len_cons, IH; lia.
Qed.
