(* C13: the quad vector builder stores exactly (v mod 4) for every pushed value. *)
From Coq Require Import ZArith Lia ZifyBool ZifyN ZifyNat.
From QwtModel Require Import ListX Consts QVec ListXP NBits ConstsOk.
Arguments N.land : simpl never.
Arguments N.lor : simpl never.
Arguments N.shiftr : simpl never.
Arguments N.div : simpl never.
Arguments N.modulo : simpl never.

Definition sym4 (x : N) : N := x mod 4.
Lemma sym4_lt x : sym4 x < 4.
Proof. unfold sym4. lia. Qed.
Lemma Forall_sym4 vs : Forall (fun x => x < 4) (map sym4 vs).
Proof. apply Forall_forall. intros x Hx. apply in_map_iff in Hx. destruct Hx as (v & <- & _). apply sym4_lt. Qed.

(* builder invariant: [s] = the symbols pushed so far *)
Definition qvb_inv (b : qvec) (s : list N) : Prop :=
  qv_position b = 2 * len s /\
  Forall (fun l => len l = 256) (qv_data b) /\
  len (qv_data b) = (len s + 255) / 256 /\
  exists pad, concat (qv_data b) = s ++ repeat 0 pad.

Lemma qvb_inv_new : qvb_inv qvb_new [].
Proof.
  unfold qvb_inv, qvb_new; cbn [qv_position qv_data]. repeat split.
  - constructor.
  - exists 0%nat. reflexivity.
Qed.

Lemma zero_line_len : len zero_line = 256.
Proof. unfold zero_line. rewrite len_repeat, LINE_SYMS_nat_val. reflexivity. Qed.

Lemma concat_app_last {A} (ls : list (list A)) l : concat (ls ++ [l]) = concat ls ++ l.
Proof. rewrite concat_app. cbn [concat]. now rewrite app_nil_r. Qed.

(* the line that push writes to (a fresh zero line if the last one is full): its slot len s mod 256 is the
   first of the zeros after s *)
Lemma qvb_push_line b s : qvb_inv b s ->
  exists init last pad,
    (if len s mod 256 =? 0 then qv_data b ++ [zero_line] else qv_data b) = init ++ [last] /\
    Forall (fun l => len l = 256) init /\ len last = 256 /\ len init = len s / 256 /\
    concat init ++ last = s ++ repeat 0 (S pad).
Proof.
  intros (_ & Hall & Hlen & pad & Hcat).
  assert (Hclen : len (concat (qv_data b)) = 256 * len (qv_data b)) by (apply len_concat_uniform; exact Hall).
  assert (Hpad : len s + N.of_nat pad = 256 * ((len s + 255) / 256)).
  { rewrite <- Hlen, <- Hclen, Hcat, len_app, len_repeat. reflexivity. }
  destruct (N.eqb_spec (len s mod 256) 0) as [Hz|Hnz].
  - assert (pad = 0%nat) by lia. subst pad. cbn [repeat] in Hcat. rewrite app_nil_r in Hcat.
    exists (qv_data b), zero_line, 255%nat. rewrite Hcat.
    split; [reflexivity|]. split; [exact Hall|]. split; [apply zero_line_len|]. split; [lia|reflexivity].
  - destruct (@exists_last _ (qv_data b)) as (init & last & Ed).
    { intros E. rewrite E in Hlen. change (len []) with 0 in Hlen. lia. }
    rewrite Ed in *. apply Forall_app in Hall. destruct Hall as [Hinit Hlast]. inversion Hlast as [|? ? Hl _]; subst.
    rewrite concat_app_last in Hcat. lens in Hlen.
    exists init, last, (pad - 1)%nat. replace (S (pad - 1)) with pad by lia.
    split; [reflexivity|]. split; [exact Hinit|]. split; [exact Hl|]. split; [lia|exact Hcat].
Qed.

Lemma qvb_push_inv b s x :
  qvb_inv b s -> exists b', qvb_push b x = Val b' /\ qvb_inv b' (s ++ [sym4 x]).
Proof.
  intros H. destruct (qvb_push_line b s H) as (init & last & pad & ED & Hinit & Hl & Hli & Hcat).
  destruct H as (Hpos & _).
  unfold qvb_push. rewrite Hpos, PUSH_LINE_MASK_ok, LINE_MASK_ok, LINE_SHIFT_val, PUSH_POS_STEP_ok.
  change (2 ^ 8 - 1) with 255. rewrite land255.
  replace (2 * len s / 2) with (len s) by lia.
  rewrite ED, last_opt_app. cbn [ounwrap bind]. rewrite set_last_app.
  assert (Hci : len (concat init) = 256 * len init) by (apply len_concat_uniform; exact Hinit).
  set (p := len s mod 256) in *.
  assert (Hsplit : len s = len (concat init) + p) by lia.
  assert (Hlast_p : nthN last p = Some 0).
  { assert (E : nthN (concat init ++ last) (len s) = Some 0).
    { rewrite Hcat, nthN_app2 by lia. rewrite N.sub_diag. reflexivity. }
    rewrite nthN_app2 in E by lia. replace (len s - len (concat init)) with p in E by lia. exact E. }
  eexists; split; [reflexivity|].
  unfold qvb_inv; cbn [qv_position qv_data]. repeat split.
  - lens. lia.
  - apply Forall_app. split; [exact Hinit|]. constructor; [|constructor].
    cbv beta. unfold line_set_symbol. rewrite Hlast_p, setN_len. exact Hl.
  - lens. lia.
  - exists pad. cbv beta. rewrite concat_app_last. unfold line_set_symbol. rewrite Hlast_p.
    rewrite N.lor_0_l, land3.
    assert (E : concat init ++ setN last p (x mod 4) = setN (concat init ++ last) (len s) (x mod 4)).
    { rewrite setN_app2 by lia. do 2 f_equal. lia. }
    rewrite E, Hcat. rewrite setN_app2 by lia. rewrite N.sub_diag, <- app_assoc. reflexivity.
Qed.

Lemma qvb_inv_bind (m : outcome qvec) (k : qvec -> outcome qvec) s t u :
  (exists b1, m = Val b1 /\ qvb_inv b1 (s ++ t)) ->
  (forall b1, qvb_inv b1 (s ++ t) -> exists b2, k b1 = Val b2 /\ qvb_inv b2 ((s ++ t) ++ u)) ->
  exists b2, (let! b1 := m in k b1) = Val b2 /\ qvb_inv b2 (s ++ t ++ u).
Proof. intros (b1 & -> & H1) Hk. rewrite app_assoc. apply Hk, H1. Qed.

Lemma qvb_push_all_inv : forall vs b s, qvb_inv b s ->
  exists b', qvb_push_all b vs = Val b' /\ qvb_inv b' (s ++ map sym4 vs).
Proof.
  induction vs as [|v vs IH]; intros b s H; cbn [qvb_push_all map].
  - exists b. rewrite app_nil_r. auto.
  - apply (qvb_inv_bind _ _ s [sym4 v]); [now apply qvb_push_inv|intros b1; apply IH].
Qed.

Lemma qvb_extend_inv : forall vs b s, qvb_inv b s ->
  exists b', qvb_extend b vs = Val b' /\ qvb_inv b' (s ++ map (fun v => sym4 (as_u8 v)) vs).
Proof.
  induction vs as [|v vs IH]; intros b s H; cbn [qvb_extend map].
  - exists b. rewrite app_nil_r. auto.
  - apply (qvb_inv_bind _ _ s [sym4 (as_u8 v)]); [now apply qvb_push_inv|intros b1; apply IH].
Qed.

Lemma qv_len_inv b s : qvb_inv b s -> qv_len b = len s.
Proof. intros (Hpos & _). unfold qv_len. rewrite QV_LEN_SHIFT_ok, shiftr1, Hpos. lia. Qed.

Lemma qv_is_empty_inv b s : qvb_inv b s -> qv_is_empty b = (len s =? 0).
Proof. intros (Hpos & _). unfold qv_is_empty. rewrite Hpos. lia. Qed.

Lemma qv_get_unchecked_inv b s i a : qvb_inv b s -> nthN s i = Some a -> qv_get_unchecked b i = Val a.
Proof.
  intros (Hpos & Hall & Hlen & pad & Hcat) Hi.
  pose proof (nthN_some_lt _ _ _ Hi) as Hlt.
  unfold qv_get_unchecked. rewrite Hpos.
  replace (i <? 2 * len s / 2) with true by lia. cbn [odebug_assert bind].
  rewrite LINE_SHIFT_val, shiftr8, LINE_MASK_ok, LINE_SHIFT_val. change (2 ^ 8 - 1) with 255. rewrite land255.
  assert (E : nthN (concat (qv_data b)) i = Some a).
  { rewrite Hcat, nthN_app1 by assumption. exact Hi. }
  rewrite (nthN_concat_uniform 256) in E by (try exact Hall; lia).
  unfold uidx, line_get_unchecked, uidx. destruct (nthN (qv_data b) (i / 256)) as [l|]; [|discriminate].
  cbn [bind]. rewrite E. reflexivity.
Qed.

Lemma qv_get_inv b s i : qvb_inv b s -> qv_get b i = Val (nthN s i).
Proof.
  intros H. pose proof H as (Hpos & _). unfold qv_get. rewrite shiftr1, Hpos.
  replace (2 * len s / 2) with (len s) by lia.
  destruct (N.leb_spec (len s) i) as [Hge|Hlt].
  - now rewrite nthN_none.
  - destruct (nthN_lt_some s i Hlt) as (a & Ea). rewrite (qv_get_unchecked_inv b s i a H Ea), Ea. reflexivity.
Qed.

(* iterator: calling next k times from a fresh iterator yields s[0..k) then None forever *)
Lemma qvit_next_inv b s i : qvb_inv b s -> i < 2 ^ 64 - 1 -> qvit_next b i = Val (nthN s i, i + 1).
Proof.
  intros H Hi. unfold qvit_next, oadd. replace (i + 1 <? 2 ^ 64) with true by lia. cbn [bind].
  rewrite (qv_get_inv b s i H). reflexivity.
Qed.

Definition stored (vs : list Z) : list N := map (fun v => Z.to_N (v mod 4)%Z) vs.

(* the two low bits of any integer survive the cast to u8 *)
Lemma stored_eq vs : map (fun v => sym4 (as_u8 v)) vs = stored vs.
Proof. apply map_ext. intros v. unfold sym4, as_u8. lia. Qed.

Theorem qv_from_iter_correct (vs : list Z) :
  exists q, qv_from_iter vs = Val q /\
    qv_len q = len vs /\
    qv_is_empty q = (len vs =? 0) /\
    (forall i, qv_get q i = Val (nthN (stored vs) i)) /\
    (forall i, i < 2 ^ 64 - 1 -> qvit_next q i = Val (nthN (stored vs) i, i + 1)).
Proof.
  destruct (qvb_extend_inv vs qvb_new [] qvb_inv_new) as (q & E & H). cbn [app] in H.
  rewrite stored_eq in H. exists q. split; [exact E|]. repeat split.
  - rewrite (qv_len_inv q _ H). apply len_map.
  - rewrite (qv_is_empty_inv q _ H). unfold stored. now rewrite len_map.
  - intros i. apply qv_get_inv. exact H.
  - intros i Hi. apply qvit_next_inv; assumption.
Qed.

(* any push / extend history: the builder state after it stores the concatenated values *)
Inductive bop := Push (symbol : N) | Extend (vs : list Z).
Definition bop_spec (o : bop) : list N :=
  match o with Push x => [sym4 x] | Extend vs => stored vs end.
Definition bstep (b : qvec) (o : bop) : outcome qvec :=
  match o with Push x => qvb_push b x | Extend vs => qvb_extend b vs end.
Fixpoint brun (b : qvec) (h : list bop) : outcome qvec :=
  match h with [] => Val b | o :: h' => let! b' := bstep b o in brun b' h' end.

Theorem qvb_history_correct (h : list bop) :
  exists q, brun qvb_new h = Val q /\
    let s := concat (map bop_spec h) in
    qv_len (qvb_build q) = len s /\
    qv_is_empty (qvb_build q) = (len s =? 0) /\
    forall i, qv_get (qvb_build q) i = Val (nthN s i).
Proof.
  assert (G : forall h b s, qvb_inv b s -> exists q, brun b h = Val q /\ qvb_inv q (s ++ concat (map bop_spec h))).
  { clear h. intros h. induction h as [|o h' IH]; intros b s Hb; cbn [brun map concat].
    - exists b. rewrite app_nil_r. auto.
    - apply (qvb_inv_bind _ _ s (bop_spec o)); [|intros b1; apply IH].
      destruct o as [x|vs]; cbn [bstep bop_spec]; [now apply qvb_push_inv|].
      rewrite <- stored_eq. now apply qvb_extend_inv. }
  destruct (G h qvb_new [] qvb_inv_new) as (q & E & Hq). cbn [app] in Hq.
  exists q. split; [exact E|]. cbn zeta. unfold qvb_build. repeat split.
  - apply qv_len_inv. exact Hq.
  - apply qv_is_empty_inv. exact Hq.
  - intros i. apply qv_get_inv. exact Hq.
Qed.

(* non-vacuity: a concrete history, evaluated *)
Example qvb_history_example :
  match brun qvb_new [Push 7; Extend [(-1)%Z; 6%Z; 256%Z]; Push 2] with
  | Val q => qv_len q = 5 /\ qv_get q 1 = Val (Some 3) /\ qv_get q 3 = Val (Some 0) /\ qv_get q 5 = Val None
  | Fault _ => False
  end.
Proof. vm_compute. repeat split; reflexivity. Qed.
