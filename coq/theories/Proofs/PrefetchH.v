(* C09: the Huffman-shaped quad wavelet tree with prefetch support.  Level l holds
   only len (Q l seq) symbols, so "position <= length of the first level" is not enough: the
   invariant of the estimation walk is  rs <= re <= (exact position) + (number of levels done),
   because approx_rank can exceed the exact rank by one (pfs_val_le_rank1); the exact positions
   are inside their level (Theory/HuffWM.v) and every level has a slack of 2047 positions
   (npush_slack) while a code has at most 16 fragments. *)
From Coq Require Import ZArith Lia ZifyBool ZifyN ZifyNat.
From QwtModel Require Import ListX Seq Consts RSQ Huff Prefetch ListXP RSQList RSQBuild RSQP.
From QwtModel Require Import WaveletMatrix HuffWM Codes HQWTBridge PrefetchV PrefetchQ.
From QwtModel Require QWTArith.

Section PfsH.
Hypothesis select_in_word_correct : forall w k, w < 2 ^ 64 -> k < 128 ->
  select_in_word w k = Val (match select_spec (bits_of 64 w) 1 k with Some p => p | None => 64 end).
Hypothesis popcount_correct : forall n x, x < 2 ^ N.of_nat n -> popcount x = countN 1 (bits_of n x).

Section Inner.
Variable tab : list pcode.
Variable s : list N.
Hypothesis Htab : len tab < 2 ^ 64.
Hypothesis Hwf : forall x, In x s -> exists c, nthN tab x = Some c /\ code_wf 2 c = true.
Hypothesis Hn : len s < RSQ_MAXN.

Notation dig := (code_dig 2 tab).
Notation clen := (code_clen 2 tab).
Notation QQ l := (Q N 4 dig clen l s).
Notation LV l0 n := (hwm_levels N 4 dig clen l0 n s).
Notation digs l0 n c := (digits_of N dig l0 n c).

Definition hpfs_ok (M : nat) (pfs : list pfsupport) : Prop :=
  forall l, (l < M)%nat -> exists p, nthN pfs (N.of_nat l) = Some p /\ pfs_spec p (map (dig l) (QQ l)).

Lemma hq_pfs_levels_ok : forall k l F, fin_tail tab s l F ->
  exists ps, hq_pfs_levels (QQ l ++ F) tab (2 * (N.of_nat l + 1)) k = Val ps /\
    forall j, (j < k)%nat ->
      exists p, nthN ps (N.of_nat j) = Some p /\ pfs_spec p (map (dig (l + j)) (QQ (l + j)%nat)).
Proof.
  induction k as [|k IH]; intros l F HF.
  - exists []. split; [reflexivity|]. intros j Hj. lia.
  - cbn [hq_pfs_levels].
    rewrite (QWTArith.mapo_val _ (fun a => if (l <? clen a)%nat then Some (dig l a) else None))
      by (intros a Ha; apply (level_digit_val tab s Htab Hwf), (level_seq_in tab s Htab Hwf l F HF a Ha)).
    cbn [bind]. rewrite flat_opt_filter, (level_digits tab s Htab Hwf l F HF).
    assert (HD : Forall (fun x => x < 4) (map (dig l) (QQ l))).
    { apply Forall_forall. intros d Hd. apply in_map_iff in Hd as (x & <- & _).
      pose proof (dig_le3 tab l x). lia. }
    assert (HL : len (map (dig l) (QQ l)) < 2 ^ 43).
    { rewrite len_map. pose proof (Q_len_le N 4 dig (dig_lt tab) clen l s). apply maxn_lt_43. lia. }
    change PFS_SHIFT_HQ with 11.
    destruct (pfs_new_spec select_in_word_correct popcount_correct _ HD HL) as (p & Ep & Hp).
    rewrite Ep. cbn [bind].
    rewrite (part_with_codes_ok tab s Htab Hwf l _ (level_seq_in tab s Htab Hwf l F HF)). cbn [bind].
    destruct (level_next tab s Htab Hwf l F HF) as (F' & HF' & E'). rewrite E'.
    destruct (IH (S l) F' HF') as (ps & E & H).
    replace (2 * (N.of_nat l + 1) + 2) with (2 * (N.of_nat (S l) + 1)) by lia.
    rewrite E. cbn [bind]. exists (p :: ps). split; [reflexivity|].
    exact (nthN_levels_cons (fun l p => pfs_spec p (map (dig l) (QQ l))) p ps l k Hp H).
Qed.

Lemma hq_pfs_new_ok : s <> [] -> let M := N.to_nat (maxN (map pc_len tab) / 2) in
  exists pfs, hq_pfs_new s tab = Val pfs /\ hpfs_ok M pfs.
Proof.
  intros Hne M.
  assert (E : hq_pfs_new s tab = hq_pfs_levels s tab 2 M) by (destruct s; [congruence|reflexivity]).
  rewrite E.
  assert (HT : fin_tail tab s 0 []) by (intros x []).
  destruct (hq_pfs_levels_ok M 0%nat [] HT) as (ps & Eps & H).
  cbn [Q] in Eps. rewrite app_nil_r in Eps. change (2 * (N.of_nat 0 + 1)) with 2 in Eps.
  exists ps. split; [exact Eps|]. intros l Hl. exact (H l Hl).
Qed.

Variables (bsize : N) (qvs : list rsq) (pfs : list pfsupport) (M : nat).
Hypothesis LOK : forall l, (l < M)%nat ->
  exists r, nthN qvs (N.of_nat l) = Some r /\ rsq_spec bsize r (map (dig l) (QQ l)).
Hypothesis POK : hpfs_ok M pfs.

Lemma hq_pfs_walk_ok c code : nthN tab (sym_index c) = Some code ->
  forall n l rs re p i e, (l + n < M)%nat -> rs <= re -> re <= i + e -> e + N.of_nat n <= 2046 ->
  (forall m, (m <= n)%nat -> snd (rank_walk (LV l m) (digs l m c) p i) <= len (QQ (l + m)%nat) /\
                             len (QQ (l + m)%nat) <> 0) ->
  exists rs' re', hq_pfs_walk qvs pfs (pc_content code) (pc_len code - 2 * (N.of_nat l + 1)) rs re (N.of_nat l) n
                  = Val (rs', re') /\ rs' <= re'.
Proof.
  intros Hc. induction n as [|n IH]; intros l rs re p i e HM Hrs Hre He HB.
  - exists rs, re. split; [reflexivity|exact Hrs].
  - cbn [hq_pfs_walk]. rewrite <- (dig_eq tab c code l Hc).
    destruct (LOK l ltac:(lia)) as (r & Er & Hr). unfold idx at 1. rewrite Er. cbn [bind].
    destruct (HB 0%nat ltac:(lia)) as [B0 N0]. cbn [hwm_levels rank_walk snd] in B0.
    rewrite Nat.add_0_r in B0, N0.
    pose proof (dig_le3 tab l c) as Hd3.
    rewrite (rs_occs_u _ _ _ Hr) by exact Hd3. cbn [bind].
    destruct (POK l ltac:(lia)) as (pp & Epp & _ & _ & Hp). unfold idx at 1. rewrite Epp. cbn [bind].
    set (D := map (dig l) (QQ l)) in *. set (d := dig l c) in *.
    assert (HDl : len D = len (QQ l)) by (unfold D; apply len_map).
    rewrite !Hp by lia.
    rewrite (in_bound D rs) by lia. rewrite (in_bound D re) by lia. cbn [bind].
    destruct (LOK (S l) ltac:(lia)) as (r' & Er' & _).
    replace (pc_len code - 2 * (N.of_nat l + 1) - 2) with (pc_len code - 2 * (N.of_nat (S l) + 1)) by lia.
    replace (N.of_nat l + 1) with (N.of_nat (S l)) by lia.
    unfold idx at 1. rewrite Er'. cbn [bind].
    apply (IH (S l) _ _ (loccs_smaller D d + lrank D d p) (loccs_smaller D d + lrank D d i) (e + 1)).
    + lia.
    + pose proof (pfs_val_mono D d rs re Hrs). lia.
    + pose proof (pfs_val_le_rank D d re) as H1.
      pose proof (rk_mono D d (N.min (len D) (re + 1)) (i + (e + 1)) ltac:(lia)) as H2.
      pose proof (rk_lip D d i (e + 1)) as H3.
      unfold loccs_smaller, lrank. unfold rk in H1, H2, H3. lia.
    + lia.
    + intros m Hm. specialize (HB (S m) ltac:(lia)).
      rewrite digits_of_S in HB. cbn [hwm_levels rank_walk] in HB.
      rewrite Nat.add_succ_r in HB. exact HB.
Qed.

Hypothesis Hok : code_wm_ok 2 tab s = true.

Lemma filter_nonempty {A} (f : A -> bool) (l : list A) x : In x l -> f x = true -> len (filter f l) <> 0.
Proof.
  intros Hx Hf. assert (H : In x (filter f l)) by (apply filter_In; now split).
  destruct (filter f l); [contradiction|rewrite len_cons; lia].
Qed.

(* every level a continuing symbol walks through is non empty, and the exact positions are inside *)
Lemma exact_inside c i m : In c s -> i <= len s -> (m < clen c)%nat ->
  snd (rank_walk (LV 0 m) (digs 0 m c) 0 i) <= len (QQ (0 + m)%nat) /\ len (QQ (0 + m)%nat) <> 0.
Proof.
  intros Hc Hi Hm. cbn [Nat.add].
  assert (Hcont : ok_cont N 4 dig clen s c = true) by (apply wm_ok_cont; [exact Hok|exact Hc]).
  pose proof (HQWTBridge.clen_pos tab s Htab Hwf c Hc) as Hpos.
  pose proof (hwm_rank_prefix N 4 dig (dig_lt tab) clen s c Hcont Hpos m i Hm Hi) as H.
  pose proof (hwm_rank_prefix N 4 dig (dig_lt tab) clen s c Hcont Hpos m (len s) Hm (N.le_refl _)) as H'.
  cbv zeta in H, H'. rewrite firstnN_all in H' by lia.
  pose proof (filter_nonempty (pre N dig m c) s c Hc (pre_refl N dig m c)) as Hne.
  split; lia.
Qed.

Lemma hq_pfs_estimate_ok c code i n_levels dec lens : In c s -> code_facts tab c code ->
  (clen c <= M)%nat -> i <= len s ->
  exists v, hq_pfs_estimate (mk_hq (len s) n_levels tab dec qvs lens) pfs c i = Val v.
Proof.
  intros Hc [H1 H2 H3 H4 H5] HcM Hi.
  pose proof (HQWTBridge.clen_pos tab s Htab Hwf c Hc) as Hpos.
  pose proof (clen_eq tab c code H1) as Hcl.
  unfold hq_pfs_estimate. cbn [h_codes h_qvs]. unfold idx at 1. rewrite H1. cbn [bind].
  destruct (LOK 0%nat ltac:(lia)) as (r0 & Er0 & _). change (N.of_nat 0) with 0 in Er0.
  unfold idx at 1. rewrite Er0. cbn [bind].
  replace (N.to_nat (pc_len code / 2 - 1)) with (clen c - 1)%nat by lia.
  destruct (hq_pfs_walk_ok c code H1 (clen c - 1)%nat 0%nat 0 i 0 i 0) as (rs' & re' & E & Hle);
    [lia|lia|lia|lia| |].
  - intros m Hm. apply exact_inside; [exact Hc|exact Hi|lia].
  - change (N.of_nat 0) with 0 in E. change (2 * (0 + 1)) with 2 in E. rewrite E. cbn [bind].
    unfold osub. replace (rs' <=? re') with true by lia. eauto.
Qed.

End Inner.
End PfsH.
