(* C09: the construction loop of PrefetchSupport::new (Model/Prefetch.v, pfs_loop).
   The four sampled bit vectors evolve independently; for one symbol c the vector has
   [npush D] bits and its first K+1 bits contain  rk D c (min (len D) (2048 K + 1)) / 2048  ones. *)
From Coq Require Import ZArith Lia ZifyBool ZifyN ZifyNat.
From QwtModel Require Import ListX Seq Prefetch ListXP RSQList.
Arguments N.min : simpl never.

(* index i of a level of n symbols pushes one bit to every vector *)
Definition pushp (n i : N) : bool := (i mod 2048 =? 0) || (i =? n - 1).

(* number of pushes among the indices below i (i <= n) *)
Definition npush_upto (n i : N) : N :=
  (i + 2047) / 2048 + (if (i =? n) && negb (n =? 0) && negb (n mod 2048 =? 1) then 1 else 0).

(* number of bits of each sampled vector of a level with content D *)
Definition npush (D : list N) : N := npush_upto (len D) (len D).

Lemma npush_formula D :
  npush D = if len D =? 0 then 0 else len D / 2048 + 1 + (if len D mod 2048 <=? 1 then 0 else 1).
Proof.
  unfold npush, npush_upto. rewrite N.eqb_refl.
  destruct (N.eqb_spec (len D) 0) as [E|E]; [rewrite E; reflexivity|].
  destruct (N.eqb_spec (len D mod 2048) 1), (N.leb_spec (len D mod 2048) 1); cbn [negb andb]; lia.
Qed.

Lemma npush_upto_lt n i : i < n -> npush_upto n i = (i + 2047) / 2048.
Proof. intros Hi. unfold npush_upto. replace (i =? n) with false by lia. cbn [andb]. lia. Qed.

Lemma pushp_spec n i : pushp n i = true <-> i mod 2048 = 0 \/ i = n - 1.
Proof. unfold pushp. lia. Qed.

(* the last index n - 1 counts once: as a multiple of 2048 (n mod 2048 = 1) or as the last index *)
Lemma npush_upto_S n i : i < n ->
  npush_upto n (i + 1) = npush_upto n i + (if pushp n i then 1 else 0).
Proof.
  intros Hi. rewrite (npush_upto_lt n i Hi). unfold npush_upto, pushp.
  destruct (N.eqb_spec (i + 1) n) as [<-|Hn].
  - replace (i =? i + 1 - 1) with true by lia. rewrite orb_true_r.
    replace (i + 1 =? 0) with false by lia.
    destruct (N.eqb_spec ((i + 1) mod 2048) 1); cbn [negb andb]; lia.
  - replace (i =? n - 1) with false by lia. rewrite orb_false_r. cbn [andb].
    destruct (N.eqb_spec (i mod 2048) 0); lia.
Qed.

Lemma npush_count_aux n : forall k i, i + N.of_nat k <= n ->
  len (filter (pushp n) (seqN i k)) + npush_upto n i = npush_upto n (i + N.of_nat k).
Proof.
  induction k as [|k IH]; intros i Hk.
  - cbn [seqN filter]. rewrite len_nil. replace (i + N.of_nat 0) with i by lia. lia.
  - cbn [seqN filter]. specialize (IH (i + 1) ltac:(lia)).
    rewrite (npush_upto_S n i) in IH by lia.
    replace (i + N.of_nat (S k)) with (i + 1 + N.of_nat k) by lia.
    destruct (pushp n i); [rewrite len_cons|]; lia.
Qed.
Lemma npush_upto_0 n : npush_upto n 0 = 0.
Proof.
  unfold npush_upto. change ((0 + 2047) / 2048) with 0.
  destruct (N.eqb_spec 0 n) as [<-|]; reflexivity.
Qed.
Lemma npush_count D : npush D = len (filter (pushp (len D)) (seqN 0 (length D))).
Proof.
  pose proof (npush_count_aux (len D) (length D) 0) as H.
  rewrite npush_upto_0 in H. unfold npush.
  replace (0 + N.of_nat (length D)) with (len D) in H by (unfold len; lia).
  rewrite <- H; [lia|unfold len; lia].
Qed.

(* the position i = len D (and everything up to len D + 2046) is below 2048 * npush D *)
Lemma npush_slack D : D <> [] -> len D + 2047 <= 2048 * npush D.
Proof.
  intros HD. rewrite npush_formula.
  assert (len D <> 0) by (destruct D; [congruence|rewrite len_cons; lia]).
  destruct (N.eqb_spec (len D) 0); [lia|].
  destruct (N.leb_spec (len D mod 2048) 1); lia.
Qed.
Lemma npush_le D : npush D <= len D / 2048 + 2.
Proof.
  rewrite npush_formula. destruct (N.eqb_spec (len D) 0); [lia|].
  destruct (N.leb_spec (len D mod 2048) 1); lia.
Qed.
Lemma npush_nil : npush [] = 0.
Proof. reflexivity. Qed.

(* the part of pfs_state that belongs to symbol c: counter, pending flag, reversed vector *)
Record cst := mk_cst { c_cnt : N; c_pend : bool; c_bv : list bool }.

Definition comp_step (n c : N) (st : cst) (i s : N) : cst :=
  let cnt' := if s =? c then c_cnt st + 1 else c_cnt st in
  let pend' := if (s =? c) && ((c_cnt st + 1) mod 2048 =? 0) then true else c_pend st in
  if pushp n i then mk_cst cnt' false (pend' :: c_bv st) else mk_cst cnt' pend' (c_bv st).

Fixpoint comp_loop (n c : N) (st : cst) (i : N) (syms : list N) : cst :=
  match syms with
  | [] => st
  | s :: r => comp_loop n c (comp_step n c st i s) (i + 1) r
  end.

Definition pack (s0 s1 s2 s3 : cst) : pfs_state :=
  mk_pfss [c_cnt s0; c_cnt s1; c_cnt s2; c_cnt s3] [c_pend s0; c_pend s1; c_pend s2; c_pend s3]
          [c_bv s0; c_bv s1; c_bv s2; c_bv s3].

Lemma pfs_step_comp n i s s0 s1 s2 s3 : s < 4 ->
  pfs_step 2048 n (pack s0 s1 s2 s3) i s =
  Val (pack (comp_step n 0 s0 i s) (comp_step n 1 s1 i s) (comp_step n 2 s2 i s) (comp_step n 3 s3 i s)).
Proof.
  intros Hs. assert (E : s = 0 \/ s = 1 \/ s = 2 \/ s = 3) by lia.
  destruct s0 as [k0 b0 r0], s1 as [k1 b1 r1], s2 as [k2 b2 r2], s3 as [k3 b3 r3].
  unfold pfs_step, comp_step, pack, pushp. cbn [c_cnt c_pend c_bv ps_counters ps_bits ps_bvs].
  destruct E as [->|[->|[->| ->]]].
  - change (idx [k0; k1; k2; k3] 0) with (Val k0). cbn [bind].
    destruct ((i mod 2048 =? 0) || (i =? n - 1)); destruct ((k0 + 1) mod 2048 =? 0); reflexivity.
  - change (idx [k0; k1; k2; k3] 1) with (Val k1). cbn [bind].
    destruct ((i mod 2048 =? 0) || (i =? n - 1)); destruct ((k1 + 1) mod 2048 =? 0); reflexivity.
  - change (idx [k0; k1; k2; k3] 2) with (Val k2). cbn [bind].
    destruct ((i mod 2048 =? 0) || (i =? n - 1)); destruct ((k2 + 1) mod 2048 =? 0); reflexivity.
  - change (idx [k0; k1; k2; k3] 3) with (Val k3). cbn [bind].
    destruct ((i mod 2048 =? 0) || (i =? n - 1)); destruct ((k3 + 1) mod 2048 =? 0); reflexivity.
Qed.

Lemma pfs_loop_comp n syms : Forall (fun x => x < 4) syms -> forall i s0 s1 s2 s3,
  pfs_loop 2048 n (pack s0 s1 s2 s3) i syms =
  Val (pack (comp_loop n 0 s0 i syms) (comp_loop n 1 s1 i syms)
            (comp_loop n 2 s2 i syms) (comp_loop n 3 s3 i syms)).
Proof.
  induction 1 as [|s syms Hs HF IH]; intros i s0 s1 s2 s3; [reflexivity|].
  cbn [pfs_loop comp_loop]. rewrite (pfs_step_comp n i s s0 s1 s2 s3 Hs). cbn [bind]. apply IH.
Qed.

Lemma rank1_snoc_le B b J : J <= len B -> rank1_spec (B ++ [b]) J = rank1_spec B J.
Proof.
  intros HJ. unfold rank1_spec. rewrite map_app, !rank_spec_rk. apply rk_app_le.
  rewrite len_map. exact HJ.
Qed.
Lemma rank1_snoc_all B b : rank1_spec (B ++ [b]) (len B + 1) = rank1_spec B (len B) + (if b then 1 else 0).
Proof.
  unfold rank1_spec. rewrite map_app, !rank_spec_rk, rk_app, len_map.
  rewrite (rk_all (map N_of_bool B) 1 (len B + 1)), (rk_all (map N_of_bool B) 1 (len B)) by (rewrite len_map; lia).
  f_equal. replace (len B + 1 - len B) with (0 + 1) by lia. cbn [map]. rewrite rk_cons, rk_nil.
  destruct b; reflexivity.
Qed.
Lemma rank1_le B J : rank1_spec B J <= J.
Proof. unfold rank1_spec. rewrite rank_spec_rk. apply rk_le. Qed.

(* position up to which the counts have been flushed into the vector before index i *)
Definition flushed (i : N) : N := if i =? 0 then 0 else 2048 * ((i - 1) / 2048) + 1.

Lemma flushed_span i : flushed i <= i /\ i + 1 <= flushed i + 2048.
Proof. unfold flushed. destruct (N.eqb_spec i 0); lia. Qed.

Lemma flushed_S i : flushed (i + 1) = 2048 * (i / 2048) + 1.
Proof.
  unfold flushed. replace (i + 1 =? 0) with false by lia. replace (i + 1 - 1) with i by lia. reflexivity.
Qed.

Lemma flushed_push n i : i + 1 < n -> pushp n i = true -> flushed (i + 1) = i + 1.
Proof. intros Hi Hp. apply pushp_spec in Hp. rewrite flushed_S. lia. Qed.

Lemma flushed_nopush n i : pushp n i = false -> flushed (i + 1) = flushed i.
Proof.
  intros Hp. assert (Hm : i mod 2048 <> 0) by (unfold pushp in Hp; lia).
  rewrite flushed_S. unfold flushed. destruct (N.eqb_spec i 0); lia.
Qed.

(* a push at index i closes the prefix of i + 1 symbols *)
Lemma push_covers n i : i < n -> pushp n i = true -> N.min n (2048 * npush_upto n i + 1) = i + 1.
Proof. intros Hi Hp. apply pushp_spec in Hp. rewrite (npush_upto_lt n i Hi). lia. Qed.

(* the pending flag says whether the count has passed a multiple of 2048 since the last flush (a -> b);
   at most 2048 symbols lie between two flushes, so the pushed flag is the whole increase of the quotient *)
Lemma pend_step a b (e : bool) : a <= b ->
  (if e && ((b + 1) mod 2048 =? 0) then true else a / 2048 <? b / 2048) =
  (a / 2048 <? (b + (if e then 1 else 0)) / 2048).
Proof. intros H. destruct e; cbn [andb]; [destruct (N.eqb_spec ((b + 1) mod 2048) 0)|]; lia. Qed.

Lemma quot_step a b : a <= b -> b <= a + 2048 ->
  a / 2048 + (if a / 2048 <? b / 2048 then 1 else 0) = b / 2048.
Proof. intros H1 H2. destruct (N.ltb_spec (a / 2048) (b / 2048)); lia. Qed.

Section Comp.
Variables (D : list N) (c : N).
Notation LEN := (len D).
Notation R := (rk D c).

Definition cinv (i : N) (st : cst) : Prop :=
  c_cnt st = R i /\
  len (c_bv st) = npush_upto LEN i /\
  (forall K, K < npush_upto LEN i -> rank1_spec (rev (c_bv st)) (K + 1) = R (N.min LEN (2048 * K + 1)) / 2048) /\
  (i < LEN -> rank1_spec (rev (c_bv st)) (npush_upto LEN i) = R (flushed i) / 2048) /\
  (i < LEN -> c_pend st = (R (flushed i) / 2048 <? R i / 2048)).

Lemma cinv_init : cinv 0 (mk_cst 0 false []).
Proof.
  unfold cinv. cbn [c_cnt c_pend c_bv rev]. rewrite rk_0.
  rewrite npush_upto_0. split; [reflexivity|]. split; [reflexivity|]. split; [intros K HK; lia|].
  split; intros _; unfold flushed; change (0 =? 0) with true; cbv iota; rewrite ?rk_0; reflexivity.
Qed.

Lemma cinv_step i st s : cinv i st -> i < LEN -> nthN D i = Some s -> cinv (i + 1) (comp_step LEN c st i s).
Proof.
  intros (Hc & Hl & HK & Hd & Hp) Hi Hs. specialize (Hd Hi). specialize (Hp Hi).
  pose proof (rk_succ D c i s Hs) as HS.
  destruct (flushed_span i) as (Hfl & Hsp).
  pose proof (rk_mono D c (flushed i) i Hfl) as Hmono.
  assert (Hlip : R (i + 1) <= R (flushed i) + 2048).
  { pose proof (rk_lip D c (flushed i) (i + 1 - flushed i)) as H.
    replace (flushed i + (i + 1 - flushed i)) with (i + 1) in H by lia. lia. }
  assert (Hcnt : (if s =? c then c_cnt st + 1 else c_cnt st) = R (i + 1))
    by (rewrite Hc, HS; destruct (s =? c); lia).
  assert (Hpend : (if (s =? c) && ((c_cnt st + 1) mod 2048 =? 0) then true else c_pend st) =
                  (R (flushed i) / 2048 <? R (i + 1) / 2048))
    by (rewrite Hc, Hp, HS; apply pend_step; exact Hmono).
  unfold comp_step, cinv. rewrite Hcnt, Hpend, (npush_upto_S LEN i Hi).
  destruct (pushp LEN i) eqn:Epush; cbn [c_cnt c_pend c_bv rev].
  - (* a push: the new last bit brings the ones to R (i + 1) / 2048 *)
    assert (Hall : rank1_spec (rev (c_bv st) ++ [R (flushed i) / 2048 <? R (i + 1) / 2048])
                     (npush_upto LEN i + 1) = R (i + 1) / 2048).
    { rewrite <- Hl, <- (len_rev (c_bv st)), rank1_snoc_all, len_rev, Hl, Hd. apply quot_step; lia. }
    split; [reflexivity|]. split; [rewrite len_cons, Hl; reflexivity|]. split; [|split].
    + intros K HKlt. destruct (N.eq_dec K (npush_upto LEN i)) as [->|Hne].
      * rewrite Hall, (push_covers LEN i Hi Epush). reflexivity.
      * rewrite rank1_snoc_le by (rewrite len_rev, Hl; lia). apply HK. lia.
    + intros Hi1. rewrite Hall, (flushed_push LEN i Hi1 Epush). reflexivity.
    + intros Hi1. rewrite (flushed_push LEN i Hi1 Epush). symmetry. apply N.ltb_irrefl.
  - rewrite N.add_0_r, (flushed_nopush LEN i Epush).
    split; [reflexivity|]. split; [exact Hl|]. split; [exact HK|]. split; intros _; [exact Hd|reflexivity].
Qed.

Lemma cinv_loop : forall rest pre st, D = pre ++ rest -> cinv (len pre) st ->
  cinv LEN (comp_loop LEN c st (len pre) rest).
Proof.
  induction rest as [|s rest IH]; intros pre st E HI.
  - cbn [comp_loop]. rewrite E, app_nil_r. exact HI.
  - cbn [comp_loop].
    assert (Hn : nthN D (len pre) = Some s).
    { rewrite E, nthN_app2 by lia. now rewrite N.sub_diag. }
    assert (Hlt : len pre < LEN) by (rewrite E; lens; lia).
    pose proof (cinv_step (len pre) st s HI Hlt Hn) as HI'.
    replace (len pre + 1) with (len (pre ++ [s])) in * by (lens; lia).
    apply IH; [|exact HI']. now rewrite <- app_assoc.
Qed.

Definition cfinal : cst := comp_loop LEN c (mk_cst 0 false []) 0 D.
Definition cbits : list bool := rev (c_bv cfinal).

Lemma cfinal_len : len (c_bv cfinal) = npush D.
Proof. destruct (cinv_loop D [] _ eq_refl cinv_init) as (_ & Hl & _). exact Hl. Qed.
Lemma cbits_len : len cbits = npush D.
Proof. unfold cbits. rewrite len_rev. exact cfinal_len. Qed.
Lemma cbits_rank K : K < npush D -> rank1_spec cbits (K + 1) = R (N.min LEN (2048 * K + 1)) / 2048.
Proof.
  destruct (cinv_loop D [] _ eq_refl cinv_init) as (_ & _ & HK & _). exact (HK K).
Qed.
End Comp.

Lemma pfs_loop_final D : Forall (fun x => x < 4) D ->
  pfs_loop 2048 (len D) (mk_pfss [0;0;0;0] [false;false;false;false] [[];[];[];[]]) 0 D =
  Val (pack (cfinal D 0) (cfinal D 1) (cfinal D 2) (cfinal D 3)).
Proof.
  intros HF. exact (pfs_loop_comp (len D) D HF 0 (mk_cst 0 false []) (mk_cst 0 false [])
                      (mk_cst 0 false []) (mk_cst 0 false [])).
Qed.
