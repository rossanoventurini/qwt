(* Word-level lemmas for the bit vector model: the state seen as a function from bit
   positions to booleans ([wbit]), the leaf functions of the code on that view. *)
From Coq Require Import ZArith Lia ZifyBool ZifyN ZifyNat.
From QwtModel Require Import ListX Consts Words BitVec ListXP NBits OutcomeP BitsLib.

(* constants extracted from the Rust source *)
Lemma BV_LINE_BITS_val : BV_LINE_BITS = 512. Proof. reflexivity. Qed.
Lemma BV_PUSH_MOD_val : BV_PUSH_MOD = 512. Proof. reflexivity. Qed.
Lemma BV_EXT_ROUND_val : BV_EXT_ROUND = 511. Proof. reflexivity. Qed.
Lemma BV_EXT_DIV_val : BV_EXT_DIV = 512. Proof. reflexivity. Qed.
Lemma BV_SET_SHIFT_val : BV_SET_SHIFT = 9. Proof. reflexivity. Qed.
Lemma BV_SET_MASK_val : BV_SET_MASK = 511. Proof. reflexivity. Qed.
Lemma BV_SETBITS_SHIFT_val : BV_SETBITS_SHIFT = 9. Proof. reflexivity. Qed.
Lemma BV_SETBITS_MOD_val : BV_SETBITS_MOD = 512. Proof. reflexivity. Qed.

Definition word_ok (w : N) : Prop := w < 2 ^ 64.
Definition words_ok (ws : list N) : Prop := Forall word_ok ws.

Lemma word_ok_0 : word_ok 0.
Proof. apply pow2_pos. Qed.

Definition wbit (ws : list N) (j : N) : bool :=
  match nthN ws (j / 64) with Some w => N.testbit w (j mod 64) | None => false end.

Lemma wbit_out ws j : 64 * len ws <= j -> wbit ws j = false.
Proof. intros H. unfold wbit. rewrite nthN_none by lia. reflexivity. Qed.
Lemma wbit_nth ws j w : nthN ws (j / 64) = Some w -> wbit ws j = N.testbit w (j mod 64).
Proof. intros H. unfold wbit. now rewrite H. Qed.
Lemma wbit_word ws i k w : nthN ws i = Some w -> k < 64 -> wbit ws (64 * i + k) = N.testbit w k.
Proof.
  intros H Hk. rewrite (wbit_nth _ _ w); [f_equal; lia|]. now replace ((64 * i + k) / 64) with i by lia.
Qed.
(* position i + j lies in the word of i or in the next one *)
Lemma wbit_add_lo ws i j w : nthN ws (i / 64) = Some w -> i mod 64 + j < 64 ->
  wbit ws (i + j) = N.testbit w (j + i mod 64).
Proof.
  intros H Hj. replace (i + j) with (64 * (i / 64) + (j + i mod 64)) by lia. apply wbit_word; [exact H|lia].
Qed.
Lemma wbit_add_hi ws i j w : nthN ws (i / 64 + 1) = Some w -> 64 <= i mod 64 + j < 128 ->
  wbit ws (i + j) = N.testbit w (j - (64 - i mod 64)).
Proof.
  intros H Hj. replace (i + j) with (64 * (i / 64 + 1) + (j - (64 - i mod 64))) by lia.
  apply wbit_word; [exact H|lia].
Qed.

Lemma wbit_app_zeros ws k j : wbit (ws ++ repeat 0 k) j = wbit ws j.
Proof.
  unfold wbit. rewrite nthN_app. destruct (N.ltb_spec (j / 64) (len ws)) as [H|H]; [reflexivity|].
  rewrite (nthN_none ws) by assumption. rewrite nthN_repeat_gen.
  destruct (_ <? _); [apply N.bits_0|reflexivity].
Qed.
Lemma wbit_setN ws wi w' j : wi < len ws ->
  wbit (setN ws wi w') j = if j / 64 =? wi then N.testbit w' (j mod 64) else wbit ws j.
Proof.
  intros H. unfold wbit. rewrite nthN_setN.
  destruct (N.eqb_spec (j / 64) wi) as [E|E]; cbn [andb]; [|reflexivity].
  destruct (N.ltb_spec wi (len ws)); [reflexivity|lia].
Qed.

Lemma words_ext ws1 ws2 : words_ok ws1 -> words_ok ws2 -> len ws1 = len ws2 ->
  (forall j, wbit ws1 j = wbit ws2 j) -> ws1 = ws2.
Proof.
  intros H1 H2 Hl Hb. apply nthN_ext. intros i.
  destruct (N.ltb_spec i (len ws1)) as [Hi|Hi].
  - destruct (nthN_lt_some ws1 i Hi) as (w1 & E1). destruct (nthN_lt_some ws2 i) as (w2 & E2); [lia|].
    rewrite E1, E2. f_equal. apply N.bits_inj. intros k.
    destruct (N.ltb_spec k 64) as [Hk|Hk].
    + rewrite <- (wbit_word ws1 i k w1), <- (wbit_word ws2 i k w2) by assumption. apply Hb.
    + rewrite (lt_pow2_bits w1 64), (lt_pow2_bits w2 64); auto.
      * apply (Forall_nthN _ _ _ _ H2 E2).
      * apply (Forall_nthN _ _ _ _ H1 E1).
  - rewrite !nthN_none by lia. reflexivity.
Qed.

Lemma len_flat ws : len (concat (map (bits_of 64) ws)) = 64 * len ws.
Proof.
  rewrite (len_concat_uniform 64), len_map; [reflexivity|apply (bits_of_uniform 64)].
Qed.
Lemma nthN_flat ws j :
  nthN (concat (map (bits_of 64) ws)) j = if j <? 64 * len ws then Some (N.b2n (wbit ws j)) else None.
Proof.
  rewrite (nthN_concat_uniform 64); [|reflexivity|apply (bits_of_uniform 64)].
  rewrite nthN_map. unfold wbit.
  destruct (N.ltb_spec j (64 * len ws)) as [H|H].
  - destruct (nthN_lt_some ws (j / 64)) as (w & ->); [lia|]. cbn [option_map].
    rewrite nthN_bits_of. destruct (N.ltb_spec (j mod 64) (N.of_nat 64)); [reflexivity|lia].
  - rewrite nthN_none by lia. reflexivity.
Qed.

Lemma len_bv_abs b : bv_nbits b <= 64 * len (bv_words b) -> len (bv_abs b) = bv_nbits b.
Proof. intros H. unfold bv_abs. rewrite len_map, firstnN_len, len_flat. lia. Qed.
Lemma nthN_bv_abs b j : bv_nbits b <= 64 * len (bv_words b) ->
  nthN (bv_abs b) j = if j <? bv_nbits b then Some (wbit (bv_words b) j) else None.
Proof.
  intros H. unfold bv_abs. rewrite nthN_map, nthN_firstnN, nthN_flat.
  destruct (N.ltb_spec j (bv_nbits b)) as [Hj|Hj]; [|reflexivity].
  destruct (N.ltb_spec j (64 * len (bv_words b))); [|lia]. cbn [option_map]. now rewrite b2n_eqb1.
Qed.

(* the word expression of bvl_set_symbol: clear bit k, then xor in the low bit of sym *)
Lemma set_bit_word w sym k : word_ok w -> k < 64 ->
  let w2 := N.lxor (N.lxor w (N.land w (N.shiftl 1 k))) (N.shiftl (N.land sym 1) k) in
  word_ok w2 /\ forall j, N.testbit w2 j = if j =? k then N.testbit sym 0 else N.testbit w j.
Proof.
  intros Hw Hk w2.
  assert (Hb : forall j, N.testbit w2 j = if j =? k then N.testbit sym 0 else N.testbit w j).
  { intros j. unfold w2. rewrite !N.lxor_spec, N.land_spec, N.shiftl_1_l, N.pow2_bits_eqb.
    destruct (N.eqb_spec j k) as [->|Hne].
    - rewrite N.eqb_refl, andb_true_r, xorb_nilpotent, xorb_false_l.
      rewrite N.shiftl_spec_high' by lia. rewrite N.sub_diag, land1_b2n, testbit_b2n. apply andb_true_r.
    - destruct (N.eqb_spec k j); [congruence|]. rewrite andb_false_r, xorb_false_r.
      destruct (N.ltb_spec j k) as [Hlt|Hge].
      + rewrite N.shiftl_spec_low by assumption. now rewrite xorb_false_r.
      + rewrite N.shiftl_spec_high' by assumption. rewrite land1_b2n, testbit_b2n.
        destruct (N.eqb_spec (j - k) 0); [lia|]. now rewrite andb_false_r, xorb_false_r. }
  split; [|exact Hb].
  apply bits_lt_pow2. intros j Hj. rewrite Hb. destruct (N.eqb_spec j k); [lia|].
  now apply (lt_pow2_bits w 64).
Qed.

(* the word and the bit of position q = 512 * line + p *)
Lemma line_word q : q / 512 * 8 + q mod 512 / 64 = q / 64.
Proof. lia. Qed.
Lemma line_bit q : q mod 512 mod 64 = q mod 64.
Proof. lia. Qed.

Lemma bvl_set_symbol_spec ws q sym : words_ok ws -> q < 64 * len ws ->
  exists ws', bvl_set_symbol ws (q / 512) sym (q mod 512) = Val ws' /\ len ws' = len ws /\ words_ok ws' /\
    forall j, wbit ws' j = if j =? q then N.testbit sym 0 else wbit ws j.
Proof.
  intros Hok Hq. unfold bvl_set_symbol. rewrite BV_LINE_BITS_val.
  destruct (N.ltb_spec (q mod 512) 512) as [_|]; [|lia]. cbn [oassert bind].
  rewrite shiftr6, line_word, line_bit.
  destruct (nthN_lt_some ws (q / 64)) as (w & Ew); [lia|]. unfold idx. rewrite Ew. cbn [bind].
  assert (Hw : word_ok w) by apply (Forall_nthN _ _ _ _ Hok Ew).
  destruct (set_bit_word w sym (q mod 64) Hw) as [Hok2 Hbits]; [lia|].
  eexists; split; [reflexivity|]. split; [apply setN_len|]. split; [now apply Forall_setN|].
  intros j. rewrite wbit_setN by lia. clear -Ew Hbits.
  destruct (N.eqb_spec (j / 64) (q / 64)) as [E|E].
  - rewrite Hbits, (wbit_nth ws j w) by (rewrite E; exact Ew). clear -E.
    destruct (N.eqb_spec (j mod 64) (q mod 64)), (N.eqb_spec j q); try reflexivity; lia.
  - destruct (N.eqb_spec j q) as [->|]; [congruence|reflexivity].
Qed.

Lemma bv_get_bit_slice_spec ws j : j < 64 * len ws -> bv_get_bit_slice ws j = Val (wbit ws j).
Proof.
  intros H. unfold bv_get_bit_slice. rewrite shiftr6, land63.
  destruct (nthN_lt_some ws (j / 64)) as (w & Ew); [lia|]. unfold idx. rewrite Ew. cbn [bind].
  rewrite land1_shiftr_testbit. now rewrite (wbit_nth ws j w).
Qed.
Lemma bv_get_bit_slice_out ws j : 64 * len ws <= j -> bv_get_bit_slice ws j = Fault Panic.
Proof.
  intros H. unfold bv_get_bit_slice. rewrite shiftr6. unfold idx. rewrite nthN_none by lia. reflexivity.
Qed.

Lemma mask_spec n : 1 <= n -> n <= 64 ->
  (if n =? 64 then Val (M64 - 1) else let! s := oshl 64 1 n in osub s 1) = Val (N.ones n).
Proof.
  intros H1 H64. destruct (N.eqb_spec n 64) as [->|Hne]; [reflexivity|].
  unfold oshl. destruct (N.ltb_spec n 64); [|lia]. cbn [bind].
  rewrite N.shiftl_1_l. rewrite N.mod_small by (apply N.pow_lt_mono_r; lia).
  unfold osub. pose proof (pow2_pos n). destruct (N.leb_spec 1 (2 ^ n)); [|lia].
  f_equal. rewrite N.ones_equiv. lia.
Qed.

Lemma bv_get_bits_slice_spec ws i n :
  words_ok ws -> 1 <= n -> n <= 64 -> i + n <= 64 * len ws ->
  exists v, bv_get_bits_slice ws i n = Val v /\ v < 2 ^ n /\
            forall j, j < n -> N.testbit v j = wbit ws (i + j).
Proof.
  intros Hok H1 H64 Hr. unfold bv_get_bits_slice. rewrite shiftr6, land63, mask_spec by assumption.
  cbn [bind].
  destruct (nthN_lt_some ws (i / 64)) as (w & Ew); [lia|]. unfold idx. rewrite Ew. cbn [bind].
  assert (Hw : word_ok w) by apply (Forall_nthN _ _ _ _ Hok Ew).
  destruct (N.leb_spec (i mod 64 + n) 64) as [Hin|Hst].
  - eexists; split; [reflexivity|]. split; [apply land_ones_lt|].
    intros j Hj. rewrite N.land_ones, N.mod_pow2_bits_low, N.shiftr_spec' by assumption.
    symmetry. apply wbit_add_lo; [exact Ew|lia].
  - destruct (nthN_lt_some ws (i / 64 + 1)) as (w' & Ew'); [lia|]. rewrite Ew'. cbn [bind].
    rewrite osub_ok by lia. cbn [bind]. rewrite oshl_ok by lia. cbn [bind].
    eexists; split; [reflexivity|].
    assert (Hb : forall j, N.testbit (N.lor (N.shiftr w (i mod 64))
                   (N.land (N.shiftl w' (64 - i mod 64) mod 2 ^ 64) (N.ones n))) j =
                 if j <? n then wbit ws (i + j) else false).
    { intros j. rewrite N.lor_spec, N.shiftr_spec', N.land_spec.
      destruct (N.ltb_spec j n) as [Hj|Hj].
      - rewrite N.ones_spec_low by assumption. rewrite andb_true_r.
        rewrite N.mod_pow2_bits_low by lia.
        destruct (N.ltb_spec j (64 - i mod 64)) as [Hlo|Hhi].
        + rewrite N.shiftl_spec_low by assumption. rewrite orb_false_r.
          symmetry. apply wbit_add_lo; [exact Ew|lia].
        + rewrite N.shiftl_spec_high' by assumption.
          rewrite (lt_pow2_bits w 64 Hw) by lia. rewrite orb_false_l.
          symmetry. apply wbit_add_hi; [exact Ew'|lia].
      - rewrite N.ones_spec_high by assumption. rewrite andb_false_r, orb_false_r.
        apply (lt_pow2_bits w 64 Hw). lia. }
    split.
    + apply bits_lt_pow2. intros j Hj. rewrite Hb. destruct (N.ltb_spec j n); [lia|reflexivity].
    + intros j Hj. rewrite Hb. destruct (N.ltb_spec j n); [reflexivity|lia].
Qed.

Lemma land1_shiftr_bit0 bits i : N.testbit (N.land (N.shiftr bits i) 1) 0 = N.testbit bits i.
Proof.
  rewrite land1_b2n, testbit_b2n, N.shiftr_spec', N.add_0_l. apply andb_true_r.
Qed.

Lemma bvm_set_bits_loop_spec index bits : forall fuel ws i0,
  words_ok ws -> len ws mod 8 = 0 -> index + i0 + N.of_nat fuel <= 64 * len ws ->
  exists ws', bvm_set_bits_loop ws index bits i0 fuel = Val ws' /\ len ws' = len ws /\ words_ok ws' /\
    forall j, wbit ws' j = if (index + i0 <=? j) && (j <? index + i0 + N.of_nat fuel)
                           then N.testbit bits (j - index) else wbit ws j.
Proof.
  induction fuel as [|fuel IH]; intros ws i0 Hok H8 Hr; cbn [bvm_set_bits_loop].
  - exists ws. repeat split; auto. intros j.
    destruct (N.leb_spec (index + i0) j), (N.ltb_spec j (index + i0 + N.of_nat 0)); cbn [andb]; try reflexivity; lia.
  - rewrite BV_SETBITS_SHIFT_val, BV_SETBITS_MOD_val, shiftr9.
    destruct (N.ltb_spec ((index + i0) / 512 * 8) (len ws)) as [_|Hge]; [|lia]. cbn [bind].
    destruct (bvl_set_symbol_spec ws (index + i0) (N.land (N.shiftr bits i0) 1))
      as (ws1 & E1 & Hl1 & Hok1 & Hb1); [assumption|lia|].
    rewrite E1. cbn [bind].
    destruct (IH ws1 (i0 + 1)) as (ws2 & E2 & Hl2 & Hok2 & Hb2); [assumption|lia|lia|].
    exists ws2. split; [exact E2|]. split; [lia|]. split; [assumption|].
    intros j. rewrite Hb2, Hb1, land1_shiftr_bit0. clear.
    (* the range of the remaining bits is that of this call without its first position *)
    destruct (N.eqb_spec j (index + i0)) as [->|Ej].
    + destruct (N.leb_spec (index + (i0 + 1)) (index + i0)); [lia|].
      destruct (N.leb_spec (index + i0) (index + i0)), (N.ltb_spec (index + i0) (index + i0 + N.of_nat (S fuel)));
        try lia. cbn [andb]. f_equal. lia.
    + destruct (N.leb_spec (index + (i0 + 1)) j), (N.ltb_spec j (index + (i0 + 1) + N.of_nat fuel)),
               (N.leb_spec (index + i0) j), (N.ltb_spec j (index + i0 + N.of_nat (S fuel)));
        cbn [andb]; try reflexivity; lia.
Qed.
