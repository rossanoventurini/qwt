(* The REGENERATED binary code assignment (Gen/FnsCraft2.v: g_craft_wm_codes2, translated statement by statement
   from `craft_wm_codes` of src/binwt/mod.rs) against the hand model Model/Huff.v (craft2 = craft_wm_codes 1) and
   the correctness theorems of Proofs/CraftP.v.  The loops are those of Proofs/CraftLoop.v with fragment size 1;
   here their bodies are read off the generated text.

   Size hypotheses: len freq < 2^63 (the proof uses only that the scratch array, of max(len freq, 2) cells, is
   indexed in usize), sigma + 1 < 2^64 (the code computes sigma + 1 in usize), 40 <= fuel (the generated `while`
   takes at most 33 rounds).  No bound on the code lengths or on the entries of the scratch array is needed:
   whenever the hand model returns, l stays <= 32.

   KNOWN DIFFERENCE (g_craft2_infeasible_111 and the examples after it): the theorems are simulations "hand model
   returns tab -> generated code returns tab"; the converse is FALSE on infeasible length profiles (Kraft sum > 1). *)
From Coq Require Import ZArith Lia ZifyBool ZifyN ZifyNat Sorted Permutation.
From QwtModel Require Import ListX Loops ListXP NBits OutcomeP Huff Codes CraftArith CraftP CraftLoop FnsCraft2.

Lemma omapf_copy {A B} (l : list (A * B)) : omapf (fun '(k, v_) => Val (k, v_)) l = Val l.
Proof.
  induction l as [|[k v] l IH]; cbn [omapf bind]; [reflexivity|]. rewrite IH. reflexivity.
Qed.

(* one iteration of `for r in j..m` (d = m - j): the copy goes to cell d + r >= m *)
Lemma spread2 d l r c : 0 < d -> d * 1 + r < len c ->
  spread 2 d l r c (setN (setN c (d * 1 + r) (nthd c r)) r (N.lor (nthd c r) (N.shiftl 1 l))).
Proof.
  intros Hd Hr. split; [rewrite !setN_len; reflexivity|]. split.
  - intros k Hk. assert (k = 0 \/ k = 1) as [-> | ->] by lia.
    + rewrite N.mul_0_r. apply nthd_setN_same. rewrite setN_len. lia.
    + rewrite nthd_setN_other by lia. rewrite (tagged_last 2). apply nthd_setN_same. lia.
  - intros i Hi. pose proof (Hi 0 eq_refl) as H0. rewrite N.mul_0_r in H0.
    rewrite !nthd_setN_other by (try exact H0; apply Hi; reflexivity). reflexivity.
Qed.

Ltac oside := first [ apply (shl_frag_small 1); [first [apply (land_ones_lt _ 1) | reflexivity] | lia]
                    | rewrite ?setN_len, ?len_map; lia ].

(* the bit reversal `for t in 0..l`, as it stands in the generated function *)
Definition R2 : Type := step (list N * N * N * list N * list N) (list N * list N).
Definition g_revbody (c : list N) (j l : N) : N -> N -> outcome (step N R2) :=
  fun t reversed_code =>
              let! t13 := idx c j in
              let! t14 := oshr 32 t13 t in
              let! t15 := osub l t in
              let! t16 := osub t15 1 in
              let! t17 := oshl 32 (N.land t14 1) t16 in
              let reversed_code := N.lor reversed_code t17 in
              Val (Next reversed_code).

Corollary g_rev_sim c j l cj : idx c j = Val cj -> l <= 32 ->
  for_loop (g_revbody c j l) 0 (N.to_nat (l - 0)) 0 = Val (Done (rev_frags 1 cj l 0 40)).
Proof.
  intros Hc Hl. replace (l - 0) with (l / 1) by (rewrite N.div_1_r, N.sub_0_r; reflexivity).
  apply (rev_sim 1 (or_introl eq_refl) _ cj l (N.mod_1_r l) Hl).
  intros k acc Hk. rewrite N.mul_1_l in *. unfold g_revbody. rewrite Hc. cbn [bind].
  repeat ostep oside. reflexivity.
Qed.

(* any iteration order of the hash map: the code sorts (stably) by length first *)
Theorem g_craft2_sim : forall fuel freq sigma tab,
  len freq < 2 ^ 63 -> sigma + 1 < 2 ^ 64 -> (40 <= fuel)%nat ->
  craft2 (sort_by_snd freq) sigma = Val tab ->
  g_craft_wm_codes2 fuel freq sigma = Val (map pc_content tab, map pc_len tab).
Proof.
  intros fuel freq sigma tab Hlen Hsig Hfuel H.
  unfold g_craft_wm_codes2. cbv zeta. rewrite omapf_copy. cbn [bind].
  rewrite (oadd_ok 64 sigma 1) by lia. cbn [bind].
  set (f := sort_by_snd freq) in *.
  assert (Lf : len f = len freq) by apply len_perm, (sort_by_perm snd).
  unfold craft2, craft_wm_codes in H. rewrite Lf in H.
  set (size := N.max (len freq) 2) in *.
  replace (N.to_nat (len freq - 0)) with (length f) by (unfold len in Lf |- *; lia).
  match goal with |- context [for_loop ?ob 0 (length f) _] =>
    destruct (craft_loop_sim 1 (or_introl eq_refl) ob f size sigma tab) as (fin & EL)
  end; [lia| |exact H|].
  - (* one iteration of the outer loop *)
    intros j carr c l table sym target c' l' cj HR Hjm Hev Hl32 Hpow Hfj EG _ L32' EI Hs. cbv beta iota.
    match goal with |- context [while_loop ?cd ?wb fuel _] =>
      destruct (grow_sim 1 (or_introl eq_refl) cd wb j target size) with (fh := 40%nat) (fg := fuel)
        (carr := carr) (c := c) (l := l) (c' := c') (l' := l') as (carr' & EW & HR')
    end; try assumption.
    + intros carr0 m0 l0. cbv beta iota. rewrite Hfj. reflexivity.
    + (* one iteration of the while loop *)
      intros carr0 c0 l0 c1 HR0 Hjm0 Hm32 Hl0 E0 HL. cbv beta iota. change (2 ^ 1) with 2 in HL.
      match goal with |- context [for_loop ?b j _ carr0] =>
        destruct (expand_sim 1 (or_introl eq_refl) b size carr0 c0 j l0 c1 HR0 Hjm0) as (carr1 & E1 & HR1)
      end; [|exact E0|].
      * (* one iteration of `for r in j..m` *)
        intros Hs2 r cr Hr Hlen0. change (2 ^ 1) with 2 in Hs2. cbv beta. clear - Hlen Hs2 Hr Hlen0 Hl0 Hjm0.
        eexists. split; [repeat ostep oside; reflexivity|].
        rewrite nthd_setN_other by lia. apply spread2; lia.
      * exists carr1. split; [|exact HR1]. rewrite E1. cbn [bind]. cbv iota. clear - HL Hm32 Hjm0 Hl0.
        repeat ostep oside. replace (2 * len c0 - j) with (len c1) by lia. reflexivity.
    + clear - Hfuel. lia.
    + exists carr'. split; [|exact HR']. rewrite EW. cbn [bind]. cbv iota.
      pose proof (crel_idx _ _ _ _ _ HR' EI) as Ecj.
      match goal with |- context [for_loop ?b 0 (N.to_nat (l' - 0)) 0] =>
        change (for_loop b 0 (N.to_nat (l' - 0)) 0) with (for_loop (g_revbody carr' j l') 0 (N.to_nat (l' - 0)) 0)
      end.
      rewrite (g_rev_sim carr' j l' cj Ecj L32'). cbn [bind]. cbv iota. rewrite Hfj. cbn [bind fst].
      clear - Hs. ostep oside. reflexivity.
  - rewrite EL. destruct fin as [[? ?] ?]. reflexivity.
Qed.

(* input already sorted by length: the sort is the identity *)
Theorem g_craft2_core_sim : forall fuel freq sigma tab,
  StronglySorted (fun p q => snd p <= snd q) freq ->
  len freq < 2 ^ 63 -> sigma + 1 < 2 ^ 64 -> (40 <= fuel)%nat ->
  craft2 freq sigma = Val tab ->
  g_craft_wm_codes2 fuel freq sigma = Val (map pc_content tab, map pc_len tab).
Proof.
  intros fuel freq sigma tab HS Hlen Hsig Hfuel H. apply g_craft2_sim; try assumption.
  unfold sort_by_snd. rewrite (sort_by_id snd freq HS). exact H.
Qed.

Lemma craft_input_ok_sort freq sigma :
  NoDup (map fst freq) -> Forall (fun p => fst p <= sigma /\ 0 < snd p) freq -> sigma < 2 ^ 64 ->
  craft_input_ok 1 (sort_by_snd freq) sigma.
Proof.
  intros HN HF Hs. pose proof (sort_by_perm snd freq : Permutation (sort_by_snd freq) freq) as HP.
  split; [left; reflexivity|]. split; [|split; [|split]].
  - apply (Permutation_NoDup (l := map fst freq)); [|exact HN]. apply Permutation_map. now symmetry.
  - rewrite Forall_forall in *. intros p Hp. apply (Permutation_in _ HP) in Hp. specialize (HF p Hp).
    rewrite N.mod_1_r. tauto.
  - apply (sort_by_sorted snd).
  - exact Hs.
Qed.

Theorem g_craft2_end_to_end : forall fuel freq sigma,
  let f := sort_by_snd freq in
  craft_input_ok 1 f sigma -> Forall (fun p => snd p <= 32) f -> craft_fits 1 f (N.max (len f) 2) = true ->
  len freq < 2 ^ 63 -> sigma + 1 < 2 ^ 64 -> (40 <= fuel)%nat ->
  exists tab, g_craft_wm_codes2 fuel freq sigma = Val (map pc_content tab, map pc_len tab) /\
    len tab = sigma + 1 /\
    (forall sym l, In (sym, l) f -> exists c, nthN tab sym = Some c /\ pc_len c = l /\ code_wf 1 c = true) /\
    (forall sym, ~ In sym (map fst f) -> sym <= sigma -> nthN tab sym = Some pc_zero) /\
    code_wm_ok 1 tab (map fst f) = true.
Proof.
  intros fuel freq sigma f Hok H32 Hfit Hlen Hsig Hfuel.
  destruct (craft_total 1 f sigma (N.max (len f) 2) Hok H32 Hfit) as (tab & Ht).
  exists tab. split.
  - apply g_craft2_sim; try assumption.
  - exact (craft_table_ok 1 f sigma _ tab Hok Ht).
Qed.

(* the same with every hypothesis and conclusion about the entries stated on the hash map itself *)
Theorem g_craft2_end_to_end_map : forall fuel freq sigma,
  NoDup (map fst freq) -> Forall (fun p => fst p <= sigma /\ 0 < snd p /\ snd p <= 32) freq ->
  craft_fits 1 (sort_by_snd freq) (N.max (len freq) 2) = true ->
  len freq < 2 ^ 63 -> sigma + 1 < 2 ^ 64 -> (40 <= fuel)%nat ->
  exists tab, g_craft_wm_codes2 fuel freq sigma = Val (map pc_content tab, map pc_len tab) /\
    len tab = sigma + 1 /\
    (forall sym l, In (sym, l) freq -> exists c, nthN tab sym = Some c /\ pc_len c = l /\ code_wf 1 c = true) /\
    (forall sym, ~ In sym (map fst freq) -> sym <= sigma -> nthN tab sym = Some pc_zero) /\
    code_wm_ok 1 tab (map fst (sort_by_snd freq)) = true.
Proof.
  intros fuel freq sigma HN HF Hfit Hlen Hsig Hfuel.
  pose proof (sort_by_perm snd freq : Permutation (sort_by_snd freq) freq) as HP.
  destruct (g_craft2_end_to_end fuel freq sigma) as (tab & HG & R1 & R2 & R3 & R4); try assumption.
  - apply craft_input_ok_sort; [exact HN| |lia]. rewrite Forall_forall in *. intros p Hp. specialize (HF p Hp). tauto.
  - rewrite Forall_forall in *. intros p Hp. apply (Permutation_in _ HP) in Hp. specialize (HF p Hp). tauto.
  - now rewrite (len_perm _ _ HP).
  - exists tab. split; [exact HG|]. split; [exact R1|]. split; [|split; [|exact R4]].
    + intros sym l Hin. apply R2. apply (Permutation_in _ (Permutation_sym HP)). exact Hin.
    + intros sym Hn. apply R3. intros Hin. apply Hn.
      apply (Permutation_in _ (Permutation_map fst HP)). exact Hin.
Qed.

(* feasible profile 1,3,3,3,4,4 (sorted, and in another iteration order of the hash map): generated = hand *)
Example g_craft2_feasible :
  g_craft_wm_codes2 40 [(0,1);(1,3);(2,3);(3,3);(4,4);(5,4)] 5 = Val ([1; 3; 1; 2; 1; 0], [1; 3; 3; 3; 4; 4]) /\
  craft2 [(0,1);(1,3);(2,3);(3,3);(4,4);(5,4)] 5
    = Val [mk_pc 1 1; mk_pc 3 3; mk_pc 1 3; mk_pc 2 3; mk_pc 1 4; mk_pc 0 4].
Proof. split; vm_compute; reflexivity. Qed.
Example g_craft2_feasible_unsorted :
  g_craft_wm_codes2 40 [(3,4);(0,1);(5,4);(1,3);(2,3);(4,3)] 5 = Val ([1; 3; 1; 1; 2; 0], [1; 3; 3; 4; 3; 4]) /\
  craft2 (sort_by_snd [(3,4);(0,1);(5,4);(1,3);(2,3);(4,3)]) 5
    = Val [mk_pc 1 1; mk_pc 3 3; mk_pc 1 3; mk_pc 1 4; mk_pc 2 3; mk_pc 0 4].
Proof. split; vm_compute; reflexivity. Qed.

(* KNOWN DIFFERENCE on infeasible length profiles (Kraft sum > 1):
     lengths 1,1,1: the hand model faults (idx c' 2 on a list of length m = 2); the source reads the zero of the
       untouched scratch entry c[2] and returns a table in which symbols 1 and 2 get the SAME code (0, 1 bit);
     lengths 1,1,2: the same, symbol 2 gets (0, 2 bits), which has the code of symbol 1 as a prefix;
     lengths 1,1,1,2,3: both fault, with different faults: at j = 4 the source has m = 1 and computes 2*m - j
       (usize underflow), the hand model already faulted at j = 2. *)
Example g_craft2_infeasible_111 :
  g_craft_wm_codes2 40 [(0,1);(1,1);(2,1)] 2 = Val ([1; 0; 0], [1; 1; 1]) /\
  craft2 [(0,1);(1,1);(2,1)] 2 = Fault Panic.
Proof. split; vm_compute; reflexivity. Qed.
Example g_craft2_infeasible_112 :
  g_craft_wm_codes2 40 [(0,1);(1,1);(2,2)] 2 = Val ([1; 0; 0], [1; 1; 2]) /\
  craft2 [(0,1);(1,1);(2,2)] 2 = Fault Panic.
Proof. split; vm_compute; reflexivity. Qed.
Example g_craft2_infeasible_11123 :
  g_craft_wm_codes2 40 [(0,1);(1,1);(2,1);(3,2);(4,3)] 4 = Fault Overflow /\
  craft2 [(0,1);(1,1);(2,1);(3,2);(4,3)] 4 = Fault Panic.
Proof. split; vm_compute; reflexivity. Qed.
(* on such inputs the hypothesis craft_fits of the end-to-end theorems is false *)
Example g_craft2_infeasible_unfit : craft_fits 1 [(0,1);(1,1);(2,1)] 3 = false.
Proof. vm_compute. reflexivity. Qed.

Print Assumptions g_craft2_core_sim.
Print Assumptions g_craft2_sim.
Print Assumptions g_craft2_end_to_end.
Print Assumptions g_craft2_end_to_end_map.
Print Assumptions g_rev_sim.
