(* The thin public constructors of the plain binary WaveletTree, regenerated (Gen/FnsWtnew.v): From<Vec<T>>::from and
   FromIterator::from_iter.  Each is `new` on the same sequence with the permuted slice dropped, so the end-to-end
   statement of the regenerated `new` transfers verbatim. *)
From Coq Require Import ZArith Lia.
From QwtModel Require Import ListX Loops Seq Huff.
From QwtModel Require Import FnsWt FnsWtnew FnsWtNewOk.
Open Scope N_scope.

Definition wt_ctor (k : N) (w : N) (seq : list N) :=
  if k =? 0 then (let! r := g_wt_new w seq in Val (snd r)) else if k =? 1 then g_wt_from_vec w seq else g_wt_from_iter w seq.

Lemma wt_ctor_new k w seq : wt_ctor k w seq = let! r := g_wt_new w seq in Val (snd r).
Proof.
  unfold wt_ctor. destruct (k =? 0); [reflexivity|]. unfold g_wt_from_vec, g_wt_from_iter.
  destruct (g_wt_new w seq) as [[s' [[[[[[[[[[[[a b] c] d] e] f] g] h] i] j] k0] l] m]]|]; destruct (k =? 1); reflexivity.
Qed.

Theorem g_wt_ctors_correct : forall k w seq,
  (w = 8 \/ w = 16 \/ w = 32 \/ w = 64 \/ w = 128) -> Forall (fun x => x < 2 ^ w) seq ->
  len seq < RSQBuild.RSQ_MAXN ->
  exists n nl sg data nbits nones meta samples nzeros lens,
    wt_ctor k w seq = Val (n, nl, sg, None, None, None, data, nbits, nones, meta, samples, nzeros, lens) /\
    g_wt_len n = Val (len seq) /\ g_wt_is_empty n = Val (len seq =? 0) /\
    (forall i, g_wt_get w n nl data meta nzeros i = Val (nthN seq i)) /\
    (forall c i, c < 2 ^ w ->
       g_wt_rank w n nl sg data meta nzeros c i
       = Val (if negb (len seq =? 0) && (i <=? len seq) && (c <=? maxN seq) then Some (rank_spec seq c i) else None)) /\
    (forall c k fuel, c < 2 ^ w -> k < 2 ^ 64 -> (N.to_nat (len seq / 4096) + 3 <= fuel)%nat ->
       g_wt_select fuel w n nl sg data nbits meta samples nzeros c k
       = Val (if negb (len seq =? 0) && (c <=? maxN seq) then select_spec seq c k else None)).
Proof.
  intros k w seq Hw HF Hn.
  destruct (g_wt_new_correct w seq Hw HF Hn)
    as (s' & n & nl & sg & data & nbits & nones & meta & samples & nzeros & lens & _ & G & L1 & L2 & _ & Hg & _ & Hr & _ & Hs & _).
  exists n, nl, sg, data, nbits, nones, meta, samples, nzeros, lens.
  split; [rewrite wt_ctor_new, G; reflexivity|]. repeat split; assumption.
Qed.
Print Assumptions g_wt_ctors_correct.
