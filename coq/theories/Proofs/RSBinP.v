(* C06: RSNarrow and RSWide (Model/RSBin.v) answer get / rank / select / n_ones / n_zeros exactly
   like the list specification (Spec/Seq.v), for every well-formed bit vector, without Fault.

   [popcount] and [select_in_word] are used through the two Section hypotheses below (they are
   proved in WordsP.v); after the Section is closed they are explicit premises of the theorems. *)
From Coq Require Import ZArith.
From QwtModel Require Import ListX Seq RSBin RSBinL RSBinB RSBinN RSBinW.

(* [bv_wf] is defined in RSBinB.v (it is needed by the helper files); this is its definition *)
Lemma bv_wf_def (b : bitvec) : bv_wf b <->
  (len (bv_words b) = 8 * ((bv_nbits b + 511) / 512) /\ Forall (fun w => w < 2 ^ 64) (bv_words b) /\
   (forall j, bv_nbits b <= j -> j < 64 * len (bv_words b) -> nthN (concat (map (bits_of 64) (bv_words b))) j = Some 0) /\
   bv_nbits b < 2 ^ 43).
Proof. reflexivity. Qed.

Definition bin_spec (s : list bool) (get : N -> outcome (option bool)) (rank1 rank0 select1 select0 : N -> outcome (option N))
                    (n_ones n_zeros : outcome N) : Prop :=
  (forall i, get i = Val (nthN s i)) /\
  (* the code answers None for every rank query on an EMPTY vector, also for i = 0 *)
  (forall i, rank1 i = Val (if (negb (len s =? 0)) && (i <=? len s) then Some (rank1_spec s i) else None)) /\
  (forall i, rank0 i = Val (if (negb (len s =? 0)) && (i <=? len s) then Some (rank0_spec s i) else None)) /\
  (forall k, k < 2 ^ 64 -> select1 k = Val (select1_spec s k)) /\
  (forall k, k < 2 ^ 64 -> select0 k = Val (select0_spec s k)) /\
  n_ones = Val (countb s) /\ n_zeros = Val (len s - countb s).

Section RSBin.
Hypothesis select_in_word_correct : forall w k, w < 2 ^ 64 -> k < 128 ->
  select_in_word w k = Val (match select_spec (bits_of 64 w) 1 k with Some p => p | None => 64 end).
Hypothesis popcount_correct : forall n x, x < 2 ^ N.of_nat n -> popcount x = countN 1 (bits_of n x).

Let PC : popcount_ok := popcount_correct.
Let SIW : siw_ok := select_in_word_correct.

Theorem rsn_correct : forall bv, bv_wf bv -> exists r, rsn_new bv = Val r /\ rsn_bv r = bv /\
  bin_spec (bv_abs bv) (rsn_get r) (rsn_rank1 r) (rsn_rank0 r) (rsn_select1 r) (rsn_select0 r) (rsn_n_ones r) (rsn_n_zeros r) /\
  (forall i, 0 < len (bv_abs bv) -> i <= len (bv_abs bv) -> rsn_rank1_unchecked r i = Val (rank1_spec (bv_abs bv) i)) /\
  (forall k p, select1_spec (bv_abs bv) k = Some p -> rsn_select_unchecked true r k = Val p) /\
  (forall k p, select0_spec (bv_abs bv) k = Some p -> rsn_select_unchecked false r k = Val p).
Proof.
  intros bv Hwf. destruct (rsn_new_ok PC bv Hwf) as (r & Enew & Hbv & Hdir).
  exists r. split; [exact Enew|]. split; [exact Hbv|]. split; [|split; [|split]].
  - unfold bin_spec. split; [|split; [|split; [|split; [|split; [|split]]]]].
    + intros i. unfold rsn_get. rewrite Hbv. apply bv_get_correct. exact Hwf.
    + apply (rsn_rank1_ok PC bv r Hwf Hbv Hdir).
    + apply (rsn_rank0_ok PC bv r Hwf Hbv Hdir).
    + intros k _. apply (rsn_select1_ok PC SIW bv r Hwf Hbv Hdir).
    + intros k _. apply (rsn_select0_ok PC SIW bv r Hwf Hbv Hdir).
    + apply (rsn_n_ones_ok PC bv r Hwf Hbv Hdir).
    + apply (rsn_n_zeros_ok PC bv r Hwf Hbv Hdir).
  - intros i _ Hi. rewrite (len_abs bv Hwf) in Hi.
    rewrite (rsn_rank1_unchecked_ok PC bv r Hwf Hbv Hdir i Hi), (rank1_abs bv i Hwf Hi). reflexivity.
  - intros k p H. apply (rsn_select_unchecked_ok SIW bv r Hwf Hbv Hdir true k p H).
  - intros k p H. apply (rsn_select_unchecked_ok SIW bv r Hwf Hbv Hdir false k p H).
Qed.

Theorem rsw_correct : forall bv, bv_wf bv -> exists r, rsw_new bv = Val r /\ rsw_bv r = bv /\
  bin_spec (bv_abs bv) (rsw_get r) (rsw_rank1 r) (rsw_rank0 r) (rsw_select1 r) (rsw_select0 r) (rsw_n_ones r) (Val (rsw_n_zeros_q r)) /\
  (forall i, 0 < len (bv_abs bv) -> i <= len (bv_abs bv) -> rsw_rank1_unchecked r i = Val (rank1_spec (bv_abs bv) i) /\ rsw_rank0_unchecked r i = Val (rank0_spec (bv_abs bv) i)) /\
  (forall k p, select1_spec (bv_abs bv) k = Some p -> rsw_select_unchecked true r k = Val p) /\
  (forall k p, select0_spec (bv_abs bv) k = Some p -> rsw_select_unchecked false r k = Val p).
Proof.
  intros bv Hwf. destruct (rsw_new_ok PC bv Hwf) as (r & Enew & Hbv & Hdir & Hnz).
  exists r. split; [exact Enew|]. split; [exact Hbv|]. split; [|split; [|split]].
  - unfold bin_spec. split; [|split; [|split; [|split; [|split; [|split]]]]].
    + intros i. unfold rsw_get. rewrite Hbv. apply bv_get_correct. exact Hwf.
    + apply (rsw_rank1_ok PC bv r Hwf Hbv Hdir Hnz).
    + apply (rsw_rank0_ok PC bv r Hwf Hbv Hdir Hnz).
    + intros k _. apply (rsw_select1_ok PC SIW bv r Hwf Hbv Hdir Hnz).
    + intros k _. apply (rsw_select0_ok PC SIW bv r Hwf Hbv Hdir Hnz).
    + apply (rsw_n_ones_ok bv r Hwf Hbv Hnz).
    + f_equal. apply (rsw_n_zeros_ok bv r Hwf Hnz).
  - intros i _ Hi. rewrite (len_abs bv Hwf) in Hi.
    rewrite (rsw_rank1_unchecked_ok PC bv r Hwf Hbv Hdir Hnz i Hi), (rank1_abs bv i Hwf Hi).
    rewrite (rsw_rank0_unchecked_ok PC bv r Hwf Hbv Hdir Hnz i Hi), (rank0_abs bv i Hwf Hi). split; reflexivity.
  - intros k p H. apply (rsw_select_unchecked_ok PC SIW bv r Hwf Hbv Hdir Hnz true k p H).
  - intros k p H. apply (rsw_select_unchecked_ok PC SIW bv r Hwf Hbv Hdir Hnz false k p H).
Qed.

End RSBin.

(* 1500 bits: multiples of 3, positions = 2 mod 7, and everything after position 1200;
   815 ones, 685 zeros; three 512-bit lines, 24 words *)
Definition ex_bits : list bool :=
  map (fun i => (i mod 3 =? 0) || (i mod 7 =? 2) || (1200 <? i)) (seqN 0 1500).

Example rs_example :
  match bv_from_bools ex_bits with
  | Val bv =>
      bv_nbits bv = 1500 /\ len (bv_words bv) = 24 /\ bv_abs bv = ex_bits /\
      match rsn_new bv, rsw_new bv with
      | Val rn, Val rw =>
          rsn_get rn 3 = Val (Some true) /\ rsw_get rw 4 = Val (Some false) /\ rsw_get rw 1500 = Val None /\
          rsn_rank1 rn 1000 = Val (Some 429) /\ rsw_rank1 rw 1000 = Val (Some 429) /\
          rsn_rank0 rn 1000 = Val (Some 571) /\ rsw_rank0 rw 1000 = Val (Some 571) /\
          rsn_rank1 rn 1500 = Val (Some 815) /\ rsw_rank1 rw 1500 = Val (Some 815) /\
          rsn_rank1 rn 1501 = Val None /\ rsw_rank1 rw 1501 = Val None /\
          rsn_select1 rn 0 = Val (Some 0) /\ rsw_select1 rw 0 = Val (Some 0) /\
          rsn_select1 rn 500 = Val (Some 1167) /\ rsw_select1 rw 500 = Val (Some 1167) /\
          rsn_select1 rn 814 = Val (Some 1499) /\ rsw_select1 rw 814 = Val (Some 1499) /\
          rsn_select1 rn 815 = Val None /\ rsw_select1 rw 815 = Val None /\
          rsn_select0 rn 0 = Val (Some 1) /\ rsw_select0 rw 0 = Val (Some 1) /\
          rsn_select0 rn 400 = Val (Some 701) /\ rsw_select0 rw 400 = Val (Some 701) /\
          rsn_select0 rn 684 = Val (select0_spec ex_bits 684) /\ rsw_select0 rw 684 = Val (select0_spec ex_bits 684) /\
          rsn_select0 rn 685 = Val None /\ rsw_select0 rw 685 = Val None /\
          rsn_n_ones rn = Val 815 /\ rsw_n_ones rw = Val 815 /\
          rsn_n_zeros rn = Val 685 /\ rsw_n_zeros_q rw = 685 /\
          rank1_spec ex_bits 1000 = 429 /\ select1_spec ex_bits 500 = Some 1167 /\ select0_spec ex_bits 400 = Some 701
      | _, _ => False
      end
  | Fault _ => False
  end.
Proof. vm_compute. repeat split; reflexivity. Qed.

Print Assumptions rsn_correct.
Print Assumptions rsw_correct.
