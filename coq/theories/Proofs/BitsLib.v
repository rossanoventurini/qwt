(* Bits of a word: testbit reasoning, [bits_of] as a list, [bits_value],
   popcount and trailing zeros. *)
From Coq Require Import ZArith Lia ZifyBool ZifyN ZifyNat.
From QwtModel Require Import ListX Consts Words BitVec ListXP NBits.
Arguments N.land : simpl never.
Arguments N.lor : simpl never.
Arguments N.lxor : simpl never.
Arguments N.shiftr : simpl never.
Arguments N.shiftl : simpl never.
Arguments N.testbit : simpl never.
Arguments N.div : simpl never.
Arguments N.modulo : simpl never.
Arguments N.pow : simpl never.

Lemma setN_out {A} (l : list A) : forall i v, len l <= i -> setN l i v = l.
Proof.
  intros i v H. apply nthN_ext. intros j. rewrite nthN_setN.
  destruct (N.ltb_spec i (len l)); [lia|]. now rewrite andb_false_r.
Qed.

Lemma b2n_eqb1 b : (N.b2n b =? 1) = b.
Proof. now destruct b. Qed.
Lemma b2n_le1 b : N.b2n b <= 1.
Proof. destruct b; cbn [N.b2n]; lia. Qed.

Lemma land1_shiftr_testbit w p : (N.land (N.shiftr w p) 1 =? 1) = N.testbit w p.
Proof. rewrite land1, <- N.bit0_eqb, N.shiftr_spec'. now rewrite N.add_0_l. Qed.
Lemma land1_b2n x : N.land x 1 = N.b2n (N.testbit x 0).
Proof. rewrite land1. now rewrite N.bit0_mod. Qed.
Lemma testbit_b2n b j : N.testbit (N.b2n b) j = b && (j =? 0).
Proof.
  destruct b; cbn [N.b2n andb].
  - change 1 with (2 ^ 0). rewrite N.pow2_bits_eqb. now rewrite N.eqb_sym.
  - apply N.bits_0.
Qed.

Lemma len_bits_of n x : len (bits_of n x) = N.of_nat n.
Proof. unfold bits_of. now rewrite len_map, len_seqN. Qed.
Lemma bits_of_uniform n ws : Forall (fun l => len l = N.of_nat n) (map (bits_of n) ws).
Proof. apply Forall_map, Forall_forall. intros w _. apply len_bits_of. Qed.
Lemma nthN_bits_of n x j :
  nthN (bits_of n x) j = if j <? N.of_nat n then Some (N.b2n (N.testbit x j)) else None.
Proof.
  unfold bits_of. rewrite nthN_map, nthN_seqN. destruct (j <? N.of_nat n); [|reflexivity].
  cbn [option_map]. now rewrite N.add_0_l.
Qed.
Lemma nthN_bits_of_lt n x j : j < N.of_nat n -> nthN (bits_of n x) j = Some (N.b2n (N.testbit x j)).
Proof. intros H. rewrite nthN_bits_of. destruct (N.ltb_spec j (N.of_nat n)); [reflexivity|lia]. Qed.

(* the value of a list of bits, LSB first *)
Fixpoint bits_value (l : list bool) : N :=
  match l with [] => 0 | b :: r => N.b2n b + 2 * bits_value r end.

Lemma testbit_bits_value l : forall j,
  N.testbit (bits_value l) j = match nthN l j with Some b => b | None => false end.
Proof.
  induction l as [|b l IH]; intros j; cbn [bits_value].
  - apply N.bits_0.
  - rewrite N.add_comm. cbn [nthN]. destruct (N.eqb_spec j 0) as [->|Hj].
    + apply N.testbit_0_r.
    + replace j with (N.succ (N.pred j)) at 1 by lia. rewrite N.testbit_succ_r. apply IH.
Qed.
Lemma bits_value_lt l : bits_value l < 2 ^ len l.
Proof.
  apply bits_lt_pow2. intros j Hj. rewrite testbit_bits_value. now rewrite nthN_none.
Qed.

Definition bools_of (n : N) (x : N) : list bool := map (N.testbit x) (seqN 0 (N.to_nat n)).
Lemma len_bools_of n x : len (bools_of n x) = n.
Proof. unfold bools_of. rewrite len_map, len_seqN. lia. Qed.
Lemma nthN_bools_of n x j : nthN (bools_of n x) j = if j <? n then Some (N.testbit x j) else None.
Proof.
  unfold bools_of. rewrite nthN_map, nthN_seqN. rewrite Nnat.N2Nat.id.
  destruct (j <? n); [|reflexivity]. cbn [option_map]. now rewrite N.add_0_l.
Qed.
Lemma bits_value_bools_of n x : x < 2 ^ n -> bits_value (bools_of n x) = x.
Proof.
  intros H. apply N.bits_inj. intros j. rewrite testbit_bits_value, nthN_bools_of.
  destruct (N.ltb_spec j n); [reflexivity|]. symmetry. now apply (lt_pow2_bits x n).
Qed.

Lemma popcount_double v : popcount (2 * v) = popcount v.
Proof. now destruct v. Qed.
Lemma popcount_succ_double v : popcount (1 + 2 * v) = 1 + popcount v.
Proof. now destruct v. Qed.
Lemma popcount_le_bits : forall (n : nat) x, x < 2 ^ N.of_nat n -> popcount x <= N.of_nat n.
Proof.
  induction n as [|n IH]; intros x Hx.
  - change (2 ^ N.of_nat 0) with 1 in Hx. replace x with 0 by lia. cbn [popcount]. lia.
  - assert (Hh : x / 2 < 2 ^ N.of_nat n).
    { rewrite pow2_of_nat_S in Hx. lia. }
    specialize (IH _ Hh).
    assert (Ex : x = 2 * (x / 2) \/ x = 1 + 2 * (x / 2)) by lia.
    destruct Ex as [Ex | Ex]; rewrite Ex.
    + rewrite popcount_double. lia.
    + rewrite popcount_succ_double. lia.
Qed.
Lemma popcount_le64 w : w < 2 ^ 64 -> popcount w <= 64.
Proof. exact (popcount_le_bits 64 w). Qed.
Lemma popcount_bits_value l : popcount (bits_value l) = countb l.
Proof.
  induction l as [|b l IH]; cbn [bits_value countb]; [reflexivity|].
  destruct b; cbn [N.b2n].
  - now rewrite popcount_succ_double, IH.
  - now rewrite N.add_0_l, popcount_double, IH.
Qed.
Lemma popcount_bools_of n x : x < 2 ^ n -> popcount x = countb (bools_of n x).
Proof. intros H. rewrite <- popcount_bits_value, bits_value_bools_of; auto. Qed.

Lemma bits_of_bools_of n x : bits_of n x = map N.b2n (bools_of (N.of_nat n) x).
Proof. unfold bits_of, bools_of. now rewrite Nnat.Nat2N.id, map_map. Qed.
Lemma countN_b2n l : countN 1 (map N.b2n l) = countb l.
Proof. induction l as [|b l IH]; cbn [map countN countb]; [reflexivity|]. rewrite IH. now destruct b. Qed.

Lemma ctz_pos_spec p : N.testbit (Npos p) (ctz_pos p) = true /\ forall k, k < ctz_pos p -> N.testbit (Npos p) k = false.
Proof.
  induction p as [p IH|p IH|]; cbn [ctz_pos].
  - split; [reflexivity|]. intros k Hk. lia.
  - destruct IH as [IH1 IH2]. split.
    + change (N.pos p~0) with (2 * N.pos p). rewrite N.add_comm, N.add_1_r.
      rewrite N.double_bits_succ. exact IH1.
    + intros k Hk. change (N.pos p~0) with (2 * N.pos p).
      destruct (N.eq_dec k 0) as [->|Hk0]; [apply N.testbit_even_0|].
      replace k with (N.succ (N.pred k)) by lia. rewrite N.double_bits_succ. apply IH2. lia.
  - split; [reflexivity|]. intros k Hk. lia.
Qed.
Lemma ctz_spec x : x <> 0 -> N.testbit x (ctz x) = true /\ forall k, k < ctz x -> N.testbit x k = false.
Proof. destruct x as [|p]; [congruence|]. intros _. apply ctz_pos_spec. Qed.
Lemma ctz_lt x n : x <> 0 -> x < 2 ^ n -> ctz x < n.
Proof.
  intros Hx Hlt. destruct (ctz_spec x Hx) as [H1 _].
  destruct (N.ltb_spec (ctz x) n) as [|Hge]; [assumption|].
  rewrite (lt_pow2_bits x n Hlt _ Hge) in H1. discriminate.
Qed.
