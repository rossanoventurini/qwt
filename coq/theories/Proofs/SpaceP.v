(* C16 / C14: the size model of Model/Space.v.

   C16 ("reported space usage matches the memory actually retained"): for EVERY model state,
   [*_space] (what space_usage_byte() reports) and [*_heap] (the heap bytes kept alive) differ by
   explicit per-component constants only ([*_space_heap], [*_report_close]).

   C14 ("plain trees stay within their stated space overhead"): closed-form bounds on the retained
   heap bytes as a function of the input length, for every input ([*_heap_bound]).
   The length facts come from the construction invariants of RSQBuild.v ([binv]: sample counts,
   [dir_ok]: superblock count), QVecP.v ([qvb_inv]: line count) and PrefetchL.v ([npush]: bits of
   a sampled vector); for RSWide / RSNarrow they are proved here by length-only inductions over
   rsw_loop / rsn_loop (no premise on popcount or select_in_word is needed: popcount w <= 64 is
   proved from the definition). *)
From Coq Require Import ZArith Lia ZifyBool ZifyN ZifyNat.
From QwtModel Require Import ListX Consts QVec RSQ QWT BitVec RSBin DArrayM Prefetch Space.
From QwtModel Require Import ListXP NBits OutcomeP BitsLib QVecP RSQBits RSQWord RSQList RSQBuild RSQP.
From QwtModel Require Import QWTArith QWTBuild QWTP BitVecP RSBinL RSBinB RSBinN RSBinW PrefetchL PrefetchV.
From QwtModel Require BinFinalP.

Lemma sumN_app l1 l2 : sumN (l1 ++ l2) = sumN l1 + sumN l2.
Proof. apply ListXP.sumN_app. Qed.

Lemma sumN_map_add_Forall {A} (P : A -> Prop) (f g : A -> N) (k : N) (l : list A) :
  (forall x, P x -> f x = g x + k) -> Forall P l -> sumN (map f l) = sumN (map g l) + k * len l.
Proof.
  intros H HF. induction HF as [|x l Hx HF IH]; cbn [map sumN]; [lens; lia|].
  rewrite IH, (H x Hx), len_cons. lia.
Qed.

Lemma sumN_map_add {A} (f g : A -> N) (k : N) (l : list A) :
  (forall x, f x = g x + k) -> sumN (map f l) = sumN (map g l) + k * len l.
Proof.
  intros H. apply (sumN_map_add_Forall (fun _ => True)); [intros x _; apply H|].
  apply Forall_forall. trivial.
Qed.

Lemma sumN_map_le {A} (P : A -> Prop) (f : A -> N) (B : N) (l : list A) :
  (forall x, P x -> f x <= B) -> Forall P l -> sumN (map f l) <= B * len l.
Proof.
  intros H HF. induction HF as [|x l Hx HF IH]; cbn [map sumN]; [lens; lia|].
  specialize (H x Hx). rewrite len_cons. lia.
Qed.

Lemma sum_samples_4 (ss : list (list N)) : len ss = 4 ->
  sumN (map (fun s => 16 + 4 * len s) ss) = 64 + 4 * sum_lens ss.
Proof.
  intros H. unfold sum_lens.
  rewrite (sumN_map_add (fun s : list N => 16 + 4 * len s) (fun s => 4 * len s) 16) by (intros; lia).
  rewrite H. clear H. induction ss as [|s ss IH]; cbn [map sumN]; [reflexivity|]. lia.
Qed.

Theorem rsq_space_heap : forall r, len (rs_samples (rsq_rs r)) = 4 -> rsq_space r = rsq_heap r + 144.
Proof.
  intros r H. unfold rsq_space, rsq_heap, qv_space, qv_heap, rss_space, rss_heap.
  rewrite (sum_samples_4 _ H). lia.
Qed.

Theorem rsn_space_heap : forall r, rsn_space r = rsn_heap r + 80.
Proof. intros r. unfold rsn_space, rsn_heap, bv_space, bv_heap. lia. Qed.

(* size_of::<RSWide>() = 88 (measured): n_zeros (8 bytes) is not reported; stated abi-independently *)
Theorem rsw_space_heap : forall r, rsw_space r + 16 = rsw_heap r + 96.
Proof. intros r. unfold rsw_space, rsw_heap, bv_space, bv_heap. lia. Qed.

Lemma inv_space_heap i : inv_space i = inv_heap i + 56.
Proof. unfold inv_space, inv_heap. lia. Qed.

Theorem da_space_heap : forall d,
  da_space d = da_heap d + 32 + 56 + (match da_zeros d with Some _ => 56 | None => 0 end).
Proof.
  intros d. unfold da_space, da_heap, bv_space, bv_heap. rewrite inv_space_heap.
  destruct (da_zeros d) as [z|]; [rewrite inv_space_heap|]; lia.
Qed.

Theorem pfs_space_heap : forall p, pfs_space p = pfs_heap abi64 p.
Proof.
  intros p. unfold pfs_space, pfs_heap. cbn [sz_rsn abi64].
  rewrite (sumN_map_add rsn_space rsn_heap 80) by apply rsn_space_heap. lia.
Qed.

Theorem qwt_space_heap : forall t pfs,
  Forall (fun r => len (rs_samples (rsq_rs r)) = 4) (q_qvs t) ->
  qwt_space t pfs + (match pfs with Some ps => 32 * len ps | None => 0 end) = qwt_heap abi64 t pfs + 16.
Proof.
  intros t pfs HF. unfold qwt_space, qwt_heap. cbn [sz_rsq sz_pfs abi64].
  rewrite (sumN_map_add_Forall _ rsq_space rsq_heap 144 _ rsq_space_heap HF).
  destruct pfs as [ps|]; [rewrite (map_ext _ _ pfs_space_heap)|]; lia.
Qed.

Theorem wt_space_heap : forall t, wt_space false t + 8 * len (w_bvs t) = wt_heap_plain abi64 t + 16.
Proof.
  intros t. unfold wt_space, wt_heap_plain. cbn [sz_rsw abi64].
  rewrite (sumN_map_add rsw_space rsw_heap 80) by (intros r; pose proof (rsw_space_heap r); lia).
  lia.
Qed.

(* the property-level statement: reported and retained differ by explicit constants only *)
Corollary qwt_report_close : forall t pfs inline,
  Forall (fun r => len (rs_samples (rsq_rs r)) = 4) (q_qvs t) -> inline <= 128 ->
  qwt_space t pfs <= qwt_heap abi64 t pfs + inline + 16 /\
  qwt_heap abi64 t pfs + inline <=
    qwt_space t pfs + (match pfs with Some ps => 32 * len ps | None => 0 end) + 128.
Proof.
  intros t pfs inline HF Hi. pose proof (qwt_space_heap t pfs HF) as E. lia.
Qed.

Corollary wt_report_close : forall t inline, inline <= 128 ->
  wt_space false t <= wt_heap_plain abi64 t + inline + 16 /\
  wt_heap_plain abi64 t + inline <= wt_space false t + 16 * len (w_bvs t) + 128.
Proof. intros t inline Hi. pose proof (wt_space_heap t) as E. lia. Qed.

(* H : (let! a := x in ...) = Val _ : case analysis on x, the Fault case closed (used by WrapP.v) *)
Ltac dbind H :=
  match type of H with
  | bind ?x _ = Val _ => let E := fresh "E" in destruct x eqn:E; cbn [bind] in H; [|discriminate H]
  end.

(* number of u32 select samples the four lists hold: per symbol, one entry per 8192 occurrences
   (rounded up, at least one) plus the sentinel *)
Definition sample_entries (s : list N) : N :=
  (N.max 1 ((countN 0 s + 8191) / 8192) + 1) + (N.max 1 ((countN 1 s + 8191) / 8192) + 1) +
  (N.max 1 ((countN 2 s + 8191) / 8192) + 1) + (N.max 1 ((countN 3 s + 8191) / 8192) + 1).

Lemma sample_entries_bound s : 8 <= sample_entries s /\ sample_entries s <= len s / 8192 + 8.
Proof. pose proof (count4_le s). unfold sample_entries. lia. Qed.

Lemma rss_new_samples bsize s r : rss_new bsize s = Val r ->
  exists st sent,
    rsb_loop bsize (mk_rsb 0 [0;0;0;0] [0;0;0;0] [0;0;0;0] [[];[];[];[]] []) s = Val st /\
    rs_samples r = map (fun sl => rev (sent :: (match sl with [] => [0] | _ => sl end))) (b_samples st).
Proof.
  unfold rss_new. intros H. binv H u1 A1. binv H u2 A2. binv H st Est. binv H sbs Esbs. binv H u3 A3.
  injection H as <-. cbn [rs_samples]. eexists st, _. split; [exact Est|reflexivity].
Qed.

Lemma len_final_sample sent (sl : list N) :
  len (rev (sent :: (match sl with [] => [0] | _ => sl end))) = N.max 1 (len sl) + 1.
Proof.
  rewrite len_rev, len_cons. destruct sl as [|x sl]; [reflexivity|]. rewrite !len_cons. lia.
Qed.

Lemma rss_new_lens bsize s r : bsz bsize -> len s < RSQ_MAXN -> Forall (fun x => x < 4) s ->
  rss_new bsize s = Val r ->
  len (rs_superblocks r) = len s / (8 * bsize) + 1 /\ len (rs_samples r) = 4 /\
  sum_lens (rs_samples r) = sample_entries s.
Proof.
  intros Hb Hn HF E. split.
  - destruct (rss_new_ok bsize s Hb Hn HF) as (r' & E' & Hd & _). rewrite E in E'. injection E' as <-. exact Hd.
  - destruct (rss_new_samples bsize s r E) as (st & sent & El & Es).
    assert (Hn43 : len s < 2 ^ 43) by (rewrite RSQ_MAXN_val in Hn; norm_pow; lia).
    destruct (rsb_loop_inv bsize s Hb Hn43 HF) as (st' & El' & Hinv). rewrite El in El'. injection El' as <-.
    destruct Hinv as (_ & _ & _ & _ & (sm & Hsm & Hsamp) & _).
    rewrite Es, Hsm, map_vec4. split; [reflexivity|].
    unfold sum_lens, vec4. cbn [map sumN]. rewrite !len_final_sample.
    destruct (Hsamp 0 ltac:(lia)) as (L0 & _). destruct (Hsamp 1 ltac:(lia)) as (L1 & _).
    destruct (Hsamp 2 ltac:(lia)) as (L2 & _). destruct (Hsamp 3 ltac:(lia)) as (L3 & _).
    rewrite L0, L1, L2, L3. rewrite !rk_all by lia. unfold sample_entries. lia.
Qed.

Lemma rsq_from_qv_heap bsize q s r : bsz bsize -> qvb_inv q s -> Forall (fun x => x < 4) s ->
  len s < RSQ_MAXN -> rsq_from_qv bsize q = Val r ->
  rsq_heap r = 64 * ((len s + 255) / 256) + 64 * (len s / (8 * bsize) + 1) + 4 * sample_entries s /\
  len (rs_samples (rsq_rs r)) = 4.
Proof.
  intros Hb Hq HF Hn E. unfold rsq_from_qv in E. rewrite (qv_symbols_inv q s Hq) in E. cbn [bind] in E.
  binv E rs Ers. injection E as <-. cbn [rsq_rs].
  destruct (rss_new_lens bsize s rs Hb Hn HF Ers) as (H1 & H2 & H3).
  split; [|exact H2]. unfold rsq_heap, qv_heap, rss_heap. cbn [rsq_qv rsq_rs].
  destruct Hq as (_ & _ & Hl & _). rewrite Hl, H1, H3. lia.
Qed.

Lemma rsq_new_inv bsize vs r : rsq_new bsize vs = Val r ->
  exists q, qvb_inv q (map sym4 vs) /\ rsq_from_qv bsize q = Val r.
Proof.
  unfold rsq_new. intros E.
  destruct (qvb_push_all_inv (map (fun v => v mod 256) vs) qvb_new [] qvb_inv_new) as (q & Eq & Hq).
  rewrite Eq in E. cbn [bind app] in *.
  assert (Es : map sym4 (map (fun v => v mod 256) vs) = map sym4 vs).
  { rewrite map_map. apply map_ext. intros v. unfold sym4. lia. }
  rewrite Es in Hq. exists q. split; assumption.
Qed.

Theorem rsq_heap_exact : forall bsize vs r, (bsize = 256 \/ bsize = 512) -> len vs < RSQ_MAXN ->
  rsq_new bsize vs = Val r ->
  rsq_heap r = 64 * ((len vs + 255) / 256) + 64 * (len vs / (8 * bsize) + 1) + 4 * sample_entries (map sym4 vs) /\
  len (rs_samples (rsq_rs r)) = 4.
Proof.
  intros bsize vs r Hb Hn E. destruct (rsq_new_inv bsize vs r E) as (q & Hq & Eq).
  pose proof (rsq_from_qv_heap bsize q (map sym4 vs) r Hb Hq (Forall_sym4 vs)) as H.
  rewrite len_map in H. apply H; assumption.
Qed.

(* one level: 2 bits per symbol in 64-byte lines, one 64-byte superblock record per 8 blocks,
   4-byte select samples every 8192 occurrences (4 lists, each with a first entry and a sentinel) *)
Theorem rsq_heap_bound : forall bsize vs r, (bsize = 256 \/ bsize = 512) -> len vs < RSQ_MAXN ->
  rsq_new bsize vs = Val r ->
  rsq_heap r <= len vs / 4 + 64 + (len vs / (8 * bsize) + 1) * 64 + (len vs / 2048 + 32).
Proof.
  intros bsize vs r Hb Hn E. destruct (rsq_heap_exact bsize vs r Hb Hn E) as (-> & _).
  pose proof (sample_entries_bound (map sym4 vs)) as (_ & Hs). rewrite len_map in Hs.
  destruct Hb as [-> | ->]; lia.
Qed.

Definition rsq_level_bytes (bsize n : N) : N :=
  64 * ((n + 255) / 256) + 64 * (n / (8 * bsize) + 1) + 4 * (n / 8192 + 8).

Definition level_ok (bsize n : N) (r : rsq) : Prop :=
  rsq_heap r <= rsq_level_bytes bsize n /\ len (rs_samples (rsq_rs r)) = 4.

Lemma rsq_from_qv_level bsize q s r : bsz bsize -> qvb_inv q s -> Forall (fun x => x < 4) s ->
  len s < RSQ_MAXN -> rsq_from_qv bsize q = Val r -> level_ok bsize (len s) r.
Proof.
  intros Hb Hq HF Hn E. destruct (rsq_from_qv_heap bsize q s r Hb Hq HF Hn E) as (H1 & H2).
  split; [|exact H2]. rewrite H1. unfold rsq_level_bytes.
  pose proof (sample_entries_bound s). lia.
Qed.

(* For the sizes only the lengths matter: every level is built from a list of digits below 4 that is
   as long as the input, whatever the shifts are. *)
Lemma two_bits_lt4 w x sh d : two_bits w x sh = Val d -> d < 4.
Proof. unfold two_bits. intros E. binv E y Ey. injection E as <-. pose proof (land3_le (y mod 2 ^ 64)). lia. Qed.

Lemma digits_ok w shift seq ds : mapo (fun a => two_bits w a shift) seq = Val ds ->
  Forall (fun d => d < 4) ds /\ len ds = len seq.
Proof.
  apply (mapo_Forall _ (fun _ => True)); [intros x d _; apply two_bits_lt4|apply Forall_forall; trivial].
Qed.

Lemma stable_partition_len w seq shift seq' : stable_partition_of_4 w seq shift = Val seq' -> len seq' = len seq.
Proof.
  unfold stable_partition_of_4. intros E. binv E ds Eds. injection E as <-.
  destruct (digits_ok w shift seq ds Eds) as (HF & Hl). clear Eds. revert seq Hl.
  induction HF as [|d ds Hd HF IH]; intros [|x seq] Hl; lens in Hl; try lia; [reflexivity|].
  specialize (IH seq ltac:(lia)). cbn [combine filter fst]. rewrite !len_app, !len_map in *.
  destruct (N.eqb_spec d 0), (N.eqb_spec d 1), (N.eqb_spec d 2), (N.eqb_spec d 3); lens; lia.
Qed.

Lemma rsq_level_ok bsize n : bsz bsize -> n < RSQ_MAXN ->
  forall D q r, Forall (fun d => d < 4) D -> len D = n ->
  qvb_push_all qvb_new D = Val q -> rsq_from_qv bsize q = Val r -> level_ok bsize n r.
Proof.
  intros Hb Hn D q r HD <- Eq Er. destruct (qvb_push_all_inv D qvb_new [] qvb_inv_new) as (q' & Eq' & Hq).
  rewrite Eq in Eq'. injection Eq' as <-. cbn [app] in Hq. rewrite (map_sym4_id _ HD) in Hq.
  exact (rsq_from_qv_level bsize q D r Hb Hq HD Hn Er).
Qed.

Lemma qwt_levels_Forall (P : rsq -> Prop) w bsize n :
  (forall D q r, Forall (fun d => d < 4) D -> len D = n -> qvb_push_all qvb_new D = Val q ->
                 rsq_from_qv bsize q = Val r -> P r) ->
  forall nl seq shift rs, len seq = n -> qwt_levels w bsize seq shift nl = Val rs ->
  len rs = N.of_nat nl /\ Forall P rs.
Proof.
  intros HP. induction nl as [|nl IH]; intros seq shift rs Hn E; cbn [qwt_levels] in E.
  - injection E as <-. split; [reflexivity|constructor].
  - binv E D ED. binv E q Eqv. binv E r Er. binv E seq' Es. binv E rest Erest. injection E as <-.
    destruct (digits_ok w shift seq D ED) as (HD & HlD).
    destruct (IH seq' _ rest ltac:(rewrite (stable_partition_len w seq shift seq' Es); exact Hn) Erest) as (I1 & I2).
    split; [rewrite len_cons, I1; lia|]. constructor; [|exact I2].
    apply (HP D q r); [exact HD|rewrite HlD; exact Hn|exact Eqv|exact Er].
Qed.

Lemma levels_of_nil : levels_of [] = 1.
Proof. reflexivity. Qed.

Lemma qwt_new_levels_heap w bsize seq t : (bsize = 256 \/ bsize = 512) -> len seq < RSQ_MAXN ->
  qwt_new w bsize seq = Val t ->
  len (q_qvs t) = levels_of seq /\ Forall (level_ok bsize (len seq)) (q_qvs t).
Proof.
  intros Hb Hn E. unfold qwt_new in E. destruct seq as [|x0 seq'].
  - binv E d Ed. injection E as <-. cbn [q_qvs]. split; [reflexivity|].
    constructor; [|constructor].
    exact (rsq_from_qv_level bsize qvb_new [] d Hb qvb_inv_new (Forall_nil _) Hn Ed).
  - cbv zeta in E. binv E l1 El1. binv E qvs Eqvs. injection E as <-. cbn [q_qvs].
    destruct (qwt_levels_Forall _ w bsize _ (rsq_level_ok bsize _ Hb Hn) _ _ _ _ eq_refl Eqvs) as (H1 & H2).
    split; [rewrite H1; unfold levels_of; lia|exact H2].
Qed.

Lemma level_bytes_le bsize n : (bsize = 256 \/ bsize = 512) ->
  rsq_level_bytes bsize n + 144 <= n / 4 + n / (bsize / 8) + n / 2048 + 304.
Proof.
  intros Hb. unfold rsq_level_bytes.
  destruct Hb as [-> | ->]; [change (256 / 8) with 32|change (512 / 8) with 64]; lia.
Qed.

(* the tree: L = ceil(bitlen(max)/2) levels; per level (1 + r) * n/4 bytes with r = 1/8 (block 256)
   or 1/16 (block 512), n/2048 bytes of select samples, and 304 bytes of constants
   (144 inline RSQVector + 64 partial line + 64 first superblock + 32 first/sentinel samples) *)
Theorem qwt_heap_bound : forall w bsize seq t, width_ok w -> (bsize = 256 \/ bsize = 512) ->
  Forall (fun x => x < 2 ^ w) seq -> len seq < RSQ_MAXN ->
  qwt_new w bsize seq = Val t ->
  qwt_heap abi64 t None <= levels_of seq * (len seq / 4 + len seq / (bsize / 8) + len seq / 2048 + 304).
Proof.
  intros w bsize seq t Hwok Hb HF Hn E.
  destruct (qwt_new_levels_heap w bsize seq t Hb Hn E) as (H1 & H2).
  unfold qwt_heap. cbn [sz_rsq abi64].
  pose proof (sumN_map_le (level_ok bsize (len seq)) rsq_heap (rsq_level_bytes bsize (len seq)) (q_qvs t)
                (fun r Hr => proj1 Hr) H2) as Hs.
  pose proof (level_bytes_le bsize (len seq) Hb) as Hle. rewrite H1 in *.
  nia.
Qed.

(* the precondition of the reported-vs-retained identity holds for every built tree *)
Corollary qwt_new_space_heap : forall w bsize seq t pfs, width_ok w -> (bsize = 256 \/ bsize = 512) ->
  Forall (fun x => x < 2 ^ w) seq -> len seq < RSQ_MAXN -> qwt_new w bsize seq = Val t ->
  qwt_space t pfs + (match pfs with Some ps => 32 * len ps | None => 0 end) = qwt_heap abi64 t pfs + 16.
Proof.
  intros w bsize seq t pfs Hwok Hb HF Hn E. apply qwt_space_heap.
  destruct (qwt_new_levels_heap w bsize seq t Hb Hn E) as (_ & H2).
  exact (Forall_impl _ (fun r Hr => proj2 Hr) H2).
Qed.

Lemma line_ones_le ws b : words_ok ws -> line_n_ones (line_of ws b) <= 512.
Proof.
  intros Hok. assert (HF : words_ok (line_of ws b)) by (rewrite line_of_window; now apply words_ok_window).
  pose proof (sumN_map_le _ popcount 64 _ popcount_le64 HF) as H.
  assert (len (line_of ws b) <= 8) by (unfold line_of, len; rewrite firstn_length; lia).
  unfold line_n_ones. lia.
Qed.

(* length-only invariant of a select-hint list: one entry per started group of HS, never more *)
Definition hq (HS : N) (s : list N) (h cnt : N) : Prop := len s = h + 1 /\ h <= cnt / HS.

Lemma hq_step HS s h cnt cnt' b : 0 < HS -> hq HS s h cnt -> cnt <= cnt' ->
  hq HS (fst (hint_upd HS s h cnt' b)) (snd (hint_upd HS s h cnt' b)) cnt'.
Proof.
  intros HH (H1 & H2) Hle. assert (cnt / HS <= cnt' / HS) by (apply N.div_le_mono; lia).
  unfold hint_upd, hq. destruct (N.ltb_spec h (cnt' / HS)); cbn [fst snd]; lens; lia.
Qed.

Definition wlens (st : rsw_state) (b : N) : Prop :=
  len (ws_meta st) = b / 8 /\
  hq 8192 (ws_s1 st) (ws_hint1 st) (ws_total st + ws_pop st) /\
  hq 8192 (ws_s0 st) (ws_hint0 st) (ws_zeros st) /\
  ws_total st + ws_pop st + ws_zeros st <= 512 * b.

Lemma wlens_step ws st b : words_ok ws -> wlens st b -> wlens (rsw_line st b (line_of ws b)) (b + 1).
Proof.
  intros Hok (Hm & H1 & H0 & Hs). rewrite rsw_line_eq. cbv zeta.
  pose proof (line_ones_le ws b Hok) as Ho. set (ones := line_n_ones (line_of ws b)) in *.
  unfold wlens. cbn [ws_meta ws_total ws_pop ws_zeros ws_s0 ws_s1 ws_hint0 ws_hint1].
  split; [|split; [|split]].
  - destruct (N.eqb_spec ((b + 1) mod 8) 0); lens; lia.
  - apply (hq_step 8192 _ _ (ws_total st + ws_pop st)); [lia|exact H1|]. destruct (b mod 8 =? 0); lia.
  - apply (hq_step 8192 _ _ (ws_zeros st)); [lia|exact H0|lia].
  - destruct (b mod 8 =? 0); lia.
Qed.

Lemma wlens_final ws nl : words_ok ws -> len ws = 8 * nl ->
  wlens (rsw_loop (mk_rsws [] 0 0 0 0 [0] [0] 0 0) 0 ws (N.to_nat nl)) nl.
Proof.
  intros Hok Hlen.
  pose proof (rsw_loop_inv wlens ws nl Hlen (fun st b _ H => wlens_step ws st b Hok H) (N.to_nat nl) 0
                (mk_rsws [] 0 0 0 0 [0] [0] 0 0)) as H.
  change (8 * 0) with 0 in H. rewrite skipnN_0 in H. apply H; [lia|].
  unfold wlens, hq. cbn [ws_meta ws_total ws_pop ws_zeros ws_s0 ws_s1 ws_hint0 ws_hint1].
  change (0 / 8) with 0. change (len (@nil N)) with 0. change (len [0]) with 1. lia.
Qed.

Lemma rsw_new_lens bv r : bv_wf bv -> rsw_new bv = Val r ->
  rsw_bv r = bv /\
  len (rsw_meta r) = (nlines bv + 7) / 8 + 1 /\
  len (rsw_samples0 r) + len (rsw_samples1 r) <= nlines bv / 16 + 4.
Proof.
  intros Hwf E. pose proof (wf_len bv Hwf) as Hlen. pose proof (wf_ok bv Hwf) as Hok.
  set (nl := nlines bv) in *.
  assert (E8 : len (bv_words bv) / 8 = nl) by lia.
  unfold rsw_new in E. rewrite E8 in E.
  destruct (wlens_final (bv_words bv) nl Hok Hlen) as (Hm & (L1 & B1) & (L0 & B0) & Hs).
  set (st := rsw_loop (mk_rsws [] 0 0 0 0 [0] [0] 0 0) 0 (bv_words bv) (N.to_nat nl)) in *.
  cbv zeta in E. binv E u1 A1. binv E u2 A2. injection E as <-.
  cbn [rsw_bv rsw_meta rsw_samples0 rsw_samples1]. split; [reflexivity|].
  lens. rewrite ?len_rev. split.
  - destruct (N.eqb_spec (nl mod 8) 0); lens; lia.
  - lia.
Qed.

Lemma bv_heap_wf bv : bv_wf bv -> bv_heap bv = 64 * nlines bv.
Proof. intros Hwf. unfold bv_heap. rewrite (wf_len bv Hwf). lia. Qed.

(* RSWide: the bits in 64-byte lines, one u128 per 4096 bits (+ the closing one), usize hints every
   8192 ones / zeros (padding of the last line counted as zeros) *)
Theorem rsw_heap_bound : forall bv r, RSBinB.bv_wf bv -> rsw_new bv = Val r ->
  rsw_heap r <= bv_nbits bv / 8 + 64 + (bv_nbits bv / 4096 + 2) * 16 + (bv_nbits bv / 8192 + 5) * 8.
Proof.
  intros bv r Hwf E. destruct (rsw_new_lens bv r Hwf E) as (Hbv & Hm & Hs).
  unfold rsw_heap. rewrite Hbv, (bv_heap_wf bv Hwf), Hm. unfold nlines in *. lia.
Qed.

Definition nlens (st : rsn_state) (g : N) : Prop :=
  len (ns_pairs st) = 2 * (g / 8) + 1 /\
  hq 1024 (ns_s1 st) (ns_hint1 st) (ns_next_rank st) /\
  hq 1024 (ns_s0 st) (ns_hint0 st) (ns_zeros st) /\
  ns_next_rank st + ns_zeros st <= 64 * g.

Lemma nlens_step ws st g w : words_ok ws -> nthN ws g = Some w -> nlens st g -> nlens (rsn_word st g w) (g + 1).
Proof.
  intros Hok Hw (Hp & H1 & H0 & Hs). rewrite rsn_word_eq. cbv zeta.
  assert (Hpc : popcount w <= 64).
  { apply popcount_le64. unfold words_ok in Hok. rewrite Forall_forall in Hok. apply Hok. exact (nthN_In _ _ _ Hw). }
  pose proof (hq_step 1024 _ _ _ (ns_next_rank st + popcount w) (g / 8) ltac:(lia) H1 ltac:(lia)) as H1'.
  pose proof (hq_step 1024 _ _ _ (ns_zeros st + (64 - popcount w)) (g / 8) ltac:(lia) H0 ltac:(lia)) as H0'.
  destruct (N.eqb_spec (g mod 8) 7) as [E7|E7]; unfold nlens;
    cbn [ns_pairs ns_next_rank ns_zeros ns_s0 ns_s1 ns_hint0 ns_hint1];
    (split; [lens; lia|]); (split; [exact H1'|]); (split; [exact H0'|lia]).
Qed.

Lemma nlens_final ws : words_ok ws -> nlens (rsn_loop (mk_rsns [0] 0 0 0 [0] [0] 0 0 0) 0 ws) (len ws).
Proof.
  intros Hok. apply (rsn_loop_inv nlens ws) with (pre := []); [|reflexivity|].
  - intros st g w Hg Hi. now apply (nlens_step ws).
  - unfold nlens, hq. cbn [ns_pairs ns_next_rank ns_zeros ns_s0 ns_s1 ns_hint0 ns_hint1].
    change (len (@nil N)) with 0. change (0 / 8) with 0. change (len [0]) with 1. change (0 / 1024) with 0. lia.
Qed.

Lemma rsn_new_lens bv r : bv_wf bv -> rsn_new bv = Val r ->
  rsn_bv r = bv /\
  len (rsn_pairs r) = 2 * (nlines bv + 1) + (if 0 <? nlines bv mod 8 then 2 else 0) /\
  len (rsn_samples0 r) + len (rsn_samples1 r) <= nlines bv / 2 + 4.
Proof.
  intros Hwf E. pose proof (wf_len bv Hwf) as Hlen. pose proof (wf_ok bv Hwf) as Hok.
  set (nl := nlines bv) in *.
  assert (E8 : len (bv_words bv) / 8 = nl) by lia.
  unfold rsn_new in E. rewrite E8, RSN_BLOCK_SIZE_val in E.
  destruct (nlens_final (bv_words bv) Hok) as (Hp & (L1 & B1) & (L0 & B0) & Hs).
  set (st := rsn_loop (mk_rsns [0] 0 0 0 [0] [0] 0 0 0) 0 (bv_words bv)) in *.
  cbv zeta in E. binv E u1 A1. injection E as <-.
  cbn [rsn_bv rsn_pairs rsn_samples0 rsn_samples1]. split; [reflexivity|].
  lens. rewrite ?len_rev. split.
  - destruct (0 <? nl mod 8); lens; lia.
  - lia.
Qed.

(* RSNarrow: the bits, two u64 per 512-bit block (+ closing pairs), usize hints every 1024 *)
Theorem rsn_heap_bound : forall bv r, RSBinB.bv_wf bv -> rsn_new bv = Val r ->
  rsn_heap r <= bv_nbits bv / 8 + 64 + (bv_nbits bv / 512 + 3) * 16 + (bv_nbits bv / 1024 + 5) * 8.
Proof.
  intros bv r Hwf E. destruct (rsn_new_lens bv r Hwf E) as (Hbv & Hp & Hs).
  unfold rsn_heap. rewrite Hbv, (bv_heap_wf bv Hwf), Hp. unfold nlines in *.
  destruct (0 <? _); lia.
Qed.

(* the loop indexes its four counters by the symbol: it succeeds only on symbols below 4 *)
Lemma pfs_step_counters rate n st i x st' : pfs_step rate n st i x = Val st' ->
  x < len (ps_counters st) /\ len (ps_counters st') = len (ps_counters st).
Proof.
  unfold pfs_step. intros E. binv E k Ek. split; [exact (idx_lt _ _ _ Ek)|].
  destruct ((i mod rate =? 0) || (i =? n - 1)); injection E as <-; cbn [ps_counters]; apply setN_len.
Qed.

Lemma pfs_loop_lt4 rate n : forall syms st i st', len (ps_counters st) = 4 ->
  pfs_loop rate n st i syms = Val st' -> Forall (fun x => x < 4) syms.
Proof.
  induction syms as [|x syms IH]; intros st i st' H4 E; [constructor|]. cbn [pfs_loop] in E. binv E st1 E1.
  destruct (pfs_step_counters rate n st i x st1 E1) as (Hx & Hl). rewrite H4 in *.
  constructor; [exact Hx|exact (IH st1 (i + 1) st' Hl E)].
Qed.

Definition rsn_bytes (m : N) : N := m / 8 + 64 + (m / 512 + 3) * 16 + (m / 1024 + 5) * 8.

Lemma pfs_new_lens D p : len D < 2 ^ 43 -> pfs_new D 11 = Val p ->
  len (pf_samples p) = 4 /\ Forall (fun r => rsn_heap r <= rsn_bytes (len D / 2048 + 2)) (pf_samples p).
Proof.
  intros Hn E. unfold pfs_new in E. change (oshl 64 1 11) with (Val (A := N) 2048) in E. cbn [bind] in E.
  binv E st E0. binv E samples E1. injection E as <-. cbn [pf_samples].
  (* the four vectors are those of PrefetchL.v: [npush D] bits each *)
  assert (HF : Forall (fun x => x < 4) D) by (eapply pfs_loop_lt4; [|exact E0]; reflexivity).
  rewrite (pfs_loop_final D HF) in E0. injection E0 as <-.
  unfold pack in E1. cbn [ps_bvs] in E1.
  destruct (mapo_Forall (fun bv => let! b := bv_from_bools (rev bv) in rsn_new b)
              (fun bv : list bool => len bv <= len D / 2048 + 2)
              (fun r => rsn_heap r <= rsn_bytes (len D / 2048 + 2))) with (3 := E1) as (Q1 & Q2).
  - intros bv r Hl Er. binv Er b E.
    assert (H43 : len D / 2048 + 2 < 2 ^ 43) by (norm_pow; norm_pow in Hn; lia).
    assert (H63 : len (rev bv) < 2 ^ 63) by (rewrite len_rev; norm_pow; norm_pow in H43; lia).
    destruct (bv_from_bools_correct (rev bv) H63) as (b' & Eb & Hinv & Habs).
    rewrite E in Eb. injection Eb as <-.
    assert (Enb : bv_nbits b = len bv) by (rewrite <- (inv_len b Hinv), Habs, len_rev; reflexivity).
    assert (Hwf : RSBinB.bv_wf b) by (apply BinFinalP.bv_inv_wf_rs; [exact Hinv|lia]).
    pose proof (rsn_heap_bound b r Hwf Er) as Hb. fold (rsn_bytes (bv_nbits b)) in Hb. rewrite Enb in Hb.
    unfold rsn_bytes in *. lia.
  - repeat constructor; rewrite cfinal_len; apply npush_le.
  - split; [rewrite Q2; reflexivity|exact Q1].
Qed.

(* prefetch support of one level (sample rate 2^11): four RSNarrow over at most n/2048 + 2 bits each;
   about 0.13% of the level's n/4 bytes, plus a constant (4 * 80 inline + 4 * 152 + rounding) *)
Theorem pfs_heap_bound_sharp : forall D p, len D < 2 ^ 43 -> pfs_new D 11 = Val p ->
  pfs_heap abi64 p <= len D / 3072 + 932.
Proof.
  intros D p Hn E. destruct (pfs_new_lens D p Hn E) as (H4 & HF).
  unfold pfs_heap. cbn [sz_rsn abi64].
  pose proof (sumN_map_le _ rsn_heap _ _ (fun r Hr => Hr) HF) as Hs. rewrite H4 in *.
  unfold rsn_bytes in Hs. lia.
Qed.

Theorem pfs_heap_bound : forall D p, Forall (fun x => x < 4) D -> len D < 2 ^ 43 -> pfs_new D 11 = Val p ->
  pfs_heap abi64 p <= len D / 2048 + 1024.
Proof. intros D p _ Hn E. pose proof (pfs_heap_bound_sharp D p Hn E). lia. Qed.

Lemma qwt_pfs_levels_Forall (P : pfsupport -> Prop) w n :
  (forall D p, len D = n -> pfs_new D PFS_SHIFT = Val p -> P p) ->
  forall nl seq shift ps, len seq = n -> qwt_pfs_levels w seq shift nl = Val ps ->
  len ps = N.of_nat nl /\ Forall P ps.
Proof.
  intros HP. induction nl as [|nl IH]; intros seq shift ps Hn E; cbn [qwt_pfs_levels] in E.
  - injection E as <-. split; [reflexivity|constructor].
  - binv E D ED. binv E p Ep. binv E seq' Es. binv E rest Erest. injection E as <-.
    destruct (digits_ok w shift seq D ED) as (_ & HlD).
    destruct (IH seq' _ rest ltac:(rewrite (stable_partition_len w seq shift seq' Es); exact Hn) Erest) as (I1 & I2).
    split; [rewrite len_cons, I1; lia|]. constructor; [|exact I2].
    apply (HP (map (fun d => d mod 4) D) p); [rewrite len_map, HlD; exact Hn|exact Ep].
Qed.

Lemma qwt_pfs_new_heap w seq ps : len seq < 2 ^ 43 -> qwt_pfs_new w seq = Val ps ->
  len ps <= levels_of seq /\ Forall (fun p => pfs_heap abi64 p <= len seq / 2048 + 1024) ps.
Proof.
  intros Hn E. unfold qwt_pfs_new in E. destruct seq as [|x0 seq'].
  - injection E as <-. split; [rewrite len_nil; lia|constructor].
  - cbv zeta in E. binv E l1 El1.
    destruct (qwt_pfs_levels_Forall (fun p => pfs_heap abi64 p <= len (x0 :: seq') / 2048 + 1024) w (len (x0 :: seq')))
      with (3 := E) as (H1 & H2); [|reflexivity|split; [rewrite H1; unfold levels_of; lia|exact H2]].
    intros D p Hl Ep. rewrite <- Hl in *. pose proof (pfs_heap_bound_sharp D p Hn Ep). lia.
Qed.

(* QWT256Pfs / QWT512Pfs: per level additionally 32 bytes inline + the prefetch support *)
Theorem qwt_pfs_heap_bound : forall w bsize seq t ps, width_ok w -> (bsize = 256 \/ bsize = 512) ->
  Forall (fun x => x < 2 ^ w) seq -> len seq < RSQ_MAXN ->
  qwt_new w bsize seq = Val t -> qwt_pfs_new w seq = Val ps ->
  qwt_heap abi64 t (Some ps) <=
  levels_of seq * (len seq / 4 + len seq / (bsize / 8) + len seq / 2048 + 304 + (len seq / 2048 + 1056)).
Proof.
  intros w bsize seq t ps Hwok Hb HF Hn E Ep.
  pose proof (qwt_heap_bound w bsize seq t Hwok Hb HF Hn E) as H0.
  assert (Hn43 : len seq < 2 ^ 43) by (rewrite RSQ_MAXN_val in Hn; norm_pow; lia).
  destruct (qwt_pfs_new_heap w seq ps Hn43 Ep) as (H1 & H2).
  unfold qwt_heap in *. cbn [sz_rsq sz_pfs abi64] in *.
  pose proof (sumN_map_le _ (pfs_heap abi64) _ ps (fun p Hp => Hp) H2) as Hs.
  nia.
Qed.

Definition sp_input (n : nat) (m : N) : list N := map (fun i => (i * i / 7 + i / 3) mod m) (seqN 0 n).
Definition sp_bits (n : nat) : list bool := map (fun i => (i * i / 5 + i / 3) mod 3 =? 0) (seqN 0 n).

(* 5000 symbols, block 256: 20 lines + 3 superblocks + 8 samples = 1504 bytes retained, 1648 reported;
   the bound of [rsq_heap_bound] is 1540 *)
Example rsq_5000_256 :
  match rsq_new 256 (sp_input 5000 256) with
  | Val r => rsq_heap r = 1504 /\ rsq_space r = 1648 /\
             5000 / 4 + 64 + (5000 / (8 * 256) + 1) * 64 + (5000 / 2048 + 32) = 1540
  | Fault _ => False
  end.
Proof. vm_compute. repeat split; reflexivity. Qed.

(* block 512: 2 superblocks: 1440 retained, 1584 reported, bound 1476 *)
Example rsq_5000_512 :
  match rsq_new 512 (sp_input 5000 256) with
  | Val r => rsq_heap r = 1440 /\ rsq_space r = 1584 /\
             5000 / 4 + 64 + (5000 / (8 * 512) + 1) * 64 + (5000 / 2048 + 32) = 1476
  | Fault _ => False
  end.
Proof. vm_compute. repeat split; reflexivity. Qed.

(* a 3-level tree over 3000 symbols below 50 (u8): 3 * (144 + 928) = 3216 retained, 3232 reported,
   bound 3444; with block 512: 3024 / 3040 / 3303 *)
Definition sp_seq3000 : list N := sp_input 3000 50.
Definition qwt_3000_checks (bsize heap space bound : N) : Prop :=
  match qwt_new 8 bsize sp_seq3000 with
  | Val t =>
      len (q_qvs t) = 3 /\ qwt_heap abi64 t None = heap /\ qwt_space t None = space /\
      3 * (3000 / 4 + 3000 / (bsize / 8) + 3000 / 2048 + 304) = bound
  | Fault _ => False
  end.
Example qwt_3000_levels : levels_of sp_seq3000 = 3.
Proof. vm_compute. reflexivity. Qed.

(* the block-256 tree is built once, for the two examples that measure it *)
Definition sp_qwt3000 : outcome qwt := Eval vm_compute in qwt_new 8 256 sp_seq3000.
Lemma sp_qwt3000_eq : qwt_new 8 256 sp_seq3000 = sp_qwt3000.
Proof. vm_compute. reflexivity. Qed.

Example qwt_3000_256 : qwt_3000_checks 256 3216 3232 3444.
Proof. unfold qwt_3000_checks. rewrite sp_qwt3000_eq. vm_compute. repeat split; reflexivity. Qed.
Example qwt_3000_512 : qwt_3000_checks 512 3024 3040 3303.
Proof. vm_compute. repeat split; reflexivity. Qed.

(* the same tree with prefetch support: + 3 * (32 + 896) bytes; reported + 3 * 896 *)
Example qwt_3000_pfs :
  match qwt_new 8 256 sp_seq3000, qwt_pfs_new 8 sp_seq3000 with
  | Val t, Val ps =>
      len ps = 3 /\ map (pfs_heap abi64) ps = [896; 896; 896] /\
      qwt_heap abi64 t (Some ps) = 6000 /\ qwt_space t (Some ps) = 5920 /\
      3 * (3000 / 4 + 3000 / (256 / 8) + 3000 / 2048 + 304 + (3000 / 2048 + 1056)) = 6615
  | _, _ => False
  end.
Proof. rewrite sp_qwt3000_eq. vm_compute. repeat split; reflexivity. Qed.

(* 5000 bits: RSWide 720 retained / 800 reported / bound 777; RSNarrow 896 / 976 / 953 *)
Example rsbin_5000 :
  match bv_from_bools (sp_bits 5000) with
  | Val bv =>
      match rsw_new bv, rsn_new bv with
      | Val rw, Val rn =>
          rsw_heap rw = 720 /\ rsw_space rw = 800 /\
          5000 / 8 + 64 + (5000 / 4096 + 2) * 16 + (5000 / 8192 + 5) * 8 = 777 /\
          rsn_heap rn = 896 /\ rsn_space rn = 976 /\
          5000 / 8 + 64 + (5000 / 512 + 3) * 16 + (5000 / 1024 + 5) * 8 = 953
      | _, _ => False
      end
  | Fault _ => False
  end.
Proof. vm_compute. repeat split; reflexivity. Qed.

(* the RSWide bound is attained: 7681 zero bits (15 full lines + 1 bit; the padding of the 16th line
   completes 8192 counted zeros) *)
Example rsw_bound_attained :
  match bv_from_bools (repeat false (N.to_nat 7681)) with
  | Val bv => match rsw_new bv with
              | Val rw => rsw_heap rw = 1112 /\
                          7681 / 8 + 64 + (7681 / 4096 + 2) * 16 + (7681 / 8192 + 5) * 8 = 1112
              | Fault _ => False
              end
  | Fault _ => False
  end.
Proof. vm_compute. split; reflexivity. Qed.

(* the one-level bounds are attained at n = 1 (rsq: 64 + 64 + 32 = 160) *)
Example rsq_bound_attained :
  match rsq_new 256 [3] with
  | Val r => rsq_heap r = 160 /\ 1 / 4 + 64 + (1 / (8 * 256) + 1) * 64 + (1 / 2048 + 32) = 160
  | Fault _ => False
  end.
Proof. vm_compute. split; reflexivity. Qed.

Print Assumptions rsq_space_heap.
Print Assumptions rsn_space_heap.
Print Assumptions rsw_space_heap.
Print Assumptions da_space_heap.
Print Assumptions pfs_space_heap.
Print Assumptions qwt_space_heap.
Print Assumptions wt_space_heap.
Print Assumptions qwt_report_close.
Print Assumptions wt_report_close.
Print Assumptions qwt_new_space_heap.
Print Assumptions rsq_heap_exact.
Print Assumptions rsq_heap_bound.
Print Assumptions qwt_heap_bound.
Print Assumptions rsw_heap_bound.
Print Assumptions rsn_heap_bound.
Print Assumptions pfs_heap_bound_sharp.
Print Assumptions pfs_heap_bound.
Print Assumptions qwt_pfs_heap_bound.
Print Assumptions rsq_5000_256.
Print Assumptions rsq_5000_512.
Print Assumptions qwt_3000_levels.
Print Assumptions qwt_3000_256.
Print Assumptions qwt_3000_512.
Print Assumptions qwt_3000_pfs.
Print Assumptions rsbin_5000.
Print Assumptions rsw_bound_attained.
Print Assumptions rsq_bound_attained.
