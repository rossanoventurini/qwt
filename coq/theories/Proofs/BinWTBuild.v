(* Construction of one level of the binary wavelet tree (bv_from_bools then rsw_new give an
   RSWide vector satisfying [lvl_spec], by BitVecP.v and RSBinP.v) and of all the levels of the
   plain tree: level l stores the digits [bD L l] of the generic wavelet matrix (arity 2, digit
   [bdig L]). *)
From Coq Require Import ZArith Lia ZifyBool ZifyN ZifyNat.
From QwtModel Require Import ListX Seq QWT BitVec RSBin Huff ListXP NBits RSQBuild RSBinL RSBinB RSBinP BitVecP.
From QwtModel Require Import WaveletMatrix QWTArith BinWTBase.
From QwtModel Require BinFinalP.

Lemma flat_some {A B} (g : A -> B) l :
  flat_map (fun o : option B => match o with Some d => [d] | None => [] end) (map (fun s => Some (g s)) l) =
  map g l.
Proof. induction l as [|a l IH]; cbn [map flat_map app]; [reflexivity|]. now rewrite IH. Qed.

Definition bools (D : list N) : list bool := map (fun d => d =? 1) D.

Lemma len_bools D : len (bools D) = len D.
Proof. apply len_map. Qed.

(* the invariant of a built tree, both flavours: [Ds l] is the 0/1 digit list of level l *)
Definition btree_ok (Ds : nat -> list N) (M : nat) (bvs : list rswide) (lens : list N) : Prop :=
  forall l, (l < M)%nat ->
    (exists r, nthN bvs (N.of_nat l) = Some r /\ lvl_spec r (Ds l)) /\
    nthN lens (N.of_nat l) = Some (len (Ds l)).

Lemma btree_ok_cons (Ds : nat -> list N) l0 n r rs ln lens :
  lvl_spec r (Ds l0) -> ln = len (Ds l0) ->
  btree_ok (fun j => Ds (S l0 + j)%nat) n rs lens ->
  btree_ok (fun j => Ds (l0 + j)%nat) (S n) (r :: rs) (ln :: lens).
Proof.
  intros Hr Hln HT j Hj. destruct j as [|j].
  - rewrite Nat.add_0_r. change (N.of_nat 0) with 0. rewrite !nthN_0. split; [eauto|now rewrite Hln].
  - replace (N.of_nat (S j)) with (N.of_nat j + 1) by lia. rewrite !nthN_succ.
    replace (l0 + S j)%nat with (S l0 + j)%nat by lia. apply HT. lia.
Qed.

Lemma list_eq_map_seq {B} (f : nat -> B) : forall (l : list B) M l0, length l = M ->
  (forall j, (j < M)%nat -> nthN l (N.of_nat j) = Some (f (l0 + j)%nat)) -> l = map f (seq l0 M).
Proof.
  induction l as [|x l IH]; intros M l0 HL H.
  - cbn [length] in HL. subst M. reflexivity.
  - cbn [length] in HL. subst M. cbn [seq map]. f_equal.
    + pose proof (H 0%nat ltac:(lia)) as H0. change (N.of_nat 0) with 0 in H0. rewrite nthN_0, Nat.add_0_r in H0.
      congruence.
    + apply IH; [reflexivity|]. intros j Hj. specialize (H (S j) ltac:(lia)).
      replace (N.of_nat (S j)) with (N.of_nat j + 1) in H by lia. rewrite nthN_succ in H.
      now rewrite Nat.add_succ_r in H.
Qed.

Lemma btree_ok_lens (Ds : nat -> list N) M bvs lens : length lens = M -> btree_ok Ds M bvs lens ->
  lens = map (fun l => len (Ds l)) (seq 0 M).
Proof.
  intros HL HT. apply list_eq_map_seq; [exact HL|]. intros j Hj. exact (proj2 (HT j Hj)).
Qed.

Lemma wt_levels_length w compressed codes nl : forall k seq shift rs lens,
  wt_levels w compressed seq codes nl shift k = Val (rs, lens) -> length rs = k /\ length lens = k.
Proof.
  induction k as [|k IH]; intros seq shift rs lens H; cbn [wt_levels] in H.
  - injection H as <- <-. split; reflexivity.
  - destruct (mapo _ seq) as [bs|]; cbn [bind] in H; [|discriminate H].
    destruct (bv_from_bools _) as [bv|]; cbn [bind] in H; [|discriminate H].
    destruct (rsw_new bv) as [r|]; cbn [bind] in H; [|discriminate H].
    destruct (if compressed then _ else _) as [seq'|]; cbn [bind] in H; [|discriminate H].
    destruct (wt_levels w compressed seq' codes nl (shift + 1) k) as [[rest lens']|] eqn:E;
      cbn [bind] in H; [|discriminate H].
    injection H as <- <-. destruct (IH _ _ _ _ E) as [H1 H2]. cbn [length]. split; congruence.
Qed.

Section Build.
Hypothesis select_in_word_correct : forall w k, w < 2 ^ 64 -> k < 128 ->
  select_in_word w k = Val (match select_spec (bits_of 64 w) 1 k with Some p => p | None => 64 end).
Hypothesis popcount_correct : forall n x, x < 2 ^ N.of_nat n -> popcount x = countN 1 (bits_of n x).

Lemma rsw_level_ok D : bin D -> 0 < len D -> len D < RSQ_MAXN ->
  exists bv r, bv_from_bools (bools D) = Val bv /\ rsw_new bv = Val r /\ lvl_spec r D /\ bv_len bv = len D.
Proof.
  intros HD Hpos Hn. rewrite RSQ_MAXN_val in Hn.
  assert (E43 : 2 ^ 43 = 8796093022208) by reflexivity.
  destruct (bv_from_bools_correct (bools D)) as (bv & Ebv & Hinv & Habs); [rewrite len_bools, p63; lia|].
  pose proof (inv_len bv Hinv) as Hl. rewrite Habs, len_bools in Hl.
  assert (Hwf : bv_wf bv) by (apply BinFinalP.bv_inv_wf_rs; [exact Hinv|lia]).
  destruct (rsw_correct select_in_word_correct popcount_correct bv Hwf)
    as (r & Er & Hbv & Hspec & Hru & _ & _).
  exists bv, r. split; [exact Ebv|]. split; [exact Er|]. split; [|unfold bv_len; lia].
  rewrite Habs in Hspec, Hru. unfold bin_spec in Hspec.
  destruct Hspec as (_ & Hr1 & Hr0 & Hs1 & Hs0 & _ & Hnz).
  unfold rank1_spec, rank0_spec, select1_spec, select0_spec in *.
  unfold bools in Hr1, Hr0, Hs1, Hs0, Hnz, Hru. rewrite (map_N_of_bool_bin D HD) in Hr1, Hr0, Hs1, Hs0, Hru.
  fold (bools D) in Hr1, Hr0, Hnz, Hru. rewrite len_bools in Hr1, Hr0, Hnz, Hru.
  assert (Hne : (len D =? 0) = false) by lia. rewrite Hne in Hr1, Hr0. cbn [negb andb] in Hr1, Hr0.
  unfold lvl_spec. split; [exact HD|]. split; [exact Hpos|]. split; [lia|].
  split; [|split; [|split; [|split; [|split; [|split]]]]].
  - intros i d Ei. unfold rsw_get_unchecked. rewrite Hbv.
    pose proof (nthN_some_lt _ _ _ Ei) as Hi.
    rewrite (bv_get_unchecked_correct bv i Hinv) by (rewrite Habs, len_bools; exact Hi).
    rewrite Habs. f_equal.
    assert (En : nthN (bools D) i = Some (d =? 1)).
    { unfold bools. rewrite nthN_map, Ei. reflexivity. }
    rewrite nthN_nthb in En by (rewrite len_bools; exact Hi). now injection En.
  - intros i Hi. destruct (Hru i Hpos Hi) as [H1 _]. rewrite H1, rank_spec_lrank. reflexivity.
  - intros i. rewrite Hr1, rank_spec_lrank. reflexivity.
  - intros i. rewrite Hr0, rank_spec_lrank. reflexivity.
  - exact Hs1.
  - exact Hs0.
  - injection Hnz as Hnz. rewrite Hnz, loccs_smaller_1 by exact HD.
    rewrite countb_countN. unfold bools. rewrite (map_N_of_bool_bin D HD). reflexivity.
Qed.

Definition blev (L l : nat) (s : list N) : list N := lev N 2 (bdig L) l s.
Definition bD (L l : nat) (s : list N) : list N := map (bdig L l) (blev L l s).

Lemma blev_len L l s : len (blev L l s) = len s.
Proof. apply (lev_length N 2 (bdig L) (bdig_lt L)). Qed.
Lemma bD_len L l s : len (bD L l s) = len s.
Proof. unfold bD. now rewrite len_map, blev_len. Qed.
Lemma blev_S L l s : blev L (S l) s = parts N (bdig L) l 2 (blev L l s).
Proof. reflexivity. Qed.
Lemma bD_bin L l s : bin (bD L l s).
Proof.
  unfold bD, bin. apply Forall_forall. intros d Hd. apply in_map_iff in Hd.
  destruct Hd as (x & <- & _). exact (bdig_lt2 L l x).
Qed.

Lemma wt_levels_plain_ok w L s : 0 < len s -> len s < RSQ_MAXN -> N.of_nat L <= w ->
  forall n l0, (l0 + n = L)%nat ->
  exists rs lens, wt_levels w false (blev L l0 s) [] (N.of_nat L) (N.of_nat l0 + 1) n = Val (rs, lens) /\
    btree_ok (fun j => bD L (l0 + j) s) n rs lens.
Proof.
  intros Hpos Hn Hw. induction n as [|n IH]; intros l0 Hl.
  - exists [], []. split; [reflexivity|]. intros j Hj. lia.
  - cbn [wt_levels].
    assert (Hsh : osub (N.of_nat L) (N.of_nat l0 + 1) = Val (N.of_nat (L - 1 - l0))).
    { unfold osub. destruct (N.leb_spec (N.of_nat l0 + 1) (N.of_nat L)); [f_equal; lia|lia]. }
    rewrite Hsh. cbn [bind].
    assert (Hlt : N.of_nat (L - 1 - l0) < w) by lia.
    rewrite (mapo_val _ (fun x => Some (bdig L l0 x =? 1))).
    2:{ intros x _. cbn [bind]. rewrite (one_bit_bdig w L l0 x Hlt). reflexivity. }
    cbn [bind]. rewrite (flat_some (fun x => bdig L l0 x =? 1)).
    assert (EB : map (fun x => bdig L l0 x =? 1) (blev L l0 s) = bools (bD L l0 s)).
    { unfold bools, bD. now rewrite map_map. }
    rewrite EB.
    destruct (rsw_level_ok (bD L l0 s) (bD_bin L l0 s)) as (bv & r & Ebv & Er & Hr & Hlen);
      [rewrite bD_len; exact Hpos|rewrite bD_len; exact Hn|].
    rewrite Ebv. cbn [bind]. rewrite Er. cbn [bind].
    rewrite (stable_partition_2_parts w L l0 _ Hlt). cbn [bind]. rewrite <- blev_S.
    destruct (IH (S l0) ltac:(lia)) as (rs & lens & E & HT).
    replace (N.of_nat l0 + 1 + 1) with (N.of_nat (S l0) + 1) by lia.
    rewrite E. cbn [bind]. exists (r :: rs), (bv_len bv :: lens). split; [reflexivity|].
    apply (btree_ok_cons (fun j => bD L j s)); [exact Hr|exact Hlen|exact HT].
Qed.

End Build.
