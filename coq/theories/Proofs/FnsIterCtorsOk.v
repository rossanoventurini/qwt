(* The public constructors of the bit-vector iterators, regenerated (Gen/FnsIters.v: BitVector / BitVectorMut ::ones, zeros,
   ones_with_pos, zeros_with_pos, iter): the word view of the data lines handed to the iterator constructors.  Composed with
   Proofs/FnsItersOk.v: the whole public path  bv.ones_with_pos(p) / bv.zeros() ... then next, next, ...  through regenerated
   functions only yields the positions of the bit in the abstract bit list. *)
From Coq Require Import ZArith.
From QwtModel Require Import ListX BitVec BitVecP FnsIters FnsBvOk FnsItersOk.
Open Scope N_scope.

Definition g_bv_positions_from (mutable bit : bool) (data : list (list N)) (n_bits pos : N) :=
  match mutable, bit with
  | false, true => g_bv_ones_with_pos data n_bits pos
  | false, false => g_bv_zeros_with_pos data n_bits pos
  | true, true => g_bvm_ones_with_pos data n_bits pos
  | true, false => g_bvm_zeros_with_pos data n_bits pos
  end.
Definition g_bv_positions (mutable bit : bool) (data : list (list N)) (n_bits : N) :=
  match mutable, bit with
  | false, true => g_bv_ones data n_bits
  | false, false => g_bv_zeros data n_bits
  | true, true => g_bvm_ones data n_bits
  | true, false => g_bvm_zeros data n_bits
  end.

Lemma g_bv_positions_from_words mutable bit data n_bits pos :
  g_bv_positions_from mutable bit data n_bits pos = g_pi_with_pos bit (concat data) n_bits pos.
Proof. destruct mutable, bit; reflexivity. Qed.
Lemma g_bv_positions_words mutable bit data n_bits :
  g_bv_positions mutable bit data n_bits = g_pi_new bit (concat data) n_bits.
Proof. destruct mutable, bit; reflexivity. Qed.

(* every public way to obtain a position iterator (immutable / mutable vector, ones / zeros, from the start / from a position),
   then repeated next: the positions of the bit, in increasing order *)
Theorem g_bv_positions_public : forall mutable bit b pos fuelw n,
  bv_inv b -> pos < 2 ^ 64 -> (S (length (bv_words b)) <= fuelw)%nat -> len (bv_abs b) < N.of_nat n ->
  (let! (d, nb, cp, cwp, cw) := g_bv_positions_from mutable bit (chunks 8 (bv_words b)) (bv_nbits b) pos in
   g_pi_collect bit fuelw d nb cp cwp cw n) = Val (positions_from bit (bv_abs b) pos) /\
  (let! (d, nb, cp, cwp, cw) := g_bv_positions mutable bit (chunks 8 (bv_words b)) (bv_nbits b) in
   g_pi_collect bit fuelw d nb cp cwp cw n) = Val (positions_from bit (bv_abs b) 0).
Proof.
  intros mutable bit b pos fuelw n Hinv Hpos Hf Hn.
  rewrite g_bv_positions_from_words, g_bv_positions_words, (concat_chunks 7 (bv_words b)).
  exact (g_positions_correct bit b pos fuelw n Hinv Hpos Hf Hn).
Qed.

(* bv.iter() then next: the bits in order, then None for ever; len exact *)
Theorem g_bv_iter_public : forall b, bv_inv b ->
  g_bv_iter (chunks 8 (bv_words b)) (bv_nbits b) = Val (bv_words b, bv_nbits b, 0) /\
  g_bvm_iter (chunks 8 (bv_words b)) (bv_nbits b) = Val (bv_words b, bv_nbits b, 0) /\
  forall i, g_bvit_next (bv_words b) (bv_nbits b) i
            = Val (bv_words b, bv_nbits b, (if i <? len (bv_abs b) then i + 1 else i), nthN (bv_abs b) i) /\
            (i <= len (bv_abs b) -> g_bvit_len (bv_nbits b) i = Val (len (bv_abs b) - i)).
Proof.
  intros b Hinv. unfold g_bv_iter, g_bvm_iter. rewrite (concat_chunks 7 (bv_words b)).
  split; [reflexivity|]. split; [reflexivity|]. intros i. exact (g_bvit_correct b i Hinv).
Qed.
Print Assumptions g_bv_positions_public.
Print Assumptions g_bv_iter_public.
