(* C03 helper: the binary wavelet tree, part 5: the COMPRESSED (Huffman-shaped) tree.  The code
   table facts are those of HQWTBridge / HQWTCode at fragment size 1 (arity 2).  Specific to this
   tree: the levels wt_levels builds are RSWide vectors over the bit lists [hwm_levels] of
   Theory/HuffWM.v (never empty), and the queries of the binary model. *)
From Coq Require Import ZArith Lia ZifyBool ZifyN ZifyNat.
From QwtModel Require Import ListX Seq BitVec RSBin Huff ListXP RSQBuild RSBinL.
From QwtModel Require Import WaveletMatrix HuffWM Codes QWTArith HQWTBridge HQWTCode.
From QwtModel Require Import BinWTBase BinWTWalks BinWTBuild.

Lemma In_parts_conv {A} (dg : nat -> A -> N) l k W x : In x W -> dg l x < N.of_nat k -> In x (parts A dg l k W).
Proof.
  intros Hx. induction k as [|k IH]; intros Hd; [lia|]. cbn [parts]. apply in_or_app.
  destruct (N.eq_dec (dg l x) (N.of_nat k)) as [E|E].
  - right. apply filter_In. split; [exact Hx|]. now apply N.eqb_eq.
  - left. apply IH. lia.
Qed.

Lemma Q_mem {A} a (dg : nat -> A -> N) (cl : A -> nat) (s : list A) x :
  (forall l y, dg l y < N.of_nat a) -> In x s ->
  forall l, (l < cl x)%nat -> In x (Q A a dg cl l s).
Proof.
  intros Hdg Hx. induction l as [|l IH]; intros Hl; cbn [Q]; [exact Hx|].
  apply In_parts_conv; [|apply Hdg]. apply filter_In. split; [apply IH; lia|].
  apply Nat.ltb_lt. exact Hl.
Qed.

Lemma In_len_pos {A} (l : list A) x : In x l -> 0 < len l.
Proof. destruct l; [intros []|intros _; rewrite len_cons; lia]. Qed.

Definition dig_lt := code_dig_lt 1 2 eq_refl.
Definition fin_tail := code_fin_tail 1.

Section Bridge.
Variable tab : list pcode.
Notation dig := (code_dig 1 tab).
Notation clen := (code_clen 1 tab).

Lemma dig_lt2 l x : dig l x < 2.
Proof. exact (dig_lt tab l x). Qed.
Lemma clen_eq x c : nthN tab (sym_index x) = Some c -> clen x = N.to_nat (pc_len c).
Proof. intros H. unfold code_clen. rewrite H. now rewrite N.div_1_r. Qed.
Lemma dig_eq x c l : nthN tab (sym_index x) = Some c ->
  dig l x = N.land (N.shiftr (pc_content c) (pc_len c - (N.of_nat l + 1))) 1.
Proof. intros H. unfold code_dig. rewrite H, N.mul_1_l. reflexivity. Qed.

Variable seq : list N.
Hypothesis Htab : len tab < 2 ^ 64.
Hypothesis Hwf : forall x, In x seq -> exists c, nthN tab x = Some c /\ code_wf 1 c = true.
Notation QQ l := (Q N 2 dig clen l seq).
Notation CT f := (f 1 2%nat eq_refl tab seq Htab Hwf).

Lemma part_with_codes_ok2 l lst : (forall x, In x lst -> In x seq) ->
  part_with_codes 2 lst (N.of_nat l + 1) tab =
  Val (parts N dig l 2 (filter (fun x => (S l <? clen x)%nat) lst) ++
       filter (fun x => negb (S l <? clen x)%nat) lst).
Proof.
  intros Hin. unfold part_with_codes.
  rewrite (mapo_val _ (fun x => (code_tag 1 2 tab l x, x)))
    by (intros x Hx; apply (CT code_tag_val); [reflexivity|lia|apply Hin, Hx]).
  cbn [bind]. change (2 =? 4) with false. cbv iota. rewrite !pick_tagged. f_equal.
  cbn [parts app]. change (N.of_nat 0) with 0. change (N.of_nat 1) with 1.
  rewrite !filter_filter, <- !app_assoc, !(CT code_tag_pick l) by reflexivity.
  do 2 f_equal. now apply (CT code_tag_rest).
Qed.

Definition hDs (l : nat) : list N := map (dig l) (QQ l).

Lemma hDs_bin l : bin (hDs l).
Proof.
  unfold hDs, bin. apply Forall_forall. intros d Hd. apply in_map_iff in Hd as (x & <- & _). apply dig_lt2.
Qed.
Lemma hDs_len l : len (hDs l) = len (QQ l).
Proof. apply len_map. Qed.

Section Build.
Hypothesis select_in_word_correct : forall w k, w < 2 ^ 64 -> k < 128 ->
  select_in_word w k = Val (match select_spec (bits_of 64 w) 1 k with Some p => p | None => 64 end).
Hypothesis popcount_correct : forall n x, x < 2 ^ N.of_nat n -> popcount x = countN 1 (bits_of n x).
Hypothesis Hn : len seq < RSQ_MAXN.
Variable xmax : N.                       (* a symbol with a longest code: the levels are not empty *)
Hypothesis Hxmax : In xmax seq.

Lemma wt_levels_huff_ok w nl : forall k l F, (l + k <= clen xmax)%nat -> fin_tail tab seq l F ->
  exists rs lens, wt_levels w true (QQ l ++ F) tab nl (N.of_nat l + 1) k = Val (rs, lens) /\
    btree_ok (fun j => hDs (l + j)) k rs lens.
Proof.
  induction k as [|k IH]; intros l F Hk HF.
  - exists [], []. split; [reflexivity|]. intros j Hj. lia.
  - cbn [wt_levels].
    rewrite (mapo_val _ (fun a => if (l <? clen a)%nat then Some (dig l a =? 1) else None))
      by (intros a Ha; apply (CT code_level_val (fun d => d =? 1));
          [lia|reflexivity|exact (CT code_level_seq_in l F HF a Ha)]).
    cbn [bind]. rewrite flat_opt_filter, (CT code_level_digits l F HF).
    assert (EB : map (fun a => dig l a =? 1) (QQ l) = bools (hDs l)).
    { unfold bools, hDs. now rewrite map_map. }
    rewrite EB.
    destruct (rsw_level_ok select_in_word_correct popcount_correct (hDs l) (hDs_bin l))
      as (bv & r & Ebv & Er & Hr & Hlen).
    { rewrite hDs_len. apply (In_len_pos _ xmax). apply Q_mem; [exact (dig_lt tab)|exact Hxmax|lia]. }
    { rewrite hDs_len. pose proof (Q_len_le N 2 dig (dig_lt tab) clen l seq). lia. }
    rewrite Ebv. cbn [bind]. rewrite Er. cbn [bind].
    rewrite (part_with_codes_ok2 l _ (CT code_level_seq_in l F HF)). cbn [bind].
    destruct (CT code_level_next l F HF) as (F' & HF' & E'). rewrite E'.
    destruct (IH (S l) F' ltac:(lia) HF') as (rs & lens & E & HT).
    replace (N.of_nat l + 1 + 1) with (N.of_nat (S l) + 1) by lia.
    rewrite E. cbn [bind].
    exists (r :: rs), (bv_len bv :: lens). split; [reflexivity|].
    apply (btree_ok_cons hDs); [exact Hr|exact Hlen|exact HT].
Qed.
End Build.

End Bridge.

Section HMain.
Variables (w : N) (tab : list pcode) (s : list N).
Hypothesis HF : Forall (fun x => x < 2 ^ w) s.
Hypothesis Hn : len s < RSQ_MAXN.
Hypothesis Hpos : 0 < len s.
Hypothesis Htab : len tab < 2 ^ 64.
Hypothesis Hwf : forall x, In x s -> exists c, nthN tab x = Some c /\ code_wf 1 c = true.
Hypothesis Hocc : forall x c, nthN tab x = Some c -> pc_len c <> 0 -> In x s.
Hypothesis Hok : wm_ok N 2 (code_dig 1 tab) (code_clen 1 tab) s = true.
Hypothesis Hdist : forall x y c, In x s -> In y s -> nthN tab x = Some c -> nthN tab y = Some c -> x = y.
Variables (bvs : list rswide) (lens : list N).

Notation dig := (code_dig 1 tab).
Notation clen := (code_clen 1 tab).
Notation QQ l := (Q N 2 dig clen l s).
Notation Ds := (hDs tab s).
Notation mx := (maxN (map pc_len tab)).
Notation M := (N.to_nat mx).

Hypothesis HT : btree_ok Ds M bvs lens.
Set Default Proof Using "All".

Notation t := (mk_bwt (len s) mx None (Some tab) (Some (decode_tables tab mx)) bvs lens).
Notation CT f := (f 1 2%nat eq_refl tab s Htab Hwf).
Notation CD f := (f 1 2%nat eq_refl tab s Htab Hwf Hocc Hdist).
Notation CS f := (CD f Hok).

Lemma hLOK : forall l, (l < M)%nat -> exists r, nthN bvs (N.of_nat l) = Some r /\ lvl_spec r (Ds l).
Proof. intros l Hl. exact (proj1 (HT l Hl)). Qed.
Lemma hLENS : forall l, (l < M)%nat -> nthN lens (N.of_nat l) = Some (len (Ds l)).
Proof. intros l Hl. exact (proj2 (HT l Hl)). Qed.

Lemma LVs_hwm l0 n : map Ds (seq l0 n) = hwm_levels N 2 dig clen l0 n s.
Proof. symmetry. apply (hwm_levels_map 2 dig clen s n l0). Qed.

Lemma clen_le_M x : In x s -> (clen x <= M)%nat.
Proof.
  intros Hx. destruct (CT code_in_seq x Hx) as (c & HFc).
  pose proof (CD len_le_mx x c Hx HFc) as H.
  rewrite (clen_eq tab x c (ce_nth 1 tab x c HFc)). lia.
Qed.

Lemma valid_in c code : In c s -> code_entry 1 tab c code ->
  wt_valid true t c = Val (Some (pc_content code, pc_len code)).
Proof.
  intros Hc [H1 H2 H3 H4 H5]. unfold wt_valid. cbn [w_codes ounwrap bind].
  pose proof (CT code_sym_index c Hc) as E. rewrite E in H1. rewrite E.
  pose proof (nthN_some_lt _ _ _ H1) as Hlt.
  rewrite N.eqb_refl. cbn [negb orb]. destruct (N.leb_spec (len tab) c); [lia|].
  unfold idx. rewrite H1. cbn [bind]. destruct (N.eqb_spec (pc_len code) 0); [lia|reflexivity].
Qed.

Lemma valid_notin c : ~ In c s -> wt_valid true t c = Val None.
Proof.
  intros Hc. unfold wt_valid. cbn [w_codes ounwrap bind].
  destruct (N.eqb_spec (sym_index c) c) as [E|E]; cbn [negb orb]; [|reflexivity]. rewrite E.
  destruct (N.leb_spec (len tab) c) as [Hle|Hlt]; [reflexivity|].
  destruct (nthN_lt_some tab c Hlt) as (cd & Ecd). unfold idx. rewrite Ecd. cbn [bind].
  destruct (N.eqb_spec (pc_len cd) 0) as [|Hne]; [reflexivity|].
  exfalso. exact (Hc (Hocc c cd Ecd Hne)).
Qed.

Lemma hBIT c code : code_entry 1 tab c code -> forall l, (l < clen c)%nat ->
  wt_bit_at w true c (pc_content code) (pc_len code) (N.of_nat l) = Val (dig l c =? 1) /\ dig l c < 2.
Proof.
  intros HFc l Hl. split; [|apply dig_lt2].
  destruct (CT code_clen_len c code HFc) as [HL _]. destruct HFc as [H1 H2 H3 H4 H5].
  unfold wt_bit_at, osub. destruct (N.leb_spec (N.of_nat l + 1) (pc_len code)); [|lia]. cbn [bind].
  unfold oshr. destruct (N.ltb_spec (pc_len code - (N.of_nat l + 1)) 32); [|lia]. cbn [bind].
  now rewrite (dig_eq tab c code l H1).
Qed.

Lemma rank_bounds c i m : In c s -> i <= len s -> (m < clen c)%nat ->
  fst (rank_walk (map Ds (seq 0 m)) (map (fun l => dig l c) (seq 0 m)) 0 i) <= len (Ds (0 + m)%nat) /\
  snd (rank_walk (map Ds (seq 0 m)) (map (fun l => dig l c) (seq 0 m)) 0 i) <= len (Ds (0 + m)%nat).
Proof. intros Hc Hi Hm. cbn [Nat.add]. rewrite LVs_hwm, hDs_len. exact (CS code_rank_bounds c i m Hc Hi Hm). Qed.

Lemma hwt_rank_unchecked_ok c i : In c s -> i <= len s ->
  wt_rank_unchecked w true t c i = Val (rank_spec s c i).
Proof.
  intros Hc Hi. destruct (CT code_in_seq c Hc) as (code & HFc). pose proof (ce_nth 1 tab c code HFc) as H1.
  unfold wt_rank_unchecked. cbn [w_codes w_bvs ounwrap bind]. unfold idx. rewrite H1. cbn [bind].
  rewrite <- (clen_eq tab c code H1).
  pose proof (wt_rank_walk_ok w bvs Ds M hLOK true c (pc_content code) (pc_len code) (fun l => dig l c)
                (clen c) (clen_le_M c Hc) (hBIT c code HFc) (clen c) 0%nat 0 i (le_n _)
                (fun m Hm => rank_bounds c i m Hc Hi Hm)) as W.
  change (N.of_nat 0) with 0 in W. rewrite W. clear W. cbn [bind].
  rewrite LVs_hwm. exact (CS code_rank_spec c i Hc Hi).
Qed.

Lemma hwt_get_unchecked_ok i x : nthN s i = Some x -> wt_get_unchecked w true t i = Val x.
Proof.
  intros Hi. assert (Hx : In x s) by exact (nthN_In _ _ _ Hi).
  unfold wt_get_unchecked. cbn [w_n_levels w_decode].
  pose proof (wt_get_walk_true w bvs Ds M hLOK lens hLENS t eq_refl eq_refl M 0%nat i 0 0 0 (le_n _)) as G.
  change (N.of_nat 0) with 0 in G. rewrite G. clear G. cbn [bind ounwrap]. rewrite LVs_hwm.
  destruct (CS code_get_decode M i x Hi (clen_le_M x Hx)) as (c & T & E1 & E2 & ET & EK).
  rewrite N.mul_1_l in E2. rewrite E1, N.add_0_l, E2. unfold idx. rewrite ET. cbn [bind]. rewrite EK. cbn [bind].
  rewrite Forall_forall in HF. specialize (HF x Hx).
  destruct (N.ltb_spec x (2 ^ w)); [reflexivity|lia].
Qed.

Lemma hwt_select_ok c k : wt_select w true t c k = Val (select_spec s c k).
Proof.
  unfold wt_select. cbn [w_n]. destruct (N.eqb_spec (len s) 0); [lia|].
  destruct (in_dec N.eq_dec c s) as [Hc|Hc].
  - destruct (CT code_in_seq c Hc) as (code & HFc). pose proof (ce_nth 1 tab c code HFc) as H1.
    rewrite (valid_in c code Hc HFc). cbn [bind w_bvs]. rewrite <- (clen_eq tab c code H1).
    assert (HB : Forall2 (fun '(b, rb) l => b <= len (Ds l) /\ rb <= b)
              (select_down (map Ds (seq 0 (clen c))) (map (fun l => dig l c) (seq 0 (clen c))) 0)
              (seq 0 (clen c))).
    { rewrite LVs_hwm. pose proof (CS code_select_bounds c Hc) as HB.
      revert HB. apply Forall2_imp. intros [b rb] l Hbr. now rewrite hDs_len. }
    pose proof (wt_select_walks_ok w bvs Ds M hLOK true c (pc_content code) (pc_len code) (fun l => dig l c)
                  (clen c) (clen_le_M c Hc) (hBIT c code HFc) k HB) as W.
    cbv zeta in W. cbv zeta. rewrite W. clear W HB. f_equal.
    rewrite LVs_hwm. exact (CS code_select_spec c k Hc).
  - rewrite (valid_notin c Hc). cbn [bind]. now rewrite select_spec_notin.
Qed.

Lemma hwt_rank_ok c i :
  wt_rank w true t c i =
  Val (if (i <=? len s) && (0 <? countN c s) then Some (rank_spec s c i) else None).
Proof.
  unfold wt_rank. cbn [w_n]. destruct (N.eqb_spec (len s) 0); [lia|]. cbn [orb].
  destruct (N.ltb_spec (len s) i) as [Hgt|Hle]; destruct (N.leb_spec i (len s)) as [Hle'|Hgt']; try lia;
    [reflexivity|]. cbn [andb].
  destruct (in_dec N.eq_dec c s) as [Hc|Hc].
  - destruct (CT code_in_seq c Hc) as (code & HFc).
    rewrite (valid_in c code Hc HFc). cbn [bind]. rewrite (hwt_rank_unchecked_ok c i Hc Hle). cbn [bind].
    apply countN_pos_In in Hc. destruct (N.ltb_spec 0 (countN c s)); [reflexivity|lia].
  - rewrite (valid_notin c Hc). cbn [bind].
    destruct (N.ltb_spec 0 (countN c s)) as [Hp|]; [|reflexivity].
    apply countN_pos_In in Hp. contradiction.
Qed.

Lemma hwt_get_ok i : wt_get w true t i = Val (nthN s i).
Proof.
  unfold wt_get. cbn [w_n]. destruct (N.leb_spec (len s) i) as [Hle|Hlt].
  - now rewrite nthN_none.
  - destruct (nthN_lt_some s i Hlt) as (x & Hx). rewrite (hwt_get_unchecked_ok i x Hx), Hx. reflexivity.
Qed.

End HMain.

Lemma xmax_exists tab s : s <> [] -> len tab < 2 ^ 64 ->
  (forall x, In x s -> exists c, nthN tab x = Some c /\ code_wf 1 c = true) ->
  (forall x c, nthN tab x = Some c -> pc_len c <> 0 -> In x s) ->
  exists xm, In xm s /\ code_clen 1 tab xm = N.to_nat (maxN (map pc_len tab)).
Proof.
  intros Hne Htab Hwf Hocc. destruct s as [|x0 s']; [congruence|].
  assert (Hx0 : In x0 (x0 :: s')) by now left.
  destruct (code_in_seq 1 2 eq_refl tab _ Htab Hwf x0 Hx0) as (c0 & [H1 H2 H3 _ H5]).
  rewrite (code_sym_index 1 2 eq_refl tab _ Htab Hwf x0 Hx0) in H1.
  assert (Hne' : map pc_len tab <> []).
  { destruct tab; [discriminate H1|discriminate]. }
  pose proof (maxN_in _ Hne') as Hin. apply in_map_iff in Hin as (cm & Ecm & Hcm).
  apply In_nth_error in Hcm as (j & Ej).
  assert (Ej' : nthN tab (N.of_nat j) = Some cm) by (rewrite nthN_nth_error, Nnat.Nat2N.id; exact Ej).
  pose proof (maxN_ge (map pc_len tab) (pc_len c0) (in_map pc_len _ _ (nthN_In _ _ _ H1))) as Hge.
  assert (Hnz : pc_len cm <> 0) by lia.
  exists (N.of_nat j). split; [exact (Hocc _ _ Ej' Hnz)|].
  pose proof (nthN_some_lt _ _ _ Ej') as Hlt.
  assert (Es : sym_index (N.of_nat j) = N.of_nat j) by (unfold sym_index; apply N.mod_small; lia).
  rewrite <- Es in Ej'. rewrite (clen_eq tab _ cm Ej'), Ecm. reflexivity.
Qed.
