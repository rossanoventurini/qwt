(* C09: the plain quad wavelet tree with prefetch support.  The supports built by
   qwt_pfs_new are [pfs_spec] of the level digit lists; the estimation walk keeps
   rs <= re <= len seq, which is below the panic bound of every (non empty) level. *)
From Coq Require Import ZArith Lia ZifyBool ZifyN ZifyNat.
From QwtModel Require Import ListX Seq Consts RSQ QWT Prefetch ListXP NBits OutcomeP QVecP RSQBuild.
From QwtModel Require Import WaveletMatrix QWTArith QWTBuild QWTWalk QWTP PrefetchL PrefetchV.

Definition pfs_ok (L : nat) (s : list N) (pfs : list pfsupport) : Prop :=
  forall l, (l < L)%nat -> exists p, nthN pfs (N.of_nat l) = Some p /\ pfs_spec p (qD L l s).

Lemma in_bound D i : len D <> 0 -> i <= len D + 2046 -> i <? pfs_bound D = true.
Proof.
  intros HD Hi. assert (HD' : D <> []) by (intros ->; now apply HD).
  pose proof (npush_slack D HD'). unfold pfs_bound. lia.
Qed.

(* level l0 + j is entry j of the list built from level l0 on *)
Lemma nthN_levels_cons {A} (P : nat -> A -> Prop) (x : A) (l : list A) (l0 n : nat) :
  P l0 x -> (forall j, (j < n)%nat -> exists y, nthN l (N.of_nat j) = Some y /\ P (S l0 + j)%nat y) ->
  forall j, (j < S n)%nat -> exists y, nthN (x :: l) (N.of_nat j) = Some y /\ P (l0 + j)%nat y.
Proof.
  intros Hx Hl [|j] Hj.
  - exists x. rewrite Nat.add_0_r. split; [reflexivity|exact Hx].
  - destruct (Hl j ltac:(lia)) as (y & En & Hy). exists y.
    replace (N.of_nat (S j)) with (N.of_nat j + 1) by lia. rewrite nthN_succ.
    replace (l0 + S j)%nat with (S l0 + j)%nat by lia. split; assumption.
Qed.

Lemma levels_shift w seq : QWTP.width_ok w -> Forall (fun x => x < 2 ^ w) seq ->
  let L := N.to_nat (levels_of seq) in
  (0 < L)%nat /\ levels_of seq = N.of_nat L /\ 2 * N.of_nat (L - 1) < w.
Proof.
  intros Hwok HF L. assert (Hwpos : 0 < w) by (unfold QWTP.width_ok in Hwok; lia).
  pose proof (qlevels_pos seq) as Hpos.
  pose proof (qlevels_shift seq w Hwpos (maxN_lt seq (2 ^ w) (pow2_pos w) HF)) as Hsh.
  rewrite <- levels_of_qlevels in Hpos, Hsh. unfold L. lia.
Qed.

Lemma qwt_new_cons w bsize seq : seq <> [] -> let L := N.to_nat (levels_of seq) in
  qwt_new w bsize seq =
  let! qvs := qwt_levels w bsize seq (2 * N.of_nat (L - 1)) L in
  Val {| q_n := len seq; q_n_levels := levels_of seq; q_sigma := maxN seq; q_qvs := qvs |}.
Proof.
  intros Hne L. pose proof (qlevels_pos seq) as Hpos. rewrite <- levels_of_qlevels in Hpos.
  destruct seq as [|x seq]; [congruence|]. unfold qwt_new. cbv zeta. fold (levels_of (x :: seq)).
  rewrite osub_ok by exact Hpos. cbn [bind].
  replace (2 * (levels_of (x :: seq) - 1)) with (2 * N.of_nat (L - 1)) by lia. reflexivity.
Qed.

Lemma qwt_pfs_new_cons w seq : seq <> [] -> let L := N.to_nat (levels_of seq) in
  qwt_pfs_new w seq = qwt_pfs_levels w seq (2 * N.of_nat (L - 1)) L.
Proof.
  intros Hne L. pose proof (qlevels_pos seq) as Hpos. rewrite <- levels_of_qlevels in Hpos.
  destruct seq as [|x seq]; [congruence|]. unfold qwt_pfs_new. cbv zeta. fold (levels_of (x :: seq)).
  rewrite osub_ok by exact Hpos. cbn [bind].
  replace (2 * (levels_of (x :: seq) - 1)) with (2 * N.of_nat (L - 1)) by lia. reflexivity.
Qed.

Section PfsQ.
Hypothesis select_in_word_correct : forall w k, w < 2 ^ 64 -> k < 128 ->
  select_in_word w k = Val (match select_spec (bits_of 64 w) 1 k with Some p => p | None => 64 end).
Hypothesis popcount_correct : forall n x, x < 2 ^ N.of_nat n -> popcount x = countN 1 (bits_of n x).

Lemma qwt_pfs_levels_ok w L s : len s < RSQ_MAXN -> 2 * N.of_nat (L - 1) < w ->
  forall n l0 shift, (l0 + n = L)%nat -> ((0 < n)%nat -> shift = 2 * N.of_nat (L - 1 - l0)) ->
  exists ps, qwt_pfs_levels w (qlev L l0 s) shift n = Val ps /\
    forall j, (j < n)%nat -> exists p, nthN ps (N.of_nat j) = Some p /\ pfs_spec p (qD L (l0 + j) s).
Proof.
  intros Hn Hw. induction n as [|n IH]; intros l0 shift Hl Hs.
  - exists []. split; [reflexivity|]. intros j Hj. lia.
  - rewrite (Hs ltac:(lia)). clear Hs shift. cbn [qwt_pfs_levels].
    assert (Hsh : 2 * N.of_nat (L - 1 - l0) < w) by lia.
    rewrite (mapo_val _ (qdig L l0)) by (intros x _; now apply two_bits_qdig).
    cbn [bind]. fold (qD L l0 s).
    change (map (fun d => d mod 4) (qD L l0 s)) with (map sym4 (qD L l0 s)).
    rewrite (map_sym4_id _ (qD_lt4 L l0 s)). change PFS_SHIFT with 11.
    destruct (pfs_new_spec select_in_word_correct popcount_correct (qD L l0 s) (qD_lt4 L l0 s))
      as (p & Ep & Hp).
    { rewrite qD_len. now apply maxn_lt_43. }
    rewrite Ep. cbn [bind].
    rewrite (stable_partition_parts w L l0 _ Hsh). cbn [bind]. rewrite <- qlev_S.
    destruct (IH (S l0) (if 2 <=? 2 * N.of_nat (L - 1 - l0) then 2 * N.of_nat (L - 1 - l0) - 2
                         else 2 * N.of_nat (L - 1 - l0))) as (rest & Erest & Hrest); [lia| |].
    { intros Hn0. replace (2 <=? 2 * N.of_nat (L - 1 - l0)) with true by lia. lia. }
    rewrite Erest. cbn [bind]. exists (p :: rest). split; [reflexivity|].
    exact (nthN_levels_cons (fun l p => pfs_spec p (qD L l s)) p rest l0 n Hp Hrest).
Qed.

Lemma qwt_pfs_new_ok w seq : QWTP.width_ok w -> Forall (fun x => x < 2 ^ w) seq -> len seq < RSQ_MAXN ->
  seq <> [] -> let L := N.to_nat (levels_of seq) in
  exists pfs, qwt_pfs_new w seq = Val pfs /\ pfs_ok L seq pfs.
Proof.
  intros Hwok HF Hn Hne L. destruct (levels_shift w seq Hwok HF) as (HL & _ & Hw). fold L in HL, Hw.
  rewrite (qwt_pfs_new_cons w seq Hne). fold L.
  destruct (qwt_pfs_levels_ok w L seq Hn Hw L 0%nat (2 * N.of_nat (L - 1))) as (ps & E & H);
    [lia|intros _; f_equal; f_equal; lia|].
  change (qlev L 0 seq) with seq in E. rewrite E. exists ps. split; [reflexivity|].
  intros l Hl. exact (H l Hl).
Qed.

Section Walk.
Variables (w bsize : N) (L : nat) (s : list N) (qvs : list rsq) (pfs : list pfsupport).
Hypothesis HT : tree_ok bsize L s qvs.
Hypothesis HP : pfs_ok L s pfs.
Hypothesis HL : (0 < L)%nat.
Hypothesis Hw : 2 * N.of_nat (L - 1) < w.
Hypothesis Hne : len s <> 0.

Lemma qwt_pfs_walk_ok c : forall n l0 rs re, (l0 + n = L - 1)%nat -> rs <= re -> re <= len s ->
  exists rs' re', qwt_pfs_walk w qvs pfs c (2 * N.of_nat (L - 1 - l0)) rs re (N.of_nat l0) n = Val (rs', re') /\
    rs' <= re'.
Proof.
  induction n as [|n IH]; intros l0 rs re Hl Hrs Hre.
  - exists rs, re. split; [reflexivity|exact Hrs].
  - cbn [qwt_pfs_walk]. rewrite (two_bits_qdig w L l0 c) by lia. cbn [bind].
    destruct (HT l0 ltac:(lia)) as (r & Enth & Hr). unfold idx at 1. rewrite Enth. cbn [bind].
    destruct (rsq_spec_proj _ _ _ Hr) as (_ & _ & _ & _ & Pocc & _).
    pose proof (qdig_le3 L l0 c) as Hd.
    rewrite Pocc by exact Hd. cbn [bind].
    destruct (HP l0 ltac:(lia)) as (p & Ep & _ & _ & Hp). unfold idx at 1. rewrite Ep. cbn [bind].
    assert (HDl : len (qD L l0 s) = len s) by apply qD_len.
    rewrite !Hp by lia.
    rewrite (in_bound (qD L l0 s) rs) by lia. rewrite (in_bound (qD L l0 s) re) by lia. cbn [bind].
    destruct (HT (S l0) ltac:(lia)) as (r1 & Enth1 & _). unfold idx.
    replace (N.of_nat l0 + 1) with (N.of_nat (S l0)) by lia. rewrite Enth1. cbn [bind].
    unfold osub. replace (2 <=? 2 * N.of_nat (L - 1 - l0)) with true by lia. cbn [bind].
    replace (2 * N.of_nat (L - 1 - l0) - 2) with (2 * N.of_nat (L - 1 - S l0)) by lia.
    pose proof (count_split (qdig L l0 c) (qD L l0 s)) as Hcs. rewrite HDl in Hcs.
    pose proof (pfs_val_le_count (qD L l0 s) (qdig L l0 c) re) as H2.
    pose proof (pfs_val_mono (qD L l0 s) (qdig L l0 c) rs re Hrs) as H3.
    unfold loccs_smaller.
    apply IH; lia.
Qed.

Lemma qwt_pfs_estimate_ok c i t : q_n_levels t = N.of_nat L -> q_qvs t = qvs -> i <= len s ->
  exists v, qwt_pfs_estimate w t pfs c i = Val v.
Proof.
  intros Hnl Hq Hi. unfold qwt_pfs_estimate. rewrite Hnl, Hq. unfold osub at 1.
  replace (1 <=? N.of_nat L) with true by lia. cbn [bind].
  destruct (HT 0%nat HL) as (r0 & Enth0 & _). change (N.of_nat 0) with 0 in Enth0.
  unfold idx. rewrite Enth0. cbn [bind].
  replace (N.of_nat L - 1) with (N.of_nat (L - 1 - 0)) by lia. rewrite Nnat.Nat2N.id.
  change 0 with (N.of_nat 0) at 2.
  destruct (qwt_pfs_walk_ok c (L - 1 - 0) 0%nat 0 i ltac:(lia) ltac:(lia) Hi) as (rs' & re' & E & Hle).
  rewrite E. cbn [bind]. unfold osub. replace (rs' <=? re') with true by lia. eauto.
Qed.
End Walk.

End PfsQ.
