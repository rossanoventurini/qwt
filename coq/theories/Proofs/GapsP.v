(* C19 for the structure families that PathsP.v (quad wavelet trees, rank/select quad vector) does
   not cover, as corollaries of the construction contracts.
   Binary wavelet trees (plain and Huffman-shaped): the constructor is injective, the answers of
   the plain tree do not depend on the element width, the answers of the Huffman-shaped tree do
   not depend on the (admissible) code table, unchecked = checked on valid arguments.
   RSNarrow / RSWide / DArray: values built from different bit lists are different.
   The quad vector collected from an iterator: injective up to the two stored bits.
   Clone and the From/FromIterator conversions are the identity in the model.
   Injectivity is always read off the contract: a value t that is a correct representation of s
   answers [get t i = nthN s i], hence determines s. *)
From Coq Require Import ZArith Lia ZifyBool ZifyN ZifyNat.
From QwtModel Require Import ListX Seq Consts Words QVec RSQ QWT BitVec RSBin DArrayM Huff.
From QwtModel Require Import ListXP OutcomeP WordsP QVecP RSQBuild BitVecP BinFinalP BinWTP.

Lemma get_inj {A} (get : N -> outcome (option A)) s1 s2 :
  (forall i, get i = Val (nthN s1 i)) -> (forall i, get i = Val (nthN s2 i)) -> s1 = s2.
Proof. intros G1 G2. apply nthN_ext. intros i. specialize (G1 i). rewrite G2 in G1. now injection G1. Qed.

(* the two construction theorems with the word-level hypotheses discharged *)
Lemma wt_build_ok : forall w seq, BinWTP.width_ok w -> Forall (fun x => x < 2 ^ w) seq ->
  len seq < RSQ_MAXN -> exists t, wt_build w false seq [] = Val t /\ wt_spec w t seq.
Proof. exact (wt_build_correct select_in_word_correct popcount_correct). Qed.

(* hwt_build_correct asks seq <> []; the empty sequence is hwt_build_nil *)
Lemma hwt_build_ok : forall w seq tab, BinWTP.width_ok w -> Forall (fun x => x < 2 ^ w) seq ->
  len seq < RSQ_MAXN -> table_ok2 seq tab -> exists t, wt_build w true seq tab = Val t /\ hwt_spec w t seq.
Proof.
  intros w seq tab Hw HF Hn HT. destruct seq as [|x0 seq'].
  - apply hwt_build_nil.
  - apply (hwt_build_correct select_in_word_correct popcount_correct); try assumption. discriminate.
Qed.

Lemma wt_spec_inj : forall w t s1 s2, wt_spec w t s1 -> wt_spec w t s2 -> s1 = s2.
Proof. intros w t s1 s2 (_ & _ & G1 & _) (_ & _ & G2 & _). exact (get_inj _ _ _ G1 G2). Qed.

Lemma hwt_spec_inj : forall w t s1 s2, hwt_spec w t s1 -> hwt_spec w t s2 -> s1 = s2.
Proof. intros w t s1 s2 (_ & G1 & _) (_ & G2 & _). exact (get_inj _ _ _ G1 G2). Qed.

Theorem wt_new_inj : forall w s1 s2 t, BinWTP.width_ok w ->
  Forall (fun x => x < 2 ^ w) s1 -> Forall (fun x => x < 2 ^ w) s2 -> len s1 < RSQ_MAXN -> len s2 < RSQ_MAXN ->
  wt_build w false s1 [] = Val t -> wt_build w false s2 [] = Val t -> s1 = s2.
Proof.
  intros w s1 s2 t Hw HF1 HF2 Hn1 Hn2 E1 E2.
  exact (wt_spec_inj w t s1 s2 (built (wt_build_ok w s1 Hw HF1 Hn1) E1) (built (wt_build_ok w s2 Hw HF2 Hn2) E2)).
Qed.

Corollary wt_new_eq_iff : forall w s1 s2, BinWTP.width_ok w ->
  Forall (fun x => x < 2 ^ w) s1 -> Forall (fun x => x < 2 ^ w) s2 -> len s1 < RSQ_MAXN -> len s2 < RSQ_MAXN ->
  (wt_build w false s1 [] = wt_build w false s2 [] <-> s1 = s2).
Proof.
  intros w s1 s2 Hw HF1 HF2 Hn1 Hn2. split; [|now intros ->].
  intros E. destruct (wt_build_ok w s1 Hw HF1 Hn1) as (t & E1 & _).
  apply (wt_new_inj w s1 s2 t); try assumption. now rewrite <- E.
Qed.

(* the tables need not be the same *)
Corollary hwt_build_inj_tabs : forall w s1 s2 tab1 tab2 t, BinWTP.width_ok w ->
  Forall (fun x => x < 2 ^ w) s1 -> Forall (fun x => x < 2 ^ w) s2 -> len s1 < RSQ_MAXN -> len s2 < RSQ_MAXN ->
  table_ok2 s1 tab1 -> table_ok2 s2 tab2 ->
  wt_build w true s1 tab1 = Val t -> wt_build w true s2 tab2 = Val t -> s1 = s2.
Proof.
  intros w s1 s2 tab1 tab2 t Hw HF1 HF2 Hn1 Hn2 HT1 HT2 E1 E2.
  exact (hwt_spec_inj w t s1 s2 (built (hwt_build_ok w s1 tab1 Hw HF1 Hn1 HT1) E1)
           (built (hwt_build_ok w s2 tab2 Hw HF2 Hn2 HT2) E2)).
Qed.

Theorem hwt_build_inj : forall w s1 s2 tab t, BinWTP.width_ok w ->
  Forall (fun x => x < 2 ^ w) s1 -> Forall (fun x => x < 2 ^ w) s2 -> len s1 < RSQ_MAXN -> len s2 < RSQ_MAXN ->
  table_ok2 s1 tab -> table_ok2 s2 tab ->
  wt_build w true s1 tab = Val t -> wt_build w true s2 tab = Val t -> s1 = s2.
Proof. intros w s1 s2 tab. exact (hwt_build_inj_tabs w s1 s2 tab tab). Qed.

Corollary hwt_build_eq_iff : forall w s1 s2 tab, BinWTP.width_ok w ->
  Forall (fun x => x < 2 ^ w) s1 -> Forall (fun x => x < 2 ^ w) s2 -> len s1 < RSQ_MAXN -> len s2 < RSQ_MAXN ->
  table_ok2 s1 tab -> table_ok2 s2 tab ->
  (wt_build w true s1 tab = wt_build w true s2 tab <-> s1 = s2).
Proof.
  intros w s1 s2 tab Hw HF1 HF2 Hn1 Hn2 HT1 HT2. split; [|now intros ->].
  intros E. destruct (hwt_build_ok w s1 tab Hw HF1 Hn1 HT1) as (t & E1 & _).
  apply (hwt_build_inj w s1 s2 tab t); try assumption. now rewrite <- E.
Qed.

Theorem wt_width_independent : forall w1 w2 seq t1 t2,
  BinWTP.width_ok w1 -> BinWTP.width_ok w2 ->
  Forall (fun x => x < 2 ^ w1) seq -> Forall (fun x => x < 2 ^ w2) seq -> len seq < RSQ_MAXN ->
  wt_build w1 false seq [] = Val t1 -> wt_build w2 false seq [] = Val t2 ->
  (forall i, wt_get w1 false t1 i = wt_get w2 false t2 i) /\
  (forall c i, c < 2 ^ w1 -> c < 2 ^ w2 -> wt_rank w1 false t1 c i = wt_rank w2 false t2 c i) /\
  (forall c k, c < 2 ^ w1 -> c < 2 ^ w2 -> k < 2 ^ 64 -> wt_select w1 false t1 c k = wt_select w2 false t2 c k).
Proof.
  intros w1 w2 seq t1 t2 Hw1 Hw2 HF1 HF2 Hn E1 E2.
  destruct (built (wt_build_ok w1 seq Hw1 HF1 Hn) E1) as (_ & _ & G1 & R1 & Q1 & _).
  destruct (built (wt_build_ok w2 seq Hw2 HF2 Hn) E2) as (_ & _ & G2 & R2 & Q2 & _).
  split; [|split].
  - intros i. now rewrite G1, G2.
  - intros c i Hc1 Hc2. now rewrite (R1 c i Hc1), (R2 c i Hc2).
  - intros c k Hc1 Hc2 Hk. now rewrite (Q1 c k Hc1 Hk), (Q2 c k Hc2 Hk).
Qed.

Corollary wt_width_independent_more : forall w1 w2 seq t1 t2,
  BinWTP.width_ok w1 -> BinWTP.width_ok w2 ->
  Forall (fun x => x < 2 ^ w1) seq -> Forall (fun x => x < 2 ^ w2) seq -> len seq < RSQ_MAXN ->
  wt_build w1 false seq [] = Val t1 -> wt_build w2 false seq [] = Val t2 ->
  w_n t1 = w_n t2 /\ w_n_levels t1 = w_n_levels t2 /\
  (forall i, i < len seq -> wt_get_unchecked w1 false t1 i = wt_get_unchecked w2 false t2 i) /\
  (forall c i, 0 < len seq -> c <= maxN seq -> i <= len seq ->
     wt_rank_unchecked w1 false t1 c i = wt_rank_unchecked w2 false t2 c i).
Proof.
  intros w1 w2 seq t1 t2 Hw1 Hw2 HF1 HF2 Hn E1 E2.
  destruct (built (wt_build_ok w1 seq Hw1 HF1 Hn) E1) as (L1 & NL1 & _ & _ & _ & U1 & RU1 & _).
  destruct (built (wt_build_ok w2 seq Hw2 HF2 Hn) E2) as (L2 & NL2 & _ & _ & _ & U2 & RU2 & _).
  split; [congruence|]. split; [congruence|]. split.
  - intros i Hi. destruct (nthN_lt_some seq i Hi) as (x & Hx). now rewrite (U1 i x Hx), (U2 i x Hx).
  - intros c i Hp Hc Hi. now rewrite (RU1 c i Hp Hc Hi), (RU2 c i Hp Hc Hi).
Qed.

Theorem hwt_any_table : forall w seq tab1 tab2 t1 t2, BinWTP.width_ok w ->
  Forall (fun x => x < 2 ^ w) seq -> len seq < RSQ_MAXN -> table_ok2 seq tab1 -> table_ok2 seq tab2 ->
  wt_build w true seq tab1 = Val t1 -> wt_build w true seq tab2 = Val t2 ->
  (forall i, wt_get w true t1 i = wt_get w true t2 i) /\
  (forall c i, c < 2 ^ w -> wt_rank w true t1 c i = wt_rank w true t2 c i) /\
  (forall c k, c < 2 ^ w -> k < 2 ^ 64 -> wt_select w true t1 c k = wt_select w true t2 c k).
Proof.
  intros w seq tab1 tab2 t1 t2 Hw HF Hn H1 H2 E1 E2.
  destruct (built (hwt_build_ok w seq tab1 Hw HF Hn H1) E1) as (_ & G1 & R1 & L1 & _).
  destruct (built (hwt_build_ok w seq tab2 Hw HF Hn H2) E2) as (_ & G2 & R2 & L2 & _).
  split; [|split].
  - intros i. now rewrite G1, G2.
  - intros c i Hc. now rewrite (R1 c i Hc), (R2 c i Hc).
  - intros c k Hc Hk. now rewrite (L1 c k Hc Hk), (L2 c k Hc Hk).
Qed.

Theorem wt_hwt_agree : forall w seq tab tp th, BinWTP.width_ok w ->
  Forall (fun x => x < 2 ^ w) seq -> len seq < RSQ_MAXN -> table_ok2 seq tab ->
  wt_build w false seq [] = Val tp -> wt_build w true seq tab = Val th ->
  w_n tp = w_n th /\
  (forall i, wt_get w false tp i = wt_get w true th i) /\
  (forall i, i < len seq -> wt_get_unchecked w false tp i = wt_get_unchecked w true th i).
Proof.
  intros w seq tab tp th Hw HF Hn HT Ep Eh.
  destruct (built (wt_build_ok w seq Hw HF Hn) Ep) as (LP & _ & GP & _ & _ & UP & _).
  destruct (built (hwt_build_ok w seq tab Hw HF Hn HT) Eh) as (LH & GH & _ & _ & UH & _).
  split; [congruence|]. split.
  - intros i. now rewrite GP, GH.
  - intros i Hi. destruct (nthN_lt_some seq i Hi) as (x & Hx). now rewrite (UP i x Hx), (UH i x Hx).
Qed.

(* C10 for the Huffman-shaped binary tree *)
Theorem hwt_unchecked : forall w t seq, hwt_spec w t seq ->
  (forall i x, nthN seq i = Some x -> wt_get_unchecked w true t i = Val x /\ wt_get w true t i = Val (Some x)) /\
  (forall c i, 0 < countN c seq -> i <= len seq -> wt_rank_unchecked w true t c i = Val (rank_spec seq c i)) /\
  (forall c k p, c < 2 ^ w -> select_spec seq c k = Some p -> wt_select_unchecked w true t c k = Val p).
Proof.
  intros w t seq (_ & G & _ & _ & GU & RU & SU).
  split; [|split].
  - intros i x Hx. split; [now apply GU|]. rewrite G. now f_equal.
  - intros c i Hc Hi. now apply RU.
  - intros c k p Hc Hp. now apply SU with (k := k).
Qed.

Corollary hwt_unchecked_checked : forall w t seq, hwt_spec w t seq ->
  (forall c i, c < 2 ^ w -> 0 < countN c seq -> i <= len seq ->
     wt_rank_unchecked w true t c i = Val (rank_spec seq c i) /\ wt_rank w true t c i = Val (Some (rank_spec seq c i))) /\
  (forall c k p, c < 2 ^ w -> k < 2 ^ 64 -> select_spec seq c k = Some p ->
     wt_select_unchecked w true t c k = Val p /\ wt_select w true t c k = Val (Some p)).
Proof.
  intros w t seq (_ & _ & R & S & _ & RU & SU).
  split.
  - intros c i Hc Hp Hi. split; [now apply RU|]. rewrite (R c i Hc).
    replace (i <=? len seq) with true by lia. replace (0 <? countN c seq) with true by lia. reflexivity.
  - intros c k p Hc Hk Hp. split; [now apply SU with (k := k)|]. rewrite (S c k Hc Hk). now f_equal.
Qed.

Lemma built2 {T U} {P : U -> Prop} {o : outcome T} {f : T -> outcome U} {t u} :
  (exists t' u', o = Val t' /\ f t' = Val u' /\ P u') -> o = Val t -> f t = Val u -> P u.
Proof.
  intros (t' & u' & E' & F' & H) E F. rewrite E in E'. injection E' as <-.
  rewrite F in F'. injection F' as <-. exact H.
Qed.

Theorem rsn_inj : forall b1 b2 bv1 bv2 r, len b1 < 2 ^ 43 -> len b2 < 2 ^ 43 ->
  bv_from_bools b1 = Val bv1 -> bv_from_bools b2 = Val bv2 ->
  rsn_new bv1 = Val r -> rsn_new bv2 = Val r -> b1 = b2.
Proof.
  intros b1 b2 bv1 bv2 r H1 H2 B1 B2 E1 E2.
  destruct (built2 (rsn_of_bools_correct select_in_word_correct popcount_correct b1 H1) B1 E1) as ((G1 & _) & _).
  destruct (built2 (rsn_of_bools_correct select_in_word_correct popcount_correct b2 H2) B2 E2) as ((G2 & _) & _).
  exact (get_inj _ _ _ G1 G2).
Qed.

Theorem rsw_inj : forall b1 b2 bv1 bv2 r, len b1 < 2 ^ 43 -> len b2 < 2 ^ 43 ->
  bv_from_bools b1 = Val bv1 -> bv_from_bools b2 = Val bv2 ->
  rsw_new bv1 = Val r -> rsw_new bv2 = Val r -> b1 = b2.
Proof.
  intros b1 b2 bv1 bv2 r H1 H2 B1 B2 E1 E2.
  destruct (built2 (rsw_of_bools_correct select_in_word_correct popcount_correct b1 H1) B1 E1) as ((G1 & _) & _).
  destruct (built2 (rsw_of_bools_correct select_in_word_correct popcount_correct b2 H2) B2 E2) as ((G2 & _) & _).
  exact (get_inj _ _ _ G1 G2).
Qed.

(* on top of any reachable bit vector state: the structure keeps its bit vector *)
Theorem rsn_new_inj_bv : forall bv1 bv2 r, bv_inv bv1 -> bv_inv bv2 ->
  bv_nbits bv1 < 2 ^ 43 -> bv_nbits bv2 < 2 ^ 43 ->
  rsn_new bv1 = Val r -> rsn_new bv2 = Val r -> bv1 = bv2.
Proof.
  intros bv1 bv2 r I1 I2 H1 H2 E1 E2.
  destruct (built (rsn_of_inv_correct select_in_word_correct popcount_correct bv1 I1 H1) E1) as (K1 & _).
  destruct (built (rsn_of_inv_correct select_in_word_correct popcount_correct bv2 I2 H2) E2) as (K2 & _).
  congruence.
Qed.

Theorem rsw_new_inj_bv : forall bv1 bv2 r, bv_inv bv1 -> bv_inv bv2 ->
  bv_nbits bv1 < 2 ^ 43 -> bv_nbits bv2 < 2 ^ 43 ->
  rsw_new bv1 = Val r -> rsw_new bv2 = Val r -> bv1 = bv2.
Proof.
  intros bv1 bv2 r I1 I2 H1 H2 E1 E2.
  destruct (built (rsw_of_inv_correct select_in_word_correct popcount_correct bv1 I1 H1) E1) as (K1 & _).
  destruct (built (rsw_of_inv_correct select_in_word_correct popcount_correct bv2 I2 H2) E2) as (K2 & _).
  congruence.
Qed.

(* DArray: the select0 settings of the two constructions need not even be the same *)
Theorem da_from_bools_inj : forall s0 s0' b1 b2 d, len b1 < 2 ^ 63 -> len b2 < 2 ^ 63 ->
  da_from_bools s0 b1 = Val d -> da_from_bools s0' b2 = Val d -> b1 = b2.
Proof.
  intros s0 s0' b1 b2 d H1 H2 E1 E2.
  destruct (built (da_of_bools_correct select_in_word_correct popcount_correct s0 b1 H1) E1) as (_ & _ & _ & G1 & _).
  destruct (built (da_of_bools_correct select_in_word_correct popcount_correct s0' b2 H2) E2) as (_ & _ & _ & G2 & _).
  exact (get_inj _ _ _ G1 G2).
Qed.

Corollary da_from_bools_eq_iff : forall s0 b1 b2, len b1 < 2 ^ 63 -> len b2 < 2 ^ 63 ->
  (da_from_bools s0 b1 = da_from_bools s0 b2 <-> b1 = b2).
Proof.
  intros s0 b1 b2 H1 H2. split; [|now intros ->].
  intros E. destruct (da_of_bools_correct select_in_word_correct popcount_correct s0 b1 H1) as (d & E1 & _).
  apply (da_from_bools_inj s0 s0 b1 b2 d); try assumption. now rewrite <- E.
Qed.

Theorem da_new_inj : forall s0 s0' bv1 bv2 d, bv_inv bv1 -> bv_inv bv2 ->
  da_new s0 bv1 = Val d -> da_new s0' bv2 = Val d -> bv1 = bv2.
Proof.
  intros s0 s0' bv1 bv2 d I1 I2 E1 E2.
  destruct (built (da_of_inv_correct select_in_word_correct popcount_correct s0 bv1 I1) E1) as (K1 & _).
  destruct (built (da_of_inv_correct select_in_word_correct popcount_correct s0' bv2 I2) E2) as (K2 & _).
  congruence.
Qed.

(* the quad vector stores v mod 4 of every collected value: injective up to [stored] *)
Theorem qv_from_iter_inj : forall v1 v2 q,
  qv_from_iter v1 = Val q -> qv_from_iter v2 = Val q -> stored v1 = stored v2.
Proof.
  intros v1 v2 q E1 E2.
  destruct (built (qv_from_iter_correct v1) E1) as (_ & _ & G1 & _).
  destruct (built (qv_from_iter_correct v2) E2) as (_ & _ & G2 & _).
  exact (get_inj _ _ _ G1 G2).
Qed.

Corollary qv_from_iter_eq_iff : forall v1 v2,
  Forall (fun v => (0 <= v < 4)%Z) v1 -> Forall (fun v => (0 <= v < 4)%Z) v2 ->
  (qv_from_iter v1 = qv_from_iter v2 <-> v1 = v2).
Proof.
  intros v1 v2 HF1 HF2. split; [|now intros ->].
  intros E. destruct (qv_from_iter_correct v1) as (q & E1 & _).
  assert (Hs : stored v1 = stored v2) by (apply (qv_from_iter_inj v1 v2 q); [exact E1|now rewrite <- E]).
  clear - HF1 HF2 Hs. revert v2 HF2 Hs. induction HF1 as [|x v1 Hx _ IH]; intros [|y v2] HF2 Hs.
  - reflexivity.
  - discriminate Hs.
  - discriminate Hs.
  - inversion HF2 as [|y' v2' Hy HF2']. subst. unfold stored in Hs. cbn [map] in Hs.
    injection Hs as Hxy Hs. f_equal; [|apply IH; assumption].
    rewrite Z.mod_small in Hxy by lia. rewrite Z.mod_small in Hxy by lia. lia.
Qed.

(* [stored] cannot be dropped: values that differ above bit 1 collect to the same vector *)
Example qv_from_iter_not_inj :
  qv_from_iter [1%Z; 6%Z] = qv_from_iter [5%Z; (-2)%Z] /\ [1%Z; 6%Z] <> [5%Z; (-2)%Z].
Proof. split; [vm_compute; reflexivity|discriminate]. Qed.

(* two different small sequences build (without fault) different binary wavelet trees: the stored
   words of the levels differ *)
Definition bwt_words (o : outcome bwt) : option (list (list N)) :=
  match o with
  | Val t => Some (map (fun r => bv_words (rsw_bv r)) (w_bvs t))
  | Fault _ => None
  end.
Fixpoint lN_eqb (a b : list N) : bool :=
  match a, b with
  | [], [] => true
  | x :: a', y :: b' => (x =? y) && lN_eqb a' b'
  | _, _ => false
  end.
Fixpoint llN_eqb (a b : list (list N)) : bool :=
  match a, b with
  | [], [] => true
  | x :: a', y :: b' => lN_eqb x y && llN_eqb a' b'
  | _, _ => false
  end.
Definition wt_differ_b (w : N) (compressed : bool) (s1 s2 : list N) (tab : list pcode) : bool :=
  match bwt_words (wt_build w compressed s1 tab), bwt_words (wt_build w compressed s2 tab) with
  | Some a, Some b => negb (llN_eqb a b)
  | _, _ => false
  end.

Lemma lN_eqb_refl a : lN_eqb a a = true.
Proof. induction a as [|x a IH]; [reflexivity|]. cbn [lN_eqb]. rewrite N.eqb_refl, IH. reflexivity. Qed.
Lemma llN_eqb_refl a : llN_eqb a a = true.
Proof. induction a as [|x a IH]; [reflexivity|]. cbn [llN_eqb]. rewrite lN_eqb_refl, IH. reflexivity. Qed.

Lemma wt_differ_b_sound w compressed s1 s2 tab : wt_differ_b w compressed s1 s2 tab = true ->
  (exists t1 t2, wt_build w compressed s1 tab = Val t1 /\ wt_build w compressed s2 tab = Val t2 /\ t1 <> t2).
Proof.
  unfold wt_differ_b. intros H.
  destruct (wt_build w compressed s1 tab) as [t1|f1]; [|discriminate H].
  destruct (wt_build w compressed s2 tab) as [t2|f2]; [|discriminate H].
  exists t1, t2. split; [reflexivity|]. split; [reflexivity|]. intros ->.
  cbn [bwt_words] in H. rewrite llN_eqb_refl in H. discriminate H.
Qed.

Definition gap_ex_s1 : list N := [3; 200; 7; 3; 0; 91].
Definition gap_ex_s2 : list N := [3; 200; 7; 0; 3; 91].   (* two neighbours swapped *)
Definition gap_ex_plain_b : bool := wt_differ_b 8 false gap_ex_s1 gap_ex_s2 [].
Example wt_differ_ex : gap_ex_plain_b = true.
Proof. vm_compute. reflexivity. Qed.

Example wt_differ_ex_values : exists t1 t2,
  wt_build 8 false gap_ex_s1 [] = Val t1 /\ wt_build 8 false gap_ex_s2 [] = Val t2 /\ t1 <> t2.
Proof. apply wt_differ_b_sound. exact wt_differ_ex. Qed.

(* the same two inputs satisfy the premises of wt_new_inj, and the theorem agrees *)
Definition gap_ex_premises_b : bool :=
  forallb (fun x => x <? 2 ^ 8) gap_ex_s1 && forallb (fun x => x <? 2 ^ 8) gap_ex_s2 &&
  (len gap_ex_s1 <? RSQ_MAXN) && (len gap_ex_s2 <? RSQ_MAXN).
Example gap_ex_premises : gap_ex_premises_b = true.
Proof. vm_compute. reflexivity. Qed.

Example wt_new_inj_ex : wt_build 8 false gap_ex_s1 [] <> wt_build 8 false gap_ex_s2 [].
Proof.
  pose proof gap_ex_premises as H. unfold gap_ex_premises_b in H.
  apply andb_prop in H as [H H4]. apply andb_prop in H as [H H3]. apply andb_prop in H as [H1 H2].
  intros E. apply (wt_new_eq_iff 8 gap_ex_s1 gap_ex_s2) in E.
  - discriminate E.
  - left; reflexivity.
  - exact (Forall_ltb _ _ H1).
  - exact (Forall_ltb _ _ H2).
  - lia.
  - lia.
Qed.

(* compressed flavour, over the table of BinWTP.hwt_ex_tab (symbols 0, 2, 5, 9) *)
Definition gap_ex_h2 : list N :=
  [5; 0; 9; 2; 5; 5; 9; 0; 2; 9; 5; 9; 9; 0; 5; 2; 9; 5; 0; 9; 5; 2; 5; 9; 0; 9; 5; 5; 9; 2].
Definition gap_ex_huff_b : bool :=
  wt_differ_b 8 true hwt_ex_seq gap_ex_h2 hwt_ex_tab && table_okb2 hwt_ex_seq hwt_ex_tab && table_okb2 gap_ex_h2 hwt_ex_tab.
Example hwt_differ_ex : gap_ex_huff_b = true.
Proof. vm_compute. reflexivity. Qed.

Definition gap_ex_bits_b : bool :=
  match bv_from_bools [true; false; true; true], bv_from_bools [true; true; false; true] with
  | Val a, Val b =>
      match rsn_new a, rsn_new b, rsw_new a, rsw_new b, da_new true a, da_new true b with
      | Val n1, Val n2, Val w1, Val w2, Val d1, Val d2 =>
          negb (lN_eqb (bv_words (rsn_bv n1)) (bv_words (rsn_bv n2))) &&
          negb (lN_eqb (bv_words (rsw_bv w1)) (bv_words (rsw_bv w2))) &&
          negb (lN_eqb (bv_words (da_bv d1)) (bv_words (da_bv d2)))
      | _, _, _, _, _, _ => false
      end
  | _, _ => false
  end.
Example bits_differ_ex : gap_ex_bits_b = true.
Proof. vm_compute. reflexivity. Qed.

Print Assumptions wt_build_ok.
Print Assumptions hwt_build_ok.
Print Assumptions wt_spec_inj.
Print Assumptions hwt_spec_inj.
Print Assumptions wt_new_inj.
Print Assumptions wt_new_eq_iff.
Print Assumptions hwt_build_inj.
Print Assumptions hwt_build_inj_tabs.
Print Assumptions hwt_build_eq_iff.
Print Assumptions wt_width_independent.
Print Assumptions wt_width_independent_more.
Print Assumptions hwt_any_table.
Print Assumptions wt_hwt_agree.
Print Assumptions hwt_unchecked.
Print Assumptions hwt_unchecked_checked.
Print Assumptions rsn_inj.
Print Assumptions rsw_inj.
Print Assumptions rsn_new_inj_bv.
Print Assumptions rsw_new_inj_bv.
Print Assumptions da_from_bools_inj.
Print Assumptions da_from_bools_eq_iff.
Print Assumptions da_new_inj.
Print Assumptions qv_from_iter_inj.
Print Assumptions qv_from_iter_eq_iff.
Print Assumptions qv_from_iter_not_inj.
Print Assumptions wt_differ_b_sound.
Print Assumptions wt_differ_ex.
Print Assumptions wt_differ_ex_values.
Print Assumptions wt_new_inj_ex.
Print Assumptions hwt_differ_ex.
Print Assumptions bits_differ_ex.
