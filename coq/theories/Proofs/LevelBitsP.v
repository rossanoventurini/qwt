(* C15, the link between the tree model and the entropy mathematics (Spec/Entropy.v): the level
   data of a Huffman-shaped wavelet tree is exactly  sum_c f_c * len_c  code fragments
   (2-bit symbols for the quad tree, bits for the binary tree).
   Over Theory/HuffWM.v: level l of the Huffman-shaped wavelet matrix is a permutation of the
   symbols with clen > l, so the level lengths sum to  sum_x clen x;  regrouped by symbol,
   sum_x g x  =  cost fs (map g syms)  over the distinct symbols. *)
From Coq Require Import ZArith Lia ZifyBool ZifyN ZifyNat Permutation.
From QwtModel Require Import ListX Seq Consts QVec RSQ QWT BitVec RSBin Huff ListXP OutcomeP ConstsOk RSQBuild RSQP SeqP RSBinL.
From QwtModel Require Import WaveletMatrix HuffWM Codes QWTArith HQWTBridge HQWTCode.
From QwtModel Require Import BinWTBuild BinWTHuff.
From QwtModel Require HQWTP BinWTP WordsP QWTP UtilsP.

Lemma filter_perm {A} (p : A -> bool) l1 l2 : Permutation l1 l2 -> Permutation (filter p l1) (filter p l2).
Proof.
  induction 1 as [|x l1 l2 H IH|x y l|l1 l2 l3 H1 IH1 H2 IH2]; cbn [filter].
  - constructor.
  - destruct (p x); [now constructor|exact IH].
  - destruct (p x), (p y); try apply Permutation_refl. apply perm_swap.
  - exact (Permutation_trans IH1 IH2).
Qed.

Lemma sumN_const {B} (c : N) (l : list B) : sumN (map (fun _ => c) l) = c * len l.
Proof. induction l as [|x l IH]; cbn [map sumN]; [unfold len; cbn [length]; lia|]. rewrite IH, len_cons. lia. Qed.

Section LevelTotal.
Variable A : Type.
Variable a : nat.
Variable dig : nat -> A -> N.
Hypothesis Hdig : forall l x, dig l x < N.of_nat a.
Variable clen : A -> nat.

Local Notation parts := (WaveletMatrix.parts A dig).
Local Notation Q := (HuffWM.Q A a dig clen).
Local Notation hwm_levels := (HuffWM.hwm_levels A a dig clen).

(* [parts] is the stable partition by the digit of the level (UtilsP.group_by) *)
Lemma parts_perm l W : Permutation (parts l a W) W.
Proof.
  assert (E : forall k, parts l k W = UtilsP.group_by (dig l) 0 k W).
  { induction k as [|k IH]; [reflexivity|]. cbn [WaveletMatrix.parts]. now rewrite IH, UtilsP.group_by_snoc. }
  rewrite E. apply Permutation_sym, UtilsP.group_by_perm. intros x _. pose proof (Hdig l x). lia.
Qed.

Lemma Q_perm : forall l s, (forall x, In x s -> (0 < clen x)%nat) ->
  Permutation (Q l s) (filter (fun x => (l <? clen x)%nat) s).
Proof.
  intros l s Hpos. induction l as [|l IH]; cbn [HuffWM.Q].
  - rewrite filter_all; [apply Permutation_refl|]. intros x Hx. specialize (Hpos x Hx). lia.
  - eapply Permutation_trans; [apply parts_perm|].
    eapply Permutation_trans; [apply filter_perm; exact IH|].
    rewrite filter_filter.
    rewrite (filter_ext_in _ (fun x => (S l <? clen x)%nat) s); [apply Permutation_refl|].
    intros x _. lia.
Qed.

Lemma sum_ind_lt c : forall M, sumN (map (fun l => if (l <? c)%nat then 1 else 0) (seq 0 M)) = N.of_nat (Nat.min c M).
Proof.
  induction M as [|M IH]; [cbn [seq map sumN]; lia|].
  rewrite seq_S, map_app, sumN_app, IH. cbn [Nat.add map sumN].
  destruct (Nat.ltb_spec M c); lia.
Qed.

Lemma level_sum_filter M : forall s,
  sumN (map (fun l => len (filter (fun x => (l <? clen x)%nat) s)) (seq 0 M)) =
  sumN (map (fun x => N.of_nat (Nat.min (clen x) M)) s).
Proof.
  induction s as [|x s IH].
  - cbn [filter map sumN]. induction (seq 0 M) as [|l ls IHl]; cbn [map sumN]; [reflexivity|].
    rewrite IHl. reflexivity.
  - cbn [map sumN]. rewrite <- IH, <- sum_ind_lt. clear IH.
    induction (seq 0 M) as [|l ls IHl]; cbn [map sumN]; [lia|].
    rewrite IHl. cbn [filter]. destruct (l <? clen x)%nat; [rewrite len_cons|]; lia.
Qed.

Lemma hwm_levels_lens n : forall l0 s,
  map (@len N) (hwm_levels l0 n s) = map (fun l => len (Q l s)) (seq l0 n).
Proof.
  induction n as [|n IH]; intros l0 s; cbn [HuffWM.hwm_levels map seq]; [reflexivity|].
  rewrite IH, len_map. reflexivity.
Qed.

Theorem hwm_levels_total : forall M s, (forall x, In x s -> (0 < clen x <= M)%nat) ->
  sumN (map (@len N) (hwm_levels 0 M s)) = sumN (map (fun x => N.of_nat (clen x)) s).
Proof.
  intros M s H. rewrite hwm_levels_lens.
  rewrite (map_ext_in _ (fun l => len (filter (fun x => (l <? clen x)%nat) s))).
  2:{ intros l _. apply len_perm, Q_perm. intros x Hx. apply (H x Hx). }
  rewrite level_sum_filter. f_equal. apply map_ext_in. intros x Hx. specialize (H x Hx). lia.
Qed.

End LevelTotal.

Lemma sumN_by_symbol (G : N -> N) syms : NoDup syms -> forall seq, (forall x, In x seq -> In x syms) ->
  sumN (map G seq) = sumN (map (fun c => countN c seq * G c) syms).
Proof.
  intros ND. induction seq as [|x seq IH]; intros Hin.
  - cbn [map sumN countN]. clear ND Hin. induction syms as [|c syms IHs]; cbn [map sumN]; [reflexivity|].
    rewrite <- IHs. lia.
  - cbn [map sumN]. rewrite IH by (intros y Hy; apply Hin; now right).
    assert (Hx : In x syms) by (apply Hin; now left). clear IH Hin.
    induction syms as [|c syms IHs]; [contradiction|]. inversion ND as [|? ? Hn ND']; subst.
    cbn [map sumN countN]. destruct Hx as [->|Hx].
    + rewrite N.eqb_refl.
      assert (E : sumN (map (fun c => ((if x =? c then 1 else 0) + countN c seq) * G c) syms) =
                  sumN (map (fun c => countN c seq * G c) syms)).
      { f_equal. apply map_ext_in. intros c Hc. destruct (N.eqb_spec x c) as [->|]; [contradiction|]. lia. }
      rewrite E. lia.
    + destruct (N.eqb_spec x c) as [->|Hne]; [contradiction|].
      specialize (IHs ND' Hx). cbn [countN] in IHs. lia.
Qed.

Lemma of_nat_fold_plus l : N.of_nat (fold_right plus 0%nat l) = sumN (map N.of_nat l).
Proof. induction l as [|x l IH]; cbn [fold_right map sumN]; [reflexivity|]. rewrite <- IH. lia. Qed.

From QwtModel Require Import Entropy.

Definition freqs (seq : list N) : list nat := map (fun c => N.to_nat (countN c seq)) (nodup N.eq_dec seq).

Lemma cost_map (f g : N -> nat) syms :
  cost (map f syms) (map g syms) = fold_right plus 0%nat (map (fun c => (f c * g c)%nat) syms).
Proof.
  unfold cost. f_equal. induction syms as [|c syms IH]; cbn [map combine fst snd]; [reflexivity|].
  now rewrite IH.
Qed.

Theorem sum_by_frequency : forall (seq : list N) (g : N -> nat),
  sumN (map (fun x => N.of_nat (g x)) seq) =
  N.of_nat (cost (map (fun c => N.to_nat (countN c seq)) (nodup N.eq_dec seq)) (map g (nodup N.eq_dec seq))).
Proof.
  intros seq g. rewrite cost_map, of_nat_fold_plus, map_map.
  rewrite (sumN_by_symbol (fun x => N.of_nat (g x)) (nodup N.eq_dec seq) (NoDup_nodup _ _) seq).
  - f_equal. apply map_ext. intros c. lia.
  - intros x Hx. now apply nodup_In.
Qed.

Theorem freq_total : forall seq : list N,
  total (map (fun c => N.to_nat (countN c seq)) (nodup N.eq_dec seq)) = N.to_nat (len seq).
Proof.
  intros seq. unfold total. apply Nat2N.inj. rewrite N2Nat.id, of_nat_fold_plus, map_map.
  rewrite <- (N.mul_1_l (len seq)), <- (sumN_const 1 seq).
  rewrite (sumN_by_symbol (fun _ => 1) (nodup N.eq_dec seq) (NoDup_nodup _ _) seq)
    by (intros x Hx; now apply nodup_In).
  f_equal. apply map_ext. intros c. lia.
Qed.

Corollary freq_total_length : forall seq : list N,
  total (map (fun c => N.to_nat (countN c seq)) (nodup N.eq_dec seq)) = length seq.
Proof. intros seq. rewrite freq_total. unfold len. lia. Qed.

Theorem freq_pos : forall seq : list N,
  Forall (fun f => 0 < f)%nat (map (fun c => N.to_nat (countN c seq)) (nodup N.eq_dec seq)).
Proof.
  intros seq. apply Forall_forall. intros f Hf. apply in_map_iff in Hf as (c & <- & Hc).
  apply nodup_In in Hc. apply countN_pos_In in Hc. lia.
Qed.

Theorem freq_nonempty : forall seq : list N, seq <> [] ->
  map (fun c => N.to_nat (countN c seq)) (nodup N.eq_dec seq) <> [].
Proof.
  intros [|x s] H; [congruence|]. intros E. apply map_eq_nil in E.
  assert (Hx : In x (nodup N.eq_dec (x :: s))) by (apply nodup_In; now left).
  rewrite E in Hx. contradiction.
Qed.

Lemma Forall2_map_r {A B C} (R : A -> C -> Prop) (f : B -> C) l1 l2 :
  Forall2 (fun x y => R x (f y)) l1 l2 -> Forall2 R l1 (map f l2).
Proof. induction 1; cbn [map]; constructor; assumption. Qed.

(* every occurring symbol has a code of 1 .. M fragments of k bits, M = number of levels *)
Lemma clen_bounds k seq tab : 0 < k -> len tab < 2 ^ 64 ->
  (forall x, In x seq -> exists c, nthN tab x = Some c /\ code_wf k c = true) ->
  forall x, In x seq -> (0 < code_clen k tab x <= N.to_nat (maxN (map pc_len tab) / k))%nat.
Proof.
  intros Hk Htab Hwf x Hx. destruct (Hwf x Hx) as (c & Hc & W).
  pose proof (nthN_some_lt _ _ _ Hc) as Hlt.
  pose proof (maxN_ge (map pc_len tab) (pc_len c) (in_map pc_len _ _ (nthN_In _ _ _ Hc))) as Hle.
  unfold code_clen, sym_index. rewrite N.mod_small, Hc by lia.
  assert (Hp : 0 < pc_len c /\ pc_len c mod k = 0) by (unfold code_wf in W; lia).
  pose proof (N.div_le_mono _ _ k ltac:(lia) Hle).
  pose proof (N.div_mod (pc_len c) k ltac:(lia)) as Ed.
  destruct (N.eq_dec (pc_len c / k) 0) as [E0|]; [rewrite E0 in Ed|]; lia.
Qed.

(* the builder's levels are the levels of the theory *)
Lemma hq_build_levels bsize seq tab t : (bsize = 256 \/ bsize = 512) -> len seq < RSQ_MAXN ->
  HQWTP.table_ok seq tab -> seq <> [] -> hq_build bsize seq tab = Val t ->
  Forall2 (rsq_spec bsize) (h_qvs t)
    (hwm_levels N 4 (code_dig 2 tab) (code_clen 2 tab) 0 (N.to_nat (maxN (map pc_len tab) / 2)) seq) /\
  h_lens t = map (@len N)
    (hwm_levels N 4 (code_dig 2 tab) (code_clen 2 tab) 0 (N.to_nat (maxN (map pc_len tab) / 2)) seq).
Proof.
  intros Hb Hn (Htab & Hwf & _) Hne E.
  destruct seq as [|x0 seq']; [congruence|].
  rewrite HQWTP.hq_build_cons in E. set (s := x0 :: seq') in *.
  assert (HT : HQWTBridge.fin_tail tab s 0 []) by (intros x []).
  destruct (hq_levels_ok tab s Htab Hwf bsize Hb Hn (N.to_nat (maxN (map pc_len tab) / 2)) 0%nat [] HT)
    as (qvs & lens & E' & H1 & H2).
  cbn [Q] in E'. rewrite app_nil_r in E'. change (2 * (N.of_nat 0 + 1)) with 2 in E'.
  rewrite E' in E. cbn [bind] in E. injection E as <-. cbn [h_qvs h_lens]. split; assumption.
Qed.

Theorem hq_level_symbols : forall w bsize seq tab t, HQWTP.width_ok w -> (bsize = 256 \/ bsize = 512) ->
  Forall (fun x => x < 2 ^ w) seq -> len seq < RSQ_MAXN -> HQWTP.table_ok seq tab ->
  hq_build bsize seq tab = Val t ->
  sumN (h_lens t) = sumN (map (fun x => N.of_nat (code_clen 2 tab x)) seq).
Proof.
  intros w bsize seq tab t _ Hb _ Hn Htok E.
  destruct seq as [|x0 seq'] eqn:Es.
  - unfold hq_build in E. destruct (rsq_default bsize) as [d|f]; cbn [bind] in E; [|discriminate E].
    injection E as <-. reflexivity.
  - rewrite <- Es in *. assert (Hne : seq <> []) by (rewrite Es; discriminate).
    destruct (hq_build_levels bsize seq tab t Hb Hn Htok Hne E) as [_ H2]. rewrite H2.
    destruct Htok as (Htab & Hwf & _).
    apply (hwm_levels_total N 4 (code_dig 2 tab) (HQWTBridge.dig_lt tab) (code_clen 2 tab)).
    exact (clen_bounds 2 seq tab ltac:(lia) Htab Hwf).
Qed.

Theorem hq_level_lens : forall w bsize seq tab t, HQWTP.width_ok w -> (bsize = 256 \/ bsize = 512) ->
  Forall (fun x => x < 2 ^ w) seq -> len seq < RSQ_MAXN -> HQWTP.table_ok seq tab ->
  hq_build bsize seq tab = Val t ->
  Forall2 (fun r n => rsq_len r = n) (h_qvs t) (h_lens t).
Proof.
  intros w bsize seq tab t _ Hb _ Hn Htok E.
  destruct seq as [|x0 seq'] eqn:Es.
  - unfold hq_build in E. destruct (rsq_default_correct bsize Hb) as (d & Ed & Hd). rewrite Ed in E.
    cbn [bind] in E. injection E as <-. cbn [h_qvs h_lens]. constructor; [|constructor]. apply Hd.
  - rewrite <- Es in *. assert (Hne : seq <> []) by (rewrite Es; discriminate).
    destruct (hq_build_levels bsize seq tab t Hb Hn Htok Hne E) as [H1 H2]. rewrite H2.
    apply Forall2_map_r. eapply Forall2_imp; [|exact H1]. intros r D Hr. apply Hr.
Qed.

Theorem hwt_level_bits : forall w seq tab t, BinWTP.width_ok w -> Forall (fun x => x < 2 ^ w) seq ->
  len seq < RSQ_MAXN -> BinWTP.table_ok2 seq tab -> wt_build w true seq tab = Val t ->
  sumN (w_lens t) = sumN (map (fun x => N.of_nat (code_clen 1 tab x)) seq).
Proof.
  intros w seq tab t _ _ Hn (Htab & Hwf & Hocc & _) E.
  destruct seq as [|x0 seq'] eqn:Es.
  - cbn [wt_build] in E. injection E as <-. reflexivity.
  - rewrite <- Es in *. assert (Hne : seq <> []) by (rewrite Es; discriminate).
    destruct (BinWTP.hwt_build_tree WordsP.select_in_word_correct WordsP.popcount_correct w seq tab Hn Hne Htab Hwf Hocc)
      as (bvs & lens & E' & _ & EL).
    rewrite E' in E. injection E as <-. cbn [w_lens].
    rewrite EL, (map_ext _ (fun l => len (Q N 2 (code_dig 1 tab) (code_clen 1 tab) l seq)))
      by (intros l; apply len_map).
    rewrite <- hwm_levels_lens.
    pose proof (clen_bounds 1 seq tab ltac:(lia) Htab Hwf) as Hb. rewrite N.div_1_r in Hb.
    exact (hwm_levels_total N 2 (code_dig 1 tab) (BinWTHuff.dig_lt tab) (code_clen 1 tab) _ seq Hb).
Qed.

Theorem wt_plain_level_bits : forall w seq t, BinWTP.width_ok w -> Forall (fun x => x < 2 ^ w) seq ->
  len seq < RSQ_MAXN -> wt_build w false seq [] = Val t ->
  Forall (fun n => n = len seq) (w_lens t) /\ len (w_lens t) = w_n_levels t /\
  sumN (w_lens t) = len seq * w_n_levels t.
Proof.
  intros w seq t Hwok HF Hn E.
  assert (Hwpos : 0 < w) by (unfold BinWTP.width_ok in Hwok; lia).
  destruct seq as [|x0 seq'].
  - cbn [wt_build] in E. injection E as <-. cbn [w_lens w_n_levels sumN]. repeat split. constructor.
  - destruct (BinWTP.wt_build_plain_tree WordsP.select_in_word_correct WordsP.popcount_correct w _ Hwpos HF Hn
                ltac:(discriminate)) as (bvs & lens & E' & _ & EL).
    rewrite E' in E. injection E as <-. cbn [w_lens w_n_levels]. set (s := x0 :: seq') in *.
    rewrite EL, (map_ext _ (fun _ => len s)) by (intros l; apply bD_len).
    split; [|split].
    + apply Forall_forall. intros n Hn'. apply in_map_iff in Hn' as (l & <- & _). reflexivity.
    + unfold len. rewrite map_length, seq_length. lia.
    + rewrite sumN_const. unfold len at 2. rewrite seq_length. lia.
Qed.

Lemma wm_levels_lens {A} a (dg : nat -> A -> N) (Hdg : forall l x, dg l x < N.of_nat a) s : forall n l0,
  Forall (fun D => len D = len s) (wm_levels A a dg l0 n s) /\ length (wm_levels A a dg l0 n s) = n.
Proof.
  induction n as [|n IH]; intros l0; cbn [wm_levels length]; [split; [constructor|reflexivity]|].
  destruct (IH (S l0)) as [H1 H2]. split; [|now rewrite H2].
  constructor; [|exact H1]. rewrite len_map. apply (lev_length A a dg Hdg).
Qed.

Lemma Forall2_len {A B} (R : A -> B -> Prop) l1 l2 : Forall2 R l1 l2 -> length l1 = length l2.
Proof. induction 1; cbn [length]; congruence. Qed.

Theorem qwt_plain_level_symbols : forall w bsize seq t, QWTP.width_ok w -> (bsize = 256 \/ bsize = 512) ->
  Forall (fun x => x < 2 ^ w) seq -> len seq < RSQ_MAXN -> qwt_new w bsize seq = Val t ->
  Forall (fun r => rsq_len r = len seq) (q_qvs t) /\ (seq <> [] -> len (q_qvs t) = q_n_levels t) /\
  sumN (map rsq_len (q_qvs t)) = len seq * q_n_levels t.
Proof.
  intros w bsize seq t Hwok Hb HF Hn E.
  destruct (built (QWTP.qwt_new_correct w bsize seq Hwok Hb HF Hn) E) as (_ & _ & _ & ENL & _).
  destruct seq as [|x0 seq'] eqn:Eseq.
  - unfold qwt_new in E. destruct (rsq_default_correct bsize Hb) as (d & Ed & Hd). rewrite Ed in E.
    cbn [bind] in E. injection E as <-. cbn [q_qvs q_n_levels map sumN].
    assert (E0 : rsq_len d = 0) by apply Hd. rewrite E0.
    split; [constructor; [exact (proj1 Hd)|constructor]|]. split; [congruence|reflexivity].
  - rewrite <- Eseq in *. assert (Hne : seq <> []) by (rewrite Eseq; discriminate).
    replace (len seq =? 0) with false in ENL by (rewrite Eseq, len_cons; lia). rewrite ENL.
    pose proof (built (QWTP.qwt_new_levels w bsize seq Hwok Hb HF Hn Hne) E) as HF2. cbv beta in HF2.
    set (L := N.to_nat (QWTP.levels_of seq)) in *.
    destruct (wm_levels_lens 4 (qdig L) (qdig_lt L) seq L 0%nat) as [HD HLen].
    assert (HQ : len (q_qvs t) = QWTP.levels_of seq).
    { unfold len. rewrite (Forall2_len _ _ _ HF2), HLen. unfold L. lia. }
    assert (HA : Forall (fun r => rsq_len r = len seq) (q_qvs t)).
    { clear - HF2 HD. induction HF2 as [|r D rs Ds Hr HF2 IH]; [constructor|].
      inversion HD as [|? ? HD1 HD2]; subst. constructor; [|exact (IH HD2)].
      destruct Hr as [Hr _]. now rewrite Hr. }
    split; [exact HA|]. split; [intros _; exact HQ|].
    rewrite (map_ext_in rsq_len (fun _ => len seq)).
    + rewrite sumN_const, HQ. reflexivity.
    + intros r Hr. rewrite Forall_forall in HA. exact (HA r Hr).
Qed.

From Coq Require Import Reals.

Theorem hq_level_symbols_cost : forall w bsize seq tab t, HQWTP.width_ok w -> (bsize = 256 \/ bsize = 512) ->
  Forall (fun x => x < 2 ^ w) seq -> len seq < RSQ_MAXN -> HQWTP.table_ok seq tab ->
  hq_build bsize seq tab = Val t ->
  let syms := nodup N.eq_dec seq in
  let fs := map (fun c => N.to_nat (countN c seq)) syms in
  let ls := map (code_clen 2 tab) syms in
  sumN (h_lens t) = N.of_nat (cost fs ls).
Proof.
  intros w bsize seq tab t Hw Hb HF Hn Htok E syms fs ls.
  rewrite (hq_level_symbols w bsize seq tab t Hw Hb HF Hn Htok E). apply sum_by_frequency.
Qed.

Theorem hwt_level_bits_cost : forall w seq tab t, BinWTP.width_ok w -> Forall (fun x => x < 2 ^ w) seq ->
  len seq < RSQ_MAXN -> BinWTP.table_ok2 seq tab -> wt_build w true seq tab = Val t ->
  let syms := nodup N.eq_dec seq in
  let fs := map (fun c => N.to_nat (countN c seq)) syms in
  let ls := map (code_clen 1 tab) syms in
  sumN (w_lens t) = N.of_nat (cost fs ls).
Proof.
  intros w seq tab t Hw HF Hn Htok E syms fs ls.
  rewrite (hwt_level_bits w seq tab t Hw HF Hn Htok E). apply sum_by_frequency.
Qed.

Theorem hq_level_bits_entropy : forall w bsize seq tab t, HQWTP.width_ok w -> (bsize = 256 \/ bsize = 512) ->
  Forall (fun x => x < 2 ^ w) seq -> len seq < RSQ_MAXN -> HQWTP.table_ok seq tab ->
  hq_build bsize seq tab = Val t -> seq <> [] ->
  let syms := nodup N.eq_dec seq in
  let fs := map (fun c => N.to_nat (countN c seq)) syms in
  let ls := map (code_clen 2 tab) syms in
  optimal 4 fs ls ->
  (2 * INR (N.to_nat (sumN (h_lens t))) <= INR (N.to_nat (len seq)) * (H0 fs + 2))%R.
Proof.
  intros w bsize seq tab t Hw Hb HF Hn Htok E Hne syms fs ls Hopt.
  rewrite (hq_level_symbols w bsize seq tab t Hw Hb HF Hn Htok E), sum_by_frequency, Nnat.Nat2N.id.
  rewrite <- (freq_total seq).
  apply optimal_entropy_quad; [apply freq_pos|now apply freq_nonempty|exact Hopt].
Qed.

Theorem hwt_level_bits_entropy : forall w seq tab t, BinWTP.width_ok w -> Forall (fun x => x < 2 ^ w) seq ->
  len seq < RSQ_MAXN -> BinWTP.table_ok2 seq tab -> wt_build w true seq tab = Val t -> seq <> [] ->
  let syms := nodup N.eq_dec seq in
  let fs := map (fun c => N.to_nat (countN c seq)) syms in
  let ls := map (code_clen 1 tab) syms in
  optimal 2 fs ls ->
  (INR (N.to_nat (sumN (w_lens t))) <= INR (N.to_nat (len seq)) * (H0 fs + 1))%R.
Proof.
  intros w seq tab t Hw HF Hn Htok E Hne syms fs ls Hopt.
  rewrite (hwt_level_bits w seq tab t Hw HF Hn Htok E), sum_by_frequency, Nnat.Nat2N.id.
  rewrite <- (freq_total seq).
  apply optimal_entropy_bin; [apply freq_pos|now apply freq_nonempty|exact Hopt].
Qed.

(* never more level data than a plain tree of L levels: an optimal code over at most a^L symbols costs at
   most L fragments per element *)
Lemma optimal_sum_le a L (seq : list N) (g : N -> nat) : (2 <= a)%nat -> (1 <= L)%nat ->
  (length (nodup N.eq_dec seq) <= a ^ L)%nat ->
  optimal a (map (fun c => N.to_nat (countN c seq)) (nodup N.eq_dec seq)) (map g (nodup N.eq_dec seq)) ->
  sumN (map (fun x => N.of_nat (g x)) seq) <= len seq * N.of_nat L.
Proof.
  intros Ha HL Hlen Hopt. rewrite sum_by_frequency.
  rewrite <- (map_length (fun c => N.to_nat (countN c seq))) in Hlen.
  pose proof (optimal_le_fixed a L _ _ Ha HL Hlen Hopt) as H. rewrite freq_total in H. nia.
Qed.

Theorem hq_never_more_than_plain : forall w bsize seq tab t L, HQWTP.width_ok w -> (bsize = 256 \/ bsize = 512) ->
  Forall (fun x => x < 2 ^ w) seq -> len seq < RSQ_MAXN -> HQWTP.table_ok seq tab ->
  hq_build bsize seq tab = Val t ->
  let syms := nodup N.eq_dec seq in
  let fs := map (fun c => N.to_nat (countN c seq)) syms in
  let ls := map (code_clen 2 tab) syms in
  (1 <= L)%nat -> (length syms <= 4 ^ L)%nat -> optimal 4 fs ls ->
  sumN (h_lens t) <= len seq * N.of_nat L.
Proof.
  intros w bsize seq tab t L Hw Hb HF Hn Htok E syms fs ls HL Hlen Hopt.
  rewrite (hq_level_symbols w bsize seq tab t Hw Hb HF Hn Htok E).
  exact (optimal_sum_le 4 L seq (code_clen 2 tab) ltac:(lia) HL Hlen Hopt).
Qed.

Theorem hwt_never_more_than_plain : forall w seq tab t L, BinWTP.width_ok w -> Forall (fun x => x < 2 ^ w) seq ->
  len seq < RSQ_MAXN -> BinWTP.table_ok2 seq tab -> wt_build w true seq tab = Val t ->
  let syms := nodup N.eq_dec seq in
  let fs := map (fun c => N.to_nat (countN c seq)) syms in
  let ls := map (code_clen 1 tab) syms in
  (1 <= L)%nat -> (length syms <= 2 ^ L)%nat -> optimal 2 fs ls ->
  sumN (w_lens t) <= len seq * N.of_nat L.
Proof.
  intros w seq tab t L Hw HF Hn Htok E syms fs ls HL Hlen Hopt.
  rewrite (hwt_level_bits w seq tab t Hw HF Hn Htok E).
  exact (optimal_sum_le 2 L seq (code_clen 1 tab) ltac:(lia) HL Hlen Hopt).
Qed.

(* five symbols, quad code lengths 1,1,1,2,2 fragments (2,2,2,4,4 bits); 24 elements *)
Definition lb_ex_seq : list N :=
  [1; 4; 7; 3; 1; 1; 6; 4; 7; 1; 3; 4; 1; 7; 7; 6; 1; 4; 3; 1; 7; 4; 1; 6].
Definition lb_ex_lens : list (N * N) := [(1, 2); (4, 2); (7, 2); (3, 4); (6, 4)].

Definition lb_ex_check (bsize : N) : bool :=
  match craft4 lb_ex_lens 7 with
  | Val tab =>
      HQWTP.table_okb lb_ex_seq tab &&
      match hq_build bsize lb_ex_seq tab with
      | Val t =>
          (sumN (h_lens t) =? sumN (map (fun x => N.of_nat (code_clen 2 tab x)) lb_ex_seq)) &&
          (sumN (h_lens t) =?
             N.of_nat (cost (map (fun c => N.to_nat (countN c lb_ex_seq)) (nodup N.eq_dec lb_ex_seq))
                            (map (code_clen 2 tab) (nodup N.eq_dec lb_ex_seq)))) &&
          (sumN (h_lens t) =? 30) &&
          (len (h_lens t) =? 2) &&
          forallb (fun p => rsq_len (fst p) =? snd p) (combine (h_qvs t) (h_lens t)) &&
          (total (map (fun c => N.to_nat (countN c lb_ex_seq)) (nodup N.eq_dec lb_ex_seq)) =? 24)%nat
      | Fault _ => false
      end
  | Fault _ => false
  end.
Example lb_example_256 : lb_ex_check 256 = true.
Proof. vm_compute. reflexivity. Qed.
Example lb_example_512 : lb_ex_check 512 = true.
Proof. vm_compute. reflexivity. Qed.

(* the same on the examples of HQWTP / BinWTP, through the theorems *)
Example lb_example_hq_thm : forall t, hq_build 256 HQWTP.hq_ex_seq HQWTP.hq_ex_tab = Val t ->
  sumN (h_lens t) = 40.
Proof.
  intros t E.
  assert (HF : Forall (fun x => x < 2 ^ 8) HQWTP.hq_ex_seq) by (apply BinWTP.Forall_ltb; vm_compute; reflexivity).
  rewrite (hq_level_symbols 8 256 _ _ t (or_introl eq_refl) (or_introl eq_refl) HF eq_refl HQWTP.hq_ex_table_ok E).
  vm_compute. reflexivity.
Qed.

Example lb_example_hwt_thm : forall t, wt_build 8 true BinWTP.hwt_ex_seq BinWTP.hwt_ex_tab = Val t ->
  sumN (w_lens t) = 60.
Proof.
  intros t E.
  assert (HF : Forall (fun x => x < 2 ^ 8) BinWTP.hwt_ex_seq) by (apply BinWTP.Forall_ltb; vm_compute; reflexivity).
  rewrite (hwt_level_bits 8 _ _ t (or_introl eq_refl) HF eq_refl BinWTP.hwt_ex_table_ok E).
  vm_compute. reflexivity.
Qed.

(* the hypotheses of the entropy corollary are jointly satisfiable: four symbols, one fragment each
   (optimal: every admissible assignment has all lengths >= 1) *)
Definition ent_ex_seq : list N := [0; 1; 2; 3; 0; 0; 1; 0; 2; 0].
Definition ent_ex_tab : list pcode := [mk_pc 3 2; mk_pc 2 2; mk_pc 1 2; mk_pc 0 2].
Definition ent_ex_check : bool :=
  match craft4 [(0, 2); (1, 2); (2, 2); (3, 2)] 3 with
  | Val tab => HQWTP.table_okb ent_ex_seq tab && is_val (hq_build 256 ent_ex_seq tab) &&
               forallb (fun c => (code_clen 2 tab c =? 1)%nat) (nodup N.eq_dec ent_ex_seq)
  | Fault _ => false
  end.
Example ent_example_check : ent_ex_check = true.
Proof. vm_compute. reflexivity. Qed.
Example ent_ex_craft : craft4 [(0, 2); (1, 2); (2, 2); (3, 2)] 3 = Val ent_ex_tab.
Proof. vm_compute. reflexivity. Qed.
Example ent_ex_table_ok : HQWTP.table_ok ent_ex_seq ent_ex_tab.
Proof. apply HQWTP.table_okb_sound. vm_compute. reflexivity. Qed.
Example ent_ex_optimal :
  optimal 4 (map (fun c => N.to_nat (countN c ent_ex_seq)) (nodup N.eq_dec ent_ex_seq))
            (map (code_clen 2 ent_ex_tab) (nodup N.eq_dec ent_ex_seq)).
Proof.
  split; [vm_compute; reflexivity|]. intros ls' Hlen Hall _.
  replace (cost _ (map (code_clen 2 ent_ex_tab) (nodup N.eq_dec ent_ex_seq)))
    with (total (map (fun c => N.to_nat (countN c ent_ex_seq)) (nodup N.eq_dec ent_ex_seq)))
    by (vm_compute; reflexivity).
  apply cost_ge_total; assumption.
Qed.
Example ent_example_thm : exists t, hq_build 256 ent_ex_seq ent_ex_tab = Val t /\
  (2 * INR (N.to_nat (sumN (h_lens t))) <=
   INR (N.to_nat (len ent_ex_seq)) *
   (H0 (map (fun c => N.to_nat (countN c ent_ex_seq)) (nodup N.eq_dec ent_ex_seq)) + 2))%R.
Proof.
  assert (HF : Forall (fun x => x < 2 ^ 8) ent_ex_seq) by (apply BinWTP.Forall_ltb; vm_compute; reflexivity).
  destruct (HQWTP.hq_build_correct 8 256 ent_ex_seq ent_ex_tab (or_introl eq_refl) (or_introl eq_refl) HF eq_refl
              ent_ex_table_ok) as (t & E & _).
  exists t. split; [exact E|].
  apply (hq_level_bits_entropy 8 256 ent_ex_seq ent_ex_tab t (or_introl eq_refl) (or_introl eq_refl) HF eq_refl
           ent_ex_table_ok E); [discriminate|exact ent_ex_optimal].
Qed.

Print Assumptions Q_perm.
Print Assumptions hwm_levels_total.
Print Assumptions sum_by_frequency.
Print Assumptions freq_total.
Print Assumptions freq_total_length.
Print Assumptions freq_pos.
Print Assumptions freq_nonempty.
Print Assumptions hq_level_symbols.
Print Assumptions hq_level_lens.
Print Assumptions hwt_level_bits.
Print Assumptions wt_plain_level_bits.
Print Assumptions qwt_plain_level_symbols.
Print Assumptions hq_level_symbols_cost.
Print Assumptions hwt_level_bits_cost.
Print Assumptions hq_level_bits_entropy.
Print Assumptions hwt_level_bits_entropy.
Print Assumptions hq_never_more_than_plain.
Print Assumptions hwt_never_more_than_plain.
Print Assumptions lb_example_256.
Print Assumptions lb_example_512.
Print Assumptions lb_example_hq_thm.
Print Assumptions lb_example_hwt_thm.
Print Assumptions ent_example_thm.
