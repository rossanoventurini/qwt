(* QWaveletTree::rank_prefetch_unchecked / rank_prefetch (WITH_PREFETCH_SUPPORT = false: QWT256 / QWT512) regenerated
   (Gen/FnsQwtnew.v): the estimation phase (reads of occs_smaller_unchecked / rank_block_unchecked of every level,
   the checked arithmetic and the index checks of the arguments of the prefetch_data calls, the i64 shift) never
   faults on a tree the constructor builds and has no effect: the regenerated methods are EQUAL to the regenerated
   rank_unchecked / rank, hence to the list specification. *)
From Coq Require Import ZArith Lia ZifyBool ZifyN ZifyNat.
From QwtModel Require Import ListX Loops Seq RSQ QWT LeafP.
From QwtModel Require Import FnsRsqOk FnsQwt FnsQwtnew.
From QwtModel Require Import RSQBuild QWTBuild QWTWalk QWTP.
From QwtModel Require Import FnsQwtOk FnsQwtNewOk FnsWrapQwtOk NBits OutcomeP.
Open Scope N_scope.

(* on a tree qwt_new builds from a non-empty sequence the hand model's rank_prefetch_unchecked returns a value for
   EVERY symbol (also above sigma and above 2^w) and every position i <= len (QWTWalk.estimate_ok / rank_final: the
   estimates stay <= len since rank_block <= rank <= count and count + occs_smaller <= len) *)
Lemma qwt_new_prefetch_unchecked_val w bsize s t : width_ok w -> (bsize = 256 \/ bsize = 512) ->
  Forall (fun x => x < 2 ^ w) s -> len s < RSQ_MAXN -> qwt_new w bsize s = Val t -> len s <> 0 ->
  forall c i, i <= len s -> exists v, qwt_rank_prefetch_unchecked w bsize t c i = Val v.
Proof.
  intros Hwok Hb HF Hn E Hne c i Hi.
  assert (Hwpos : 0 < w) by (unfold width_ok in Hwok; lia).
  destruct (qwt_new_inv w bsize s t Hwpos HF Hne E) as (Hpos & Hsh & qvs & Eq & ->).
  set (L := N.to_nat (levels_of s)) in *.
  assert (HLN : levels_of s = N.of_nat L) by (unfold L; lia).
  assert (HL : (0 < L)%nat) by lia.
  assert (Hw : 2 * N.of_nat (L - 1) < w) by lia.
  destruct (qwt_levels_tree w bsize L s Hb Hn HL Hw) as (qvs' & Eq' & HT & _).
  replace (2 * (levels_of s - 1)) with (2 * N.of_nat (L - 1)) in Eq by lia.
  rewrite Eq in Eq'. apply Val_inj in Eq'. subst qvs'.
  pose proof (RSQ_MAXN_lt64 _ Hn) as Hlen64.
  set (T := {| q_n := len s; q_n_levels := levels_of s; q_sigma := maxN s; q_qvs := qvs |}).
  rewrite (prefetch_unchecked_eq w bsize L s qvs HT HL Hw Hlen64 c i T HLN eq_refl Hi).
  rewrite (rank_final w bsize L s qvs HT HL Hw Hlen64 c i T HLN eq_refl Hi). eexists. reflexivity.
Qed.

Lemma idx_val_lt {A} (l : list A) i a : idx l i = Val a -> i < len l.
Proof. exact (idx_lt l i a). Qed.

(* the text of Gen/FnsQwtnew.v over the RSQVector functions F of one block size (Proofs/FnsQwtOk.v, with the inner
   loop G_pf_inner); the final call is the generic text G_rank_unchecked *)
Section GenericPf.
  Variable F : rsq_fns.
  Notation bsize := (bsize_of F).

  Definition G_pf_body (wT : N) (qvs_qv_data : list (list (list N))) (qvs_rs_support_superblocks : list (list (list N)))
    (qvs_n_occs_smaller : list (list N)) (symbol BLOCK_SIZE : N) : N -> N * N * Z -> outcome (step (N * N * Z) N) :=
    fun level '(range_start, range_end, shift) =>
      let! t4 := oshr wT symbol (Z.to_N (Z.modulo shift (2 ^ 64)%Z)) in
      let two_bits := (N.land (t4 mod 2 ^ 64) 3) mod 2 ^ 8 in
      let! t5 := idx qvs_n_occs_smaller level in
      let! offset := g_occs_su F t5 two_bits in
      let! t6 := idx qvs_rs_support_superblocks level in
      let! rank_start := g_rank_blk F t6 two_bits range_start in
      let! t7 := idx qvs_rs_support_superblocks level in
      let! rank_end := g_rank_blk F t7 two_bits range_end in
      let! t8 := oadd 64 rank_start offset in
      let! t9 := oadd 64 rank_end offset in
      let range_start := t8 in
      let range_end := t9 in
      let! t10 := oadd 64 level 1 in
      let! _ := idx qvs_qv_data t10 in
      let! t11 := oadd 64 level 1 in
      let! _ := idx qvs_qv_data t11 in
      let! t12 := oadd 64 range_start BLOCK_SIZE in
      let! t13 := oadd 64 level 1 in
      let! _ := idx qvs_qv_data t13 in
      let! t14 := oadd 64 level 1 in
      let! _ := idx qvs_qv_data t14 in
      let! t15 := oadd 64 range_end BLOCK_SIZE in
      let! r := for_loop (G_pf_inner qvs_qv_data level range_end BLOCK_SIZE) 0 (N.to_nat (level - 0)) tt in
      match r with
      | Retd v => Val v
      | Done _ =>
          let! shift := zisub 64 shift (2%Z) in
          Val (Next (range_start, range_end, shift))
      end.

  Definition G_pf_unchecked (wT : N) (n_levels : N) (qvs_qv_data : list (list (list N))) (qvs_rs_support_superblocks : list (list (list N))) (qvs_n_occs_smaller : list (list N)) (symbol : N) (i : N) : outcome N :=
    let range_start := 0 in
    let range_end := i in
    let! t1 := osub n_levels 1 in
    let! t2 := omul 64 2 t1 in
    let shift := zwrap 64 (Z.of_N t2) in
    let BLOCK_SIZE := 256 in
    let! _ := idx qvs_qv_data 0 in
    let! _ := idx qvs_qv_data 0 in
    let! t3 := osub n_levels 1 in
    let! r := for_loop (G_pf_body wT qvs_qv_data qvs_rs_support_superblocks qvs_n_occs_smaller symbol BLOCK_SIZE)
                0 (N.to_nat (t3 - 0)) (range_start, range_end, shift) in
    match r with
    | Retd v => Val v
    | Done (range_start, range_end, shift) =>
        G_rank_unchecked F wT n_levels qvs_qv_data qvs_rs_support_superblocks qvs_n_occs_smaller symbol i
    end.

  Definition G_pf (wT : N) (n : N) (n_levels : N) (sigma : N) (qvs_qv_data : list (list (list N))) (qvs_rs_support_superblocks : list (list (list N))) (qvs_n_occs_smaller : list (list N)) (symbol : N) (i : N) : outcome (option N) :=
    if orb (orb (N.eqb n 0) (N.ltb n i)) (N.ltb sigma symbol) then
      Val None
    else
      let! t1 := G_pf_unchecked wT n_levels qvs_qv_data qvs_rs_support_superblocks qvs_n_occs_smaller symbol i in
      Val (Some t1).

  (* the estimation loop: wherever the hand model's walk returns, the generated loop ends normally.
     The additions on the ranges are est_range; `level + 1` is the index the hand model checks too; the i64 shift is
     the hand model's N shift (>= 2 while an iteration remains: its `osub shift 2`). *)
  Lemma pf_loop_sim wT symbol qvs : Forall lvl_rank_ok qvs ->
    forall n level rs re sh, sh < 2 ^ 63 -> level + N.of_nat n <= 2 ^ 32 ->
    qwt_estimate_walk wT bsize qvs symbol sh rs re level n = Val tt ->
    exists st, for_loop (G_pf_body wT (map rsq_wdata qvs) (map lvl_sbs qvs) (map rsq_occs_smaller qvs) symbol 256)
                 level n (rs, re, Z.of_N sh) = Val (Done st).
  Proof.
    intros HF. induction n as [|n IH]; intros level rs re sh Hs Hlv.
    - intros _. eexists. reflexivity.
    - cbn [qwt_estimate_walk for_loop]. unfold G_pf_body at 1. cbv beta iota zeta.
      rewrite p63 in Hs. rewrite p32 in Hlv.
      rewrite shamt_of_N by (rewrite p64; lia).
      unfold two_bits. destruct (oshr wT symbol sh) as [y|]; cbn [bind]; [|discriminate].
      rewrite land3_mod8. set (tb := N.land (y mod 2 ^ 64) 3).
      rewrite !idx_map.
      destruct (idx qvs level) as [qv|] eqn:Eqv; cbn [bind]; [|discriminate].
      pose proof (idx_Forall _ _ _ _ HF Eqv) as (Hl & Hw & Ho).
      rewrite occs_su_ok.
      destruct (rsq_occs_smaller_unchecked qv tb) as [offset|] eqn:Eo; cbn [bind]; [|discriminate].
      destruct (occs_smaller_bound _ _ _ Ho Eo) as [Hoff _].
      unfold lvl_sbs at 1 2. rewrite !rank_blk_ok.
      destruct (rss_rank_block bsize (rsq_rs qv) tb rs) as [a|] eqn:Ea; cbn [bind]; [|discriminate].
      destruct (rss_rank_block bsize (rsq_rs qv) tb re) as [b|] eqn:Eb; cbn [bind]; [|discriminate].
      destruct (est_range a offset (rank_block_bound _ _ _ _ _ Hw Ea) Hoff) as (Ea1 & Ea2 & _).
      destruct (est_range b offset (rank_block_bound _ _ _ _ _ Hw Eb) Hoff) as (Eb1 & Eb2 & Hb').
      destruct (idx qvs (level + 1)) as [qv1|] eqn:Eqv1; cbn [bind]; [|discriminate].
      destruct (osub sh 2) as [sh'|] eqn:Esh; cbn [bind]; [|discriminate].
      apply osub_Val_inv in Esh. destruct Esh as [-> Hsh].
      intros E.
      rewrite Ea1, Eb1, !(oadd_ok 64 level 1) by (rewrite p64; lia). cbn [bind].
      rewrite !idx_map, Eqv1. cbn [bind]. rewrite Ea2, Eb2. cbn [bind].
      rewrite (pf_inner_done _ level (b + offset) (rsq_wdata qv1));
        [|rewrite idx_map, Eqv1; reflexivity|rewrite p32; lia|exact Hb'|lia].
      cbn [bind]. rewrite zisub_ok by lia. cbn [bind].
      replace (Z.of_N sh - 2)%Z with (Z.of_N (sh - 2)) by lia.
      apply IH; [rewrite p63; lia|rewrite p32; lia|exact E].
  Qed.

  Theorem G_pf_unchecked_eq : forall wT t symbol i v,
    Forall lvl_rank_ok (q_qvs t) -> q_n_levels t <= 2 ^ 32 ->
    qwt_rank_prefetch_unchecked wT bsize t symbol i = Val v ->
    G_pf_unchecked wT (q_n_levels t) (qwt_data t) (qwt_sbs t) (qwt_occs t) symbol i
    = G_rank_unchecked F wT (q_n_levels t) (qwt_data t) (qwt_sbs t) (qwt_occs t) symbol i.
  Proof.
    intros wT t symbol i v HF Hnl. unfold qwt_rank_prefetch_unchecked, G_pf_unchecked. cbv zeta.
    rewrite p32 in Hnl.
    destruct (osub (q_n_levels t) 1) as [l1|] eqn:El1; cbn [bind]; [|discriminate].
    apply osub_Val_inv in El1. destruct El1 as [El1 Hl1].
    destruct (idx (q_qvs t) 0) as [r0|] eqn:E0; cbn [bind]; [|discriminate].
    destruct (qwt_estimate_walk wT bsize (q_qvs t) symbol (2 * l1) 0 i 0 (N.to_nat l1)) as [[]|] eqn:Ew;
      cbn [bind]; [|discriminate].
    intros _.
    rewrite omul_ok by (rewrite p64; lia). cbn [bind].
    rewrite zwrap_small by lia.
    unfold qwt_data at 1 2. rewrite !idx_map, E0. cbn [bind].
    rewrite N.sub_0_r.
    destruct (pf_loop_sim wT symbol (q_qvs t) HF (N.to_nat l1) 0 0 i (2 * l1)) as (st & Est);
      [rewrite p63; lia|rewrite p32; lia|exact Ew|].
    unfold qwt_data, qwt_sbs, qwt_occs. rewrite Est. cbn [bind]. destruct st as [[a b] c]. reflexivity.
  Qed.

  Theorem G_pf_eq : forall wT t symbol i,
    Forall lvl_rank_ok (q_qvs t) -> q_n_levels t <= 2 ^ 32 ->
    (q_n t <> 0 -> i <= q_n t -> exists v, qwt_rank_prefetch_unchecked wT bsize t symbol i = Val v) ->
    G_pf wT (q_n t) (q_n_levels t) (q_sigma t) (qwt_data t) (qwt_sbs t) (qwt_occs t) symbol i
    = G_rank F wT (q_n t) (q_n_levels t) (q_sigma t) (qwt_data t) (qwt_sbs t) (qwt_occs t) symbol i.
  Proof.
    intros wT t symbol i HF Hnl Hv. unfold G_pf, G_rank.
    destruct (N.eqb_spec (q_n t) 0) as [H0|H0]; [reflexivity|].
    destruct (N.ltb_spec (q_n t) i) as [Hi|Hi]; [reflexivity|]. cbn [orb].
    destruct (q_sigma t <? symbol); [reflexivity|].
    destruct (Hv H0 Hi) as (v & Ev). now rewrite (G_pf_unchecked_eq wT t symbol i v HF Hnl Ev).
  Qed.

  Section New.
    Variables (w : N) (s : list N) (t : qwt).
    Hypotheses (Hw : width_ok w) (Hs : Forall (fun x => x < 2 ^ w) s) (Hn : len s < RSQ_MAXN)
               (Ht : qwt_new w bsize s = Val t).

    Lemma pf_facts : Forall lvl_rank_ok (q_qvs t) /\ q_n_levels t <= 2 ^ 32 /\ q_n t = len s /\
      (len s = 0 -> q_n_levels t = 0) /\
      (len s <> 0 -> forall c i, i <= len s -> exists v, qwt_rank_prefetch_unchecked w bsize t c i = Val v).
    Proof.
      destruct (qwt_new_built w bsize s t Hw (bsize_ok F) Hs Hn Ht) as (HB & Hspec & Hnl).
      destruct (qwt_new_levels_wf w bsize s t _ Hw (bsize_ok F) Hs Hn Ht (le_n _)) as (_ & HR & _).
      split; [exact HR|]. split; [rewrite p32; lia|]. split; [apply Hspec|]. split.
      - intros H0. destruct Hspec as (_ & _ & _ & Hl & _). rewrite Hl. now replace (len s =? 0) with true by lia.
      - exact (qwt_new_prefetch_unchecked_val w bsize s t Hw (bsize_ok F) Hs Hn Ht).
    Qed.

    (* the estimation phase never faults and has no effect: EVERY symbol (no `c < 2^w` needed), every i <= len *)
    Theorem G_pf_unchecked_new : forall c i, i <= len s ->
      G_pf_unchecked w (q_n_levels t) (qwt_data t) (qwt_sbs t) (qwt_occs t) c i
      = G_rank_unchecked F w (q_n_levels t) (qwt_data t) (qwt_sbs t) (qwt_occs t) c i.
    Proof.
      intros c i Hi. destruct pf_facts as (HR & Hnl & Hqn & H0 & Hv).
      destruct (N.eq_dec (len s) 0) as [Hz|Hnz].
      - (* the empty tree: both sides are the same Fault of `n_levels - 1` *)
        unfold G_pf_unchecked, G_rank_unchecked. rewrite (H0 Hz). reflexivity.
      - destruct (Hv Hnz c i Hi) as (v & Ev). exact (G_pf_unchecked_eq w t c i v HR Hnl Ev).
    Qed.

    (* .. and with the precondition of the unsafe method it is the list specification *)
    Corollary G_pf_unchecked_spec : forall c i, 0 < len s -> c <= maxN s -> i <= len s ->
      G_pf_unchecked w (q_n_levels t) (qwt_data t) (qwt_sbs t) (qwt_occs t) c i = Val (rank_spec s c i).
    Proof.
      intros c i Hp Hc Hi. rewrite (G_pf_unchecked_new c i Hi).
      exact (G_rank_unchecked_new F w s t Hw Hs Hn Ht c i Hp Hc Hi).
    Qed.

    (* the checked method: equal to the regenerated rank for EVERY symbol and EVERY i (out of range: both None) *)
    Theorem G_pf_eq_rank : forall c i,
      G_pf w (q_n t) (q_n_levels t) (q_sigma t) (qwt_data t) (qwt_sbs t) (qwt_occs t) c i
      = G_rank F w (q_n t) (q_n_levels t) (q_sigma t) (qwt_data t) (qwt_sbs t) (qwt_occs t) c i.
    Proof.
      intros c i. destruct pf_facts as (HR & Hnl & Hqn & H0 & Hv).
      apply G_pf_eq; [exact HR|exact Hnl|]. rewrite Hqn. intros Hne Hi. now apply Hv.
    Qed.
  End New.

  (* [gnew]: g_qwtNNN_new with its agreement theorem g_qwtNNN_new_sim_closed *)
  Theorem G_new_rank_prefetch (gnew : N -> list N -> outcome (list N * (N * N * N * list (list (list N)) * list N *
        list (list (list N)) * list (list (list N)) * list (list N)))) :
    (forall w s t, width_ok w -> Forall (fun x => x < 2 ^ w) s -> len s < RSQ_MAXN -> qwt_new w bsize s = Val t ->
       exists s', gnew w s = Val (s', (q_n t, q_n_levels t, q_sigma t, qwt_data t, qwt_pos t, qwt_sbs t,
                                       qwt_samples t, qwt_occs t)) /\ Permutation.Permutation s s') ->
    forall w s, width_ok w -> Forall (fun x => x < 2 ^ w) s -> len s < RSQ_MAXN ->
    exists n nl sg d p sb sm oc,
      (let! r := gnew w s in Val (snd r)) = Val (n, nl, sg, d, p, sb, sm, oc) /\
      (forall c i, c < 2 ^ w ->
         G_pf w n nl sg d sb oc c i
         = Val (if negb (len s =? 0) && (i <=? len s) && (c <=? maxN s) then Some (rank_spec s c i) else None) /\
         G_pf w n nl sg d sb oc c i = G_rank F w n nl sg d sb oc c i) /\
      (forall c i, i <= len s -> G_pf_unchecked w nl d sb oc c i = G_rank_unchecked F w nl d sb oc c i) /\
      (forall c i, 0 < len s -> c <= maxN s -> i <= len s -> G_pf_unchecked w nl d sb oc c i = Val (rank_spec s c i)).
  Proof.
    intros Hnew w s Hw HF Hn.
    destruct (qwt_new_correct w bsize s Hw (bsize_ok F) HF Hn) as (t & Et & _).
    destruct (Hnew w s t Hw HF Hn Et) as (s' & G & _). rewrite G.
    exists (q_n t), (q_n_levels t), (q_sigma t), (qwt_data t), (qwt_pos t), (qwt_sbs t), (qwt_samples t), (qwt_occs t).
    split; [reflexivity|]. split; [|split].
    - intros c i Hc. rewrite (G_pf_eq_rank w s t Hw HF Hn Et c i).
      split; [exact (G_rank_new F w s t Hw HF Hn Et c i Hc)|reflexivity].
    - exact (G_pf_unchecked_new w s t Hw HF Hn Et).
    - exact (G_pf_unchecked_spec w s t Hw HF Hn Et).
  Qed.
End GenericPf.

(* with F := rsq256 / rsq512 the generic text IS the generated definitions (conversion, checked by the [exact]s here
   and in Properties/C09.v) *)
Definition g_qwt256_rank_prefetch_eq_rank := G_pf_eq_rank rsq256.
Definition g_qwt512_rank_prefetch_eq_rank := G_pf_eq_rank rsq512.

Theorem g_qwt256_ctors_rank_prefetch : forall k w s, width_ok w -> Forall (fun x => x < 2 ^ w) s ->
  len s < RSQ_MAXN ->
  exists n nl sg d p sb sm oc,
    qwt256_ctor k w s = Val (n, nl, sg, d, p, sb, sm, oc) /\
    (forall c i, c < 2 ^ w ->
       g_qwt256_rank_prefetch w n nl sg d sb oc c i
       = Val (if negb (len s =? 0) && (i <=? len s) && (c <=? maxN s) then Some (rank_spec s c i) else None) /\
       g_qwt256_rank_prefetch w n nl sg d sb oc c i = g_qwt256_rank w n nl sg d sb oc c i) /\
    (forall c i, i <= len s ->
       g_qwt256_rank_prefetch_unchecked w nl d sb oc c i = g_qwt256_rank_unchecked w nl d sb oc c i) /\
    (forall c i, 0 < len s -> c <= maxN s -> i <= len s ->
       g_qwt256_rank_prefetch_unchecked w nl d sb oc c i = Val (rank_spec s c i)).
Proof. intros k w s. rewrite qwt256_ctor_new. exact (G_new_rank_prefetch rsq256 g_qwt256_new g_qwt256_new_sim_closed w s). Qed.

Theorem g_qwt512_ctors_rank_prefetch : forall k w s, width_ok w -> Forall (fun x => x < 2 ^ w) s ->
  len s < RSQ_MAXN ->
  exists n nl sg d p sb sm oc,
    qwt512_ctor k w s = Val (n, nl, sg, d, p, sb, sm, oc) /\
    (forall c i, c < 2 ^ w ->
       g_qwt512_rank_prefetch w n nl sg d sb oc c i
       = Val (if negb (len s =? 0) && (i <=? len s) && (c <=? maxN s) then Some (rank_spec s c i) else None) /\
       g_qwt512_rank_prefetch w n nl sg d sb oc c i = g_qwt512_rank w n nl sg d sb oc c i) /\
    (forall c i, i <= len s ->
       g_qwt512_rank_prefetch_unchecked w nl d sb oc c i = g_qwt512_rank_unchecked w nl d sb oc c i) /\
    (forall c i, 0 < len s -> c <= maxN s -> i <= len s ->
       g_qwt512_rank_prefetch_unchecked w nl d sb oc c i = Val (rank_spec s c i)).
Proof. intros k w s. rewrite qwt512_ctor_new. exact (G_new_rank_prefetch rsq512 g_qwt512_new g_qwt512_new_sim_closed w s). Qed.

(* non-vacuity (vm_compute): 300 u8 symbols (maximum 194: 4 levels); (c, i) with i = len, i = len + 1, symbols
   above sigma *)
Definition pf_example_queries : list (N * N) :=
  [(0, 0); (0, 300); (0, 301); (72, 4); (72, 299); (72, 300); (72, 301); (194, 300); (3, 257); (200, 300); (255, 17);
   (194, 1000)].
Definition pf_example_spec : N * N -> outcome (option N) := fun '(c, i) =>
  Val (if (i <=? 300) && (c <=? 194) then Some (rank_spec g_qwt_new_example_input c i) else None).

(* the constructor's output on the example input is that of Proofs/FnsQwtNewOk.v, not evaluated again *)
Example g_qwt256_rank_prefetch_example :
  match qwt256_ctor 0 8 g_qwt_new_example_input with
  | Val (n, nl, sg, d, p, sb, sm, oc) =>
      n = 300 /\ nl = 4 /\ sg = 194 /\
      map (fun '(c, i) => g_qwt256_rank_prefetch 8 n nl sg d sb oc c i) pf_example_queries
      = map (fun '(c, i) => g_qwt256_rank 8 n nl sg d sb oc c i) pf_example_queries /\
      map (fun '(c, i) => g_qwt256_rank_prefetch 8 n nl sg d sb oc c i) pf_example_queries
      = map pf_example_spec pf_example_queries /\
      map (fun '(c, i) => g_qwt256_rank_prefetch 8 n nl sg d sb oc c i) pf_example_queries
      = [Val (Some 0); Val (Some 7); Val None; Val (Some 1); Val (Some 16); Val (Some 16); Val None;
         Val (Some 6); Val (Some 0); Val None; Val None; Val None] /\
      g_qwt256_rank_prefetch_unchecked 8 nl d sb oc 72 300 = Val 16 /\
      g_qwt256_rank_prefetch_unchecked 8 nl d sb oc 255 300 = g_qwt256_rank_unchecked 8 nl d sb oc 255 300
  | _ => False
  end.
Proof.
  change (qwt256_ctor 0 8 g_qwt_new_example_input)
    with (let! r := g_qwt256_new 8 g_qwt_new_example_input in Val (snd r)).
  rewrite g_qwt256_new_example_eq. vm_compute. repeat split; reflexivity.
Qed.

Example g_qwt512_rank_prefetch_example :
  match qwt512_ctor 0 8 g_qwt_new_example_input with
  | Val (n, nl, sg, d, p, sb, sm, oc) =>
      n = 300 /\ nl = 4 /\ sg = 194 /\
      map (fun '(c, i) => g_qwt512_rank_prefetch 8 n nl sg d sb oc c i) pf_example_queries
      = map (fun '(c, i) => g_qwt512_rank 8 n nl sg d sb oc c i) pf_example_queries /\
      map (fun '(c, i) => g_qwt512_rank_prefetch 8 n nl sg d sb oc c i) pf_example_queries
      = map pf_example_spec pf_example_queries /\
      map (fun '(c, i) => g_qwt512_rank_prefetch 8 n nl sg d sb oc c i) pf_example_queries
      = [Val (Some 0); Val (Some 7); Val None; Val (Some 1); Val (Some 16); Val (Some 16); Val None;
         Val (Some 6); Val (Some 0); Val None; Val None; Val None] /\
      g_qwt512_rank_prefetch_unchecked 8 nl d sb oc 72 300 = Val 16 /\
      g_qwt512_rank_prefetch_unchecked 8 nl d sb oc 255 300 = g_qwt512_rank_unchecked 8 nl d sb oc 255 300
  | _ => False
  end.
Proof.
  change (qwt512_ctor 0 8 g_qwt_new_example_input)
    with (let! r := g_qwt512_new 8 g_qwt_new_example_input in Val (snd r)).
  rewrite g_qwt512_new_example_eq. vm_compute. repeat split; reflexivity.
Qed.

Print Assumptions qwt_new_prefetch_unchecked_val.
Print Assumptions g_qwt256_rank_prefetch_eq_rank.
Print Assumptions g_qwt512_rank_prefetch_eq_rank.
Print Assumptions g_qwt256_ctors_rank_prefetch.
Print Assumptions g_qwt512_ctors_rank_prefetch.
Print Assumptions g_qwt256_rank_prefetch_example.
Print Assumptions g_qwt512_rank_prefetch_example.
