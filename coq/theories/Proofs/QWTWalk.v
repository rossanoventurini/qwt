(* C01 helper: the level walks of Model/QWT.v compute, inside the outcome monad, the generic
   wavelet-matrix walks of Theory/WaveletMatrix.v on a tree satisfying [tree_ok]. *)
From Coq Require Import ZArith Lia ZifyBool ZifyN ZifyNat.
From QwtModel Require Import ListX Seq Consts QVec RSQ QWT ListXP SeqP RSQList RSQP.
From QwtModel Require Import WaveletMatrix QWTArith QWTBuild.

(* what the walks use of a level *)
Lemma rsq_spec_proj bsize r D : rsq_spec bsize r D ->
  (forall c i, rsq_rank bsize r c i =
     Val (if (c <=? 3) && (i <=? len D) then Some (lrank D c i) else None)) /\
  (forall c k, k < 2 ^ 64 -> rsq_select bsize r c k = Val (if c <=? 3 then select_spec D c k else None)) /\
  (forall c i, c <= 3 -> i <= len D -> rsq_rank_unchecked bsize r c i = Val (lrank D c i)) /\
  (forall i x, nthN D i = Some x -> rsq_get_unchecked r i = Val x) /\
  (forall c, c <= 3 -> rsq_occs_smaller_unchecked r c = Val (loccs_smaller D c)) /\
  (forall c i, c <= 3 -> i <= len D ->
     exists v, rss_rank_block bsize (rsq_rs r) c i = Val v /\ v <= lrank D c i).
Proof.
  intros (_ & _ & _ & Hrank & Hsel & _ & _ & Hru & Hgu & _ & _ & Hocc & Hblk).
  split; [|split; [|split; [|split; [|split]]]].
  - intros c i. rewrite Hrank, rank_spec_lrank. reflexivity.
  - exact Hsel.
  - intros c i Hc Hi. rewrite Hru by assumption. now rewrite rank_spec_lrank.
  - exact Hgu.
  - exact Hocc.
  - intros c i Hc Hi. destruct (Hblk c i Hc Hi) as (v & E & Hv). exists v.
    rewrite <- rank_spec_lrank. split; assumption.
Qed.

(* the query part of the specification of a tree: conjuncts 5 to 11 of [qwt_spec], word for word; it stands here
   because QWTP.v, which defines [qwt_spec], imports this file *)
Definition qwt_queries_spec (w bsize : N) (t : qwt) (seq : list N) : Prop :=
  (forall i, qwt_get w bsize t i = Val (nthN seq i)) /\
  (forall c i, c < 2 ^ w -> qwt_rank w bsize t c i =
       Val (if negb (len seq =? 0) && (i <=? len seq) && (c <=? maxN seq) then Some (rank_spec seq c i) else None)) /\
  (forall c i, c < 2 ^ w -> qwt_rank_prefetch w bsize t c i = qwt_rank w bsize t c i) /\
  (forall c k, c < 2 ^ w -> k < 2 ^ 64 -> qwt_select w bsize t c k =
       Val (if negb (len seq =? 0) && (c <=? maxN seq) then select_spec seq c k else None)) /\
  (forall i x, nthN seq i = Some x -> qwt_get_unchecked w bsize t i = Val x) /\
  (forall c i, 0 < len seq -> c <= maxN seq -> i <= len seq -> qwt_rank_unchecked w bsize t c i = Val (rank_spec seq c i)
                                                            /\ qwt_rank_prefetch_unchecked w bsize t c i = Val (rank_spec seq c i)) /\
  (forall c k p, c < 2 ^ w -> select_spec seq c k = Some p -> qwt_select_unchecked w bsize t c k = Val p).

Lemma wml_S L l0 n s :
  wm_levels N 4 (qdig L) l0 (S n) s = qD L l0 s :: wm_levels N 4 (qdig L) (S l0) n s.
Proof. reflexivity. Qed.
Lemma select_down_cons D Ds d ds b :
  select_down (D :: Ds) (d :: ds) b = (b, lrank D d b) :: select_down Ds ds (lrank D d b + loccs_smaller D d).
Proof. reflexivity. Qed.

Section Walks.
Variables (w bsize : N) (L : nat) (s : list N) (qvs : list rsq).
Hypothesis HT : tree_ok bsize L s qvs.
Hypothesis HL : (0 < L)%nat.
Hypothesis Hw : 2 * N.of_nat (L - 1) < w.
Hypothesis Hlen : len s < 2 ^ 64.

Local Notation dg := (qdig L).
Local Notation lv := (lev N 4 (qdig L)).
Local Notation wml := (wm_levels N 4 (qdig L)).
Local Notation dgs := (digits_of N (qdig L)).

Lemma tb_ok c l : two_bits w c (2 * N.of_nat (L - 1 - l)) = Val (dg l c).
Proof. apply two_bits_qdig. clear HT Hlen. lia. Qed.

(* what every walk uses of level l: its quad vector answers the operations on the stored digit
   list, for the digit of any symbol *)
Lemma level_ok l : (l < L)%nat -> exists r, idx qvs (N.of_nat l) = Val r /\
  (forall c i, rsq_rank bsize r (dg l c) i =
     Val (if i <=? len s then Some (lrank (qD L l s) (dg l c) i) else None)) /\
  (forall c k, k < 2 ^ 64 -> rsq_select bsize r (dg l c) k = Val (select_spec (qD L l s) (dg l c) k)) /\
  (forall c i, i <= len s -> rsq_rank_unchecked bsize r (dg l c) i = Val (lrank (qD L l s) (dg l c) i)) /\
  (forall i x, nthN (qD L l s) i = Some x -> rsq_get_unchecked r i = Val x) /\
  (forall c, rsq_occs_smaller_unchecked r (dg l c) = Val (loccs_smaller (qD L l s) (dg l c))) /\
  (forall c i, i <= len s ->
     exists v, rss_rank_block bsize (rsq_rs r) (dg l c) i = Val v /\ v <= lrank (qD L l s) (dg l c) i).
Proof.
  intros Hl. destruct (HT l Hl) as (r & Enth & Hr). exists r. unfold idx. rewrite Enth.
  destruct (rsq_spec_proj _ _ _ Hr) as (Prank & Psel & Pru & Pgu & Pocc & Pblk).
  rewrite qD_len in Prank, Pru, Pblk.
  assert (Hd : forall c, dg l c <=? 3 = true) by (intros c; pose proof (qdig_le3 L l c); lia).
  split; [reflexivity|]. split; [|split; [|split; [|split; [exact Pgu|split]]]].
  - intros c i. now rewrite Prank, Hd.
  - intros c k Hk. now rewrite (Psel _ _ Hk), Hd.
  - intros c i. apply Pru, qdig_le3.
  - intros c. apply Pocc, qdig_le3.
  - intros c i. apply Pblk, qdig_le3.
Qed.

Lemma rank_walk_ok c : forall n l0 p i, (l0 + n = L - 1)%nat -> p <= len s -> i <= len s ->
  exists p' i', p' <= len s /\ i' <= len s /\
    qwt_rank_walk w bsize qvs c (2 * N.of_nat (L - 1 - l0)) p i (N.of_nat l0) n = Val (p', i', 0) /\
    rank_walk (wml l0 (S n) s) (dgs l0 (S n) c) p i =
    rank_walk (wml (L - 1) 1 s) (dgs (L - 1) 1 c) p' i'.
Proof.
  induction n as [|n IH]; intros l0 p i Hl Hp Hi.
  - assert (l0 = L - 1)%nat by lia. subst l0. exists p, i. repeat split; try assumption.
    cbn [qwt_rank_walk]. rewrite Nat.sub_diag. reflexivity.
  - cbn [qwt_rank_walk]. rewrite tb_ok. cbn [bind].
    destruct (level_ok l0 ltac:(lia)) as (r & Er & _ & _ & Pru & _ & Pocc & _). rewrite Er. cbn [bind].
    rewrite Pocc. cbn [bind]. rewrite !Pru by assumption. cbn [bind].
    unfold osub. replace (2 <=? 2 * N.of_nat (L - 1 - l0)) with true by lia. cbn [bind].
    pose proof (occs_rank_le_len (qD L l0 s) (dg l0 c) p) as Hp'.
    pose proof (occs_rank_le_len (qD L l0 s) (dg l0 c) i) as Hi'. rewrite qD_len in Hp', Hi'.
    destruct (IH (S l0) _ _ ltac:(lia) Hp' Hi') as (p' & i' & Hp'' & Hi'' & HW & HR).
    exists p', i'. split; [exact Hp''|]. split; [exact Hi''|]. split; [|exact HR].
    rewrite <- HW. f_equal; lia.
Qed.

Lemma rank_final c i t : q_n_levels t = N.of_nat L -> q_qvs t = qvs -> i <= len s ->
  qwt_rank_unchecked w bsize t c i = Val (len (filter (pre N dg L c) (firstnN i s))).
Proof.
  intros Hnl Hq Hi. unfold qwt_rank_unchecked. rewrite Hnl, Hq. unfold osub at 1.
  replace (1 <=? N.of_nat L) with true by lia. cbn [bind].
  replace (N.of_nat L - 1) with (N.of_nat (L - 1 - 0)) by lia.
  rewrite Nnat.Nat2N.id.
  destruct (rank_walk_ok c (L - 1 - 0) 0%nat 0 i ltac:(lia) ltac:(lia) Hi) as (p' & i' & Hp' & Hi' & HW & HR).
  change (N.of_nat 0) with 0 in HW. rewrite HW. cbn [bind].
  replace (S (L - 1 - 0)) with L in HR by lia.
  replace 0 with (2 * N.of_nat (L - 1 - (L - 1))) at 1 by lia.
  rewrite tb_ok. cbn [bind].
  replace (L - 1 - 0)%nat with (L - 1)%nat by lia.
  destruct (level_ok (L - 1) ltac:(lia)) as (r & Er & _ & _ & Pru & _). rewrite Er. cbn [bind].
  rewrite !Pru by assumption. cbn [bind].
  pose proof (wm_rank_correct N 4 dg (qdig_lt L) L s c i Hi) as HC. cbv zeta in HC.
  rewrite HR in HC. cbn [wm_levels digits_of seq map rank_walk fst snd] in HC.
  destruct HC as (H1 & H2 & H3). unfold qD, qlev. unfold osub.
  match goal with |- context [?a <=? ?b] => replace (a <=? b) with true by lia end.
  f_equal. lia.
Qed.

Lemma qwt_rank_unchecked_ok c i t : q_n_levels t = N.of_nat L -> q_qvs t = qvs -> i <= len s ->
  (forall x, In x s -> x < 4 ^ N.of_nat L) -> c < 4 ^ N.of_nat L ->
  qwt_rank_unchecked w bsize t c i = Val (rank_spec s c i).
Proof.
  intros Hnl Hq Hi Hs Hc. rewrite (rank_final c i t Hnl Hq Hi). f_equal.
  rewrite (filter_ext_in _ (fun x => x =? c)).
  - rewrite len_filter_eqb, rank_spec_rk. reflexivity.
  - intros x Hx. apply pre_eq; [|exact Hc]. apply Hs. eapply In_firstnN. exact Hx.
Qed.

Lemma estimate_ok c : forall n l0 rs re, (l0 + n = L - 1)%nat -> rs <= len s -> re <= len s ->
  qwt_estimate_walk w bsize qvs c (2 * N.of_nat (L - 1 - l0)) rs re (N.of_nat l0) n = Val tt.
Proof.
  induction n as [|n IH]; intros l0 rs re Hl Hrs Hre; [reflexivity|].
  cbn [qwt_estimate_walk]. rewrite tb_ok. cbn [bind].
  destruct (level_ok l0 ltac:(lia)) as (r & Er & _ & _ & _ & _ & Pocc & Pblk). rewrite Er. cbn [bind].
  rewrite Pocc. cbn [bind].
  destruct (Pblk c rs Hrs) as (a & Ea & Ha). destruct (Pblk c re Hre) as (b & Eb & Hb').
  rewrite Ea, Eb. cbn [bind].
  destruct (level_ok (S l0) ltac:(lia)) as (r1 & Er1 & _).
  replace (N.of_nat l0 + 1) with (N.of_nat (S l0)) by lia. rewrite Er1. cbn [bind].
  unfold osub. replace (2 <=? 2 * N.of_nat (L - 1 - l0)) with true by lia. cbn [bind].
  replace (2 * N.of_nat (L - 1 - l0) - 2) with (2 * N.of_nat (L - 1 - S l0)) by lia.
  pose proof (count_split (dg l0 c) (qD L l0 s)) as Hcs. rewrite qD_len in Hcs.
  pose proof (rk_le_count (qD L l0 s) (dg l0 c) rs) as H1.
  pose proof (rk_le_count (qD L l0 s) (dg l0 c) re) as H2.
  unfold lrank in Ha, Hb'. unfold rk in H1, H2. unfold loccs_smaller.
  apply IH; lia.
Qed.

Lemma get_walk_ok x : x < 2 ^ w -> forall n l0 b, (l0 + n = L - 1)%nat ->
  tracks N dg (fun l => lv l s) x l0 (S n) b [x] ->
  exists b', tracks N dg (fun l => lv l s) x (L - 1) 1 b' [x] /\
    qwt_get_walk w bsize qvs (x / 4 ^ N.of_nat (L - l0)) b (N.of_nat l0) n =
      Val (x / 4 ^ N.of_nat (L - (L - 1)), b').
Proof.
  intros Hx. induction n as [|n IH]; intros l0 b Hl H.
  - assert (l0 = L - 1)%nat by lia. subst l0. exists b. split; [exact H|reflexivity].
  - cbn [qwt_get_walk].
    destruct (level_ok l0 ltac:(lia)) as (r & Er & _ & _ & Pru & Pgu & Pocc & _). rewrite Er. cbn [bind].
    apply tracks_get in H as (Hn & Hb & H). cbv beta in Hb. rewrite (lev_length N 4 dg (qdig_lt L)) in Hb.
    rewrite (Pgu _ _ Hn). cbn [bind]. rewrite Pocc. cbn [bind]. rewrite Pru by lia. cbn [bind].
    rewrite (qdig_push w L l0 x) by (lia || exact Hx).
    destruct (IH (S l0) _ ltac:(lia) H) as (b' & H' & HW).
    exists b'. split; [exact H'|]. rewrite <- HW. unfold qD, qlev. f_equal; lia.
Qed.

Lemma qwt_get_unchecked_ok i x t : q_n_levels t = N.of_nat L -> q_qvs t = qvs ->
  nthN s i = Some x -> x < 2 ^ w -> x < 4 ^ N.of_nat L ->
  qwt_get_unchecked w bsize t i = Val x.
Proof.
  intros Hnl Hq Hi Hx Hx4. unfold qwt_get_unchecked. rewrite Hnl, Hq. unfold osub.
  replace (1 <=? N.of_nat L) with true by lia. cbn [bind].
  replace (N.of_nat L - 1) with (N.of_nat (L - 1)) by lia. rewrite Nnat.Nat2N.id.
  destruct (nthN_split s i x Hi) as (X & Z & E & <-).
  destruct (get_walk_ok x Hx (L - 1) 0%nat (len X) ltac:(lia)
              (lev_tracks N 4 dg (qdig_lt L) s x (S (L - 1)) 0%nat X [x] Z E)) as (b' & H' & HW).
  rewrite Nat.sub_0_r, (N.div_small _ _ Hx4) in HW. change (N.of_nat 0) with 0 in HW.
  rewrite HW. cbn [bind].
  destruct (level_ok (L - 1) ltac:(lia)) as (r & Er & _ & _ & _ & Pgu & _). rewrite Er. cbn [bind].
  apply tracks_get in H' as (Hn & _).
  rewrite (Pgu _ _ Hn). cbn [bind].
  rewrite (qdig_push w L (L - 1) x) by (lia || exact Hx).
  replace (L - S (L - 1))%nat with 0%nat by lia. f_equal. apply N.div_1_r.
Qed.

Lemma select_down_ok c : forall n l0 b shift, (l0 + n = L)%nat ->
  ((0 < n)%nat -> shift = 2 * N.of_nat (L - 1 - l0)) ->
  Forall (fun '(b, rb) => b <= len s /\ rb <= b) (select_down (wml l0 n s) (dgs l0 n c) b) ->
  qwt_select_down w bsize qvs c shift b (N.of_nat l0) n =
    Val (Some (select_down (wml l0 n s) (dgs l0 n c) b)).
Proof.
  induction n as [|n IH]; intros l0 b shift Hl Hs HF; [reflexivity|].
  rewrite (Hs ltac:(lia)). clear Hs shift.
  rewrite (digits_of_S N dg l0 n), (wml_S L l0 n), select_down_cons in *.
  pose proof (Forall_inv HF) as Hhd. pose proof (Forall_inv_tail HF) as HF'. cbv beta iota in Hhd. destruct Hhd as (Hb1 & Hb2).
  cbn [qwt_select_down]. rewrite tb_ok. cbn [bind].
  destruct (level_ok l0 ltac:(lia)) as (r & Er & Prank & _ & _ & _ & Pocc & _). rewrite Er. cbn [bind].
  rewrite Prank. replace (b <=? len s) with true by lia. cbn [bind]. rewrite Pocc. cbn [bind].
  unfold qD, qlev.
  replace (N.of_nat l0 + 1) with (N.of_nat (S l0)) by lia.
  rewrite (IH (S l0)); [reflexivity|lia| |exact HF'].
  intros Hn. replace (2 <=? 2 * N.of_nat (L - 1 - l0)) with true by lia. lia.
Qed.

Definition mpath (P : list (N * N)) (lvl : N) : list (N * N * N) :=
  map (fun '(lv, (b, rb)) => (lv, b, rb)) (number_levels P lvl).

Lemma mpath_cons b rb P lvl : mpath ((b, rb) :: P) lvl = (lvl, b, rb) :: mpath P (lvl + 1).
Proof. reflexivity. Qed.

Lemma mpath_app P1 : forall P2 lvl, mpath (P1 ++ P2) lvl = mpath P1 lvl ++ mpath P2 (lvl + len P1).
Proof.
  induction P1 as [|[b rb] P1 IH]; intros P2 lvl.
  - cbn [app]. rewrite len_nil, N.add_0_r. reflexivity.
  - cbn [app]. rewrite !mpath_cons, IH, len_cons. cbn [app]. do 3 f_equal.
    now rewrite <- N.add_assoc, (N.add_comm 1).
Qed.

Lemma mpath_len P : forall lvl, len (mpath P lvl) = len P.
Proof.
  induction P as [|[b rb] P IH]; intros lvl; [reflexivity|].
  rewrite mpath_cons, !len_cons, IH. reflexivity.
Qed.

Lemma select_down_len c : forall n l0 b, len (select_down (wml l0 n s) (dgs l0 n c) b) = N.of_nat n.
Proof.
  induction n as [|n IH]; intros l0 b; [reflexivity|].
  rewrite (digits_of_S N dg l0 n), (wml_S L l0 n), select_down_cons. rewrite len_cons, IH. lia.
Qed.

Lemma qwt_select_up_app c : forall p1 p2 shift k,
  qwt_select_up w bsize qvs c shift k (p1 ++ p2) =
  let! r := qwt_select_up w bsize qvs c shift k p1 in
  match r with
  | None => Val None
  | Some j => qwt_select_up w bsize qvs c (shift + 2 * len p1) j p2
  end.
Proof.
  induction p1 as [|[[lvl b] rb] p1 IH]; intros p2 shift k.
  - cbn [app qwt_select_up bind]. change (len (@nil (N * N * N))) with 0. f_equal. lia.
  - cbn [app qwt_select_up].
    destruct (two_bits w c shift) as [tb|]; cbn [bind]; [|reflexivity].
    destruct (idx qvs lvl) as [qv|]; cbn [bind]; [|reflexivity].
    destruct (2 ^ 64 <=? rb + k); [reflexivity|].
    destruct (rsq_select bsize qv tb (rb + k)) as [[p|]|]; cbn [bind]; try reflexivity.
    destruct (osub p b) as [r'|]; cbn [bind]; [|reflexivity].
    rewrite IH. rewrite len_cons. replace (shift + 2 * (len p1 + 1)) with (shift + 2 + 2 * len p1) by lia.
    reflexivity.
Qed.

Lemma select_up_ok c : forall n l0 b k, (l0 + n = L)%nat ->
  qwt_select_up w bsize qvs c 0 k (rev (mpath (select_down (wml l0 n s) (dgs l0 n c) b) (N.of_nat l0))) =
  Val (select_up (rev (wpath (wml l0 n s) (dgs l0 n c) b)) k).
Proof.
  induction n as [|n IH]; intros l0 b k Hl; [reflexivity|].
  rewrite (digits_of_S N dg l0 n), (wml_S L l0 n), select_up_rev_cons, select_down_cons, mpath_cons.
  cbn [rev].
  rewrite qwt_select_up_app.
  replace (N.of_nat l0 + 1) with (N.of_nat (S l0)) by lia.
  rewrite (IH (S l0)) by lia. cbn [bind].
  destruct (select_up _ k) as [j|]; [|reflexivity].
  rewrite len_rev, mpath_len, select_down_len.
  replace (0 + 2 * N.of_nat n) with (2 * N.of_nat (L - 1 - l0)) by lia.
  cbn [qwt_select_up]. rewrite tb_ok. cbn [bind].
  destruct (level_ok l0 ltac:(lia)) as (r & Er & _ & Psel & _). rewrite Er. cbn [bind].
  unfold qD, qlev in Psel.
  unfold up_step, qD, qlev.
  set (D := map (dg l0) (lv l0 s)) in *.
  assert (HDl : len D = len s) by (exact (qD_len L l0 s)).
  destruct (N.leb_spec (2 ^ 64) (lrank D (dg l0 c) b + j)) as [Hov|Hov].
  - rewrite select_spec_none; [reflexivity|].
    pose proof (countN_le_len (dg l0 c) D) as Hc. lia.
  - rewrite (Psel _ _ Hov). cbn [bind].
    destruct (select_spec D (dg l0 c) (lrank D (dg l0 c) b + j)) as [p|] eqn:Ep; [|reflexivity].
    assert (Hge : b <= p).
    { apply (select_spec_ge D (dg l0 c) _ p b Ep). unfold lrank, rk. lia. }
    unfold osub. replace (b <=? p) with true by lia. replace (p <? b) with false by lia.
    cbn [bind qwt_select_up]. reflexivity.
Qed.

Lemma qwt_select_ok c k t : q_n_levels t = N.of_nat L -> q_qvs t = qvs ->
  (q_sigma t <? c) || (q_n t =? 0) = false ->
  qwt_select w bsize t c k = Val (select_pred N (pre N dg L c) s k 0).
Proof.
  intros Hnl Hq Hck. unfold qwt_select. rewrite Hck, Hnl, Hq. unfold osub.
  replace (1 <=? N.of_nat L) with true by lia. cbn [bind]. rewrite Nnat.Nat2N.id.
  change 0 with (N.of_nat 0) at 2.
  rewrite (select_down_ok c L 0%nat 0 _ ltac:(lia)).
  - cbn [bind]. pose proof (select_up_ok c L 0%nat 0 k ltac:(lia)) as HU.
    unfold mpath in HU. change (N.of_nat 0) with 0 in HU. rewrite HU. f_equal.
    exact (wm_select_correct N 4 dg (qdig_lt L) L s c k HL).
  - intros _. f_equal. lia.
  - exact (select_down_bounds N 4 dg (qdig_lt L) L s c).
Qed.

Lemma prefetch_unchecked_eq c i t : q_n_levels t = N.of_nat L -> q_qvs t = qvs -> i <= len s ->
  qwt_rank_prefetch_unchecked w bsize t c i = qwt_rank_unchecked w bsize t c i.
Proof.
  intros Hnl Hq Hi. unfold qwt_rank_prefetch_unchecked. rewrite Hnl, Hq. unfold osub.
  replace (1 <=? N.of_nat L) with true by lia. cbn [bind].
  destruct (level_ok 0 HL) as (r0 & Er0 & _). change (N.of_nat 0) with 0 in Er0. rewrite Er0. cbn [bind].
  replace (N.of_nat L - 1) with (N.of_nat (L - 1 - 0)) by lia. rewrite Nnat.Nat2N.id.
  change 0 with (N.of_nat 0) at 2.
  rewrite (estimate_ok c (L - 1 - 0) 0%nat 0 i) by lia. reflexivity.
Qed.

Lemma walks_bundle t : q_n t = len s -> q_n_levels t = N.of_nat L -> q_sigma t = maxN s ->
  q_qvs t = qvs -> len s <> 0 -> (forall x, In x s -> x < 2 ^ w) -> maxN s < 4 ^ N.of_nat L ->
  qwt_queries_spec w bsize t s.
Proof.
  intros Hn Hnl Hsig Hq Hne Hxw Hm4.
  assert (Hx4 : forall x, In x s -> x < 4 ^ N.of_nat L).
  { intros x Hx. pose proof (maxN_ge s x Hx). lia. }
  assert (Hpre : forall c x, c <= maxN s -> In x s -> pre N dg L c x = (x =? c)).
  { intros c x Hc Hx. apply pre_eq; [now apply Hx4|lia]. }
  assert (Hrk : forall c i, c <= maxN s -> i <= len s ->
            qwt_rank_unchecked w bsize t c i = Val (rank_spec s c i)).
  { intros c i Hc Hi. apply qwt_rank_unchecked_ok; try assumption. lia. }
  assert (Hsel : forall c k, c <= maxN s -> qwt_select w bsize t c k = Val (select_spec s c k)).
  { intros c k Hc. rewrite qwt_select_ok; try assumption.
    - f_equal. unfold select_spec. apply select_pred_eqb. intros x Hx. now apply Hpre.
    - rewrite Hsig, Hn. replace (maxN s <? c) with false by lia. replace (len s =? 0) with false by lia.
      reflexivity. }
  unfold qwt_queries_spec. split; [|split; [|split; [|split; [|split; [|split]]]]].
  - intros i. unfold qwt_get. rewrite Hn. destruct (N.leb_spec (len s) i) as [Hi|Hi].
    + now rewrite nthN_none.
    + destruct (nthN_lt_some s i Hi) as (x & Ex). rewrite Ex.
      rewrite (qwt_get_unchecked_ok i x t Hnl Hq Ex); [reflexivity| |]; [apply Hxw|apply Hx4]; eapply nthN_In; eassumption.
  - intros c i _. unfold qwt_rank. rewrite Hn, Hsig. replace (len s =? 0) with false by lia.
    destruct (N.leb_spec i (len s)) as [Hi|Hi], (N.leb_spec c (maxN s)) as [Hc|Hc]; cbn [negb andb].
    + replace (len s <? i) with false by lia. replace (maxN s <? c) with false by lia. cbn [orb].
      rewrite Hrk by assumption. reflexivity.
    + replace (maxN s <? c) with true by lia. now rewrite orb_true_r.
    + replace (len s <? i) with true by lia. reflexivity.
    + replace (len s <? i) with true by lia. reflexivity.
  - intros c i _. unfold qwt_rank_prefetch, qwt_rank. rewrite Hn.
    destruct (N.ltb_spec (len s) i) as [Hi|Hi]; [reflexivity|]. cbn [orb].
    destruct ((q_sigma t <? c) || (len s =? 0)); [reflexivity|].
    now rewrite prefetch_unchecked_eq.
  - intros c k _ _. replace (len s =? 0) with false by lia. cbn [negb andb].
    destruct (N.leb_spec c (maxN s)) as [Hc|Hc]; [now apply Hsel|].
    unfold qwt_select. rewrite Hsig. replace (maxN s <? c) with true by lia. reflexivity.
  - intros i x Ex. apply qwt_get_unchecked_ok; try assumption; [apply Hxw|apply Hx4]; eapply nthN_In; eassumption.
  - intros c i _ Hc Hi. split; [now apply Hrk|]. rewrite prefetch_unchecked_eq by assumption. now apply Hrk.
  - intros c k p _ Ep. unfold qwt_select_unchecked. rewrite Hsel.
    + rewrite Ep. reflexivity.
    + unfold select_spec in Ep. apply select_from_rk in Ep. destruct Ep as (q & _ & Enq & _).
      apply maxN_ge. eapply nthN_In. exact Enq.
Qed.

End Walks.
