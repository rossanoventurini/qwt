(* C16 — Reported space usage matches the memory actually retained.
   Exact identities between what the hand-written space_usage_byte() sums report (Model/Space.v:
   the _space functions) and the retained heap bytes (the _heap functions) for EVERY state: they differ by explicit
   constants per component only.  The harness checks on every case that the implementation's
   space_usage_byte() equals the model value, that the live bytes equal the model heap value (plain
   structures), and that KiB/MiB/GiB are the same number scaled.  Huffman code tables are kept
   in vectors with amortised growth: their retained size is compared with the slack the property
   allows (proportional to the largest symbol), not predicted. *)
From QwtModel Require Import ListX Seq Consts QVec RSQ QWT BitVec RSBin DArrayM Huff Prefetch Space QWTP SpaceP.
From QwtModel Require WrapP RSQBuild.

Theorem C16_rsq : forall r, len (rs_samples (rsq_rs r)) = 4 -> rsq_space r = rsq_heap r + 144.
Proof. exact rsq_space_heap. Qed.
Print Assumptions C16_rsq.
Theorem C16_rsnarrow : forall r, rsn_space r = rsn_heap r + 80.
Proof. exact rsn_space_heap. Qed.
Print Assumptions C16_rsnarrow.
Theorem C16_rswide : forall r, rsw_space r + 16 = rsw_heap r + 96.
Proof. exact rsw_space_heap. Qed.
Print Assumptions C16_rswide.
Theorem C16_darray : forall d, da_space d = da_heap d + 32 + 56 + (match da_zeros d with Some _ => 56 | None => 0 end).
Proof. exact da_space_heap. Qed.
Print Assumptions C16_darray.
Theorem C16_prefetch_support : forall p, pfs_space p = pfs_heap abi64 p.
Proof. exact pfs_space_heap. Qed.
Print Assumptions C16_prefetch_support.
Theorem C16_qwt : forall t pfs, Forall (fun r => len (rs_samples (rsq_rs r)) = 4) (q_qvs t) ->
  qwt_space t pfs + (match pfs with Some ps => 32 * len ps | None => 0 end) = qwt_heap abi64 t pfs + 16.
Proof. exact qwt_space_heap. Qed.
Print Assumptions C16_qwt.
Theorem C16_wt : forall t, wt_space false t + 8 * len (w_bvs t) = wt_heap_plain abi64 t + 16.
Proof. exact wt_space_heap. Qed.
Print Assumptions C16_wt.
(* the property-level statement for the tree: reported and retained (heap + the value itself,
   inline <= 128 bytes) differ by at most a constant plus 32 bytes per level *)
Theorem C16_qwt_close : forall t pfs inline,
  Forall (fun r => len (rs_samples (rsq_rs r)) = 4) (q_qvs t) -> inline <= 128 ->
  qwt_space t pfs <= qwt_heap abi64 t pfs + inline + 16 /\
  qwt_heap abi64 t pfs + inline <= qwt_space t pfs + (match pfs with Some ps => 32 * len ps | None => 0 end) + 128.
Proof. exact qwt_report_close. Qed.
Print Assumptions C16_qwt_close.
(* the side condition holds for every constructed tree *)
Theorem C16_qwt_built : forall w bsize seq t, width_ok w -> (bsize = 256 \/ bsize = 512) ->
  Forall (fun x => x < 2 ^ w) seq -> len seq < RSQBuild.RSQ_MAXN -> qwt_new w bsize seq = Val t ->
  forall pfs, qwt_space t pfs + (match pfs with Some ps => 32 * len ps | None => 0 end) = qwt_heap abi64 t pfs + 16.
Proof. intros w bsize seq t Hw Hb Hs Hn E pfs. exact (qwt_new_space_heap w bsize seq t pfs Hw Hb Hs Hn E). Qed.
Print Assumptions C16_qwt_built.

(* Huffman-shaped trees: reported bytes = level bytes + constants + the code tables
   (256 * 8 for codes_encode, 5 bytes per decode entry: the slack proportional to the alphabet the
   property allows) *)
Theorem C16_hq : forall t, Forall (fun r => len (rs_samples (rsq_rs r)) = 4) (h_qvs t) ->
  hq_space t None = WrapP.hq_heap_levels t + 16 + 256 * 8 + sumN (map (fun v => len v * 5) (h_decode t)).
Proof. exact WrapP.hq_space_heap. Qed.
Print Assumptions C16_hq.
Theorem C16_hq_built : forall bsize seq tab t, (bsize = 256 \/ bsize = 512) -> len seq < RSQBuild.RSQ_MAXN ->
  hq_build bsize seq tab = Val t ->
  hq_space t None = WrapP.hq_heap_levels t + 16 + 256 * 8 + sumN (map (fun v => len v * 5) (h_decode t)).
Proof. exact WrapP.hq_build_space_heap. Qed.
Print Assumptions C16_hq_built.
Theorem C16_wt_any : forall compressed t,
  wt_space compressed t + 8 * len (w_bvs t) =
  wt_heap_plain abi64 t + 16 +
  (if compressed then 256 * 8 + match w_decode t with Some d => len d * 5 | None => 0 end else 0).
Proof. exact WrapP.wt_space_heap_gen. Qed.
Print Assumptions C16_wt_any.
