(* C12 — Iterators yield exactly the indexed sequence, from both ends, with exact length.
   deque_run (Model/Iter.v) is the specification: a deque over the not-yet-yielded elements;
   wtit_run runs the model of WTIterator over a call history. *)
From QwtModel Require Import ListX Seq Iter QVec QWT Huff BitVec QVecP QWTP HQWTP BitVecP IterP.
From QwtModel Require BinWTP WrapP RSQBuild.

(* every finite history of next / next_back / len, including calls after exhaustion *)
Theorem C12_tree_iterator_histories : forall (get_u : N -> outcome N) (s : list N),
  len s < 2 ^ 64 -> (forall i x, nthN s i = Some x -> get_u i = Val x) ->
  forall h, wtit_run get_u (wtit_new (len s)) h = Val (deque_run s h).
Proof. exact wtit_run_correct. Qed.
Print Assumptions C12_tree_iterator_histories.
Theorem C12_forward : forall (get_u : N -> outcome N) (s : list N),
  len s < 2 ^ 64 -> (forall i x, nthN s i = Some x -> get_u i = Val x) ->
  forall k, wtit_run get_u (wtit_new (len s)) (repeat INext (length s + k)) = Val (map OSome s ++ repeat ONone k).
Proof. exact wtit_forward. Qed.
Print Assumptions C12_forward.
Theorem C12_backward : forall (get_u : N -> outcome N) (s : list N),
  len s < 2 ^ 64 -> (forall i x, nthN s i = Some x -> get_u i = Val x) ->
  forall k, wtit_run get_u (wtit_new (len s)) (repeat IBack (length s + k)) = Val (map OSome (rev s) ++ repeat ONone k).
Proof. exact wtit_backward. Qed.
Print Assumptions C12_backward.
(* once None, always None, and the remaining length is 0 *)
Theorem C12_fused : forall (get_u : N -> outcome N) (s : list N),
  len s < 2 ^ 64 -> (forall i x, nthN s i = Some x -> get_u i = Val x) ->
  forall h1 op h2 out, wtit_run get_u (wtit_new (len s)) (h1 ++ op :: h2) = Val out ->
  nth_error out (length h1) = Some ONone -> skipn (S (length h1)) out = map exhausted_out h2.
Proof. exact wtit_fused. Qed.
Print Assumptions C12_fused.
(* len() = number of elements not yet yielded, at every step *)
Theorem C12_len_exact : forall (get_u : N -> outcome N) (s : list N),
  len s < 2 ^ 64 -> (forall i x, nthN s i = Some x -> get_u i = Val x) ->
  forall h out k n, wtit_run get_u (wtit_new (len s)) h = Val out ->
  nth_error out k = Some (OLen n) -> n = len s - count_some (firstn k out).
Proof. exact wtit_len_exact. Qed.
Print Assumptions C12_len_exact.
Theorem C12_qwt : forall w bsize t seq, qwt_spec w bsize t seq -> len seq < 2 ^ 64 ->
  forall h, wtit_run (qwt_get_unchecked w bsize t) (wtit_new (qwt_len t)) h = Val (deque_run seq h).
Proof. exact qwt_iter_correct. Qed.
Print Assumptions C12_qwt.
Theorem C12_hqwt : forall w bsize t seq, hq_spec w bsize t seq -> len seq < 2 ^ 64 ->
  forall h, wtit_run (hq_get_unchecked w bsize t) (wtit_new (hq_len t)) h = Val (deque_run seq h).
Proof. exact hq_iter_correct. Qed.
Print Assumptions C12_hqwt.
(* quad vector iterator (borrowing and consuming share the code) *)
Theorem C12_qvector : forall vs, exists q, qv_from_iter vs = Val q /\
  forall i, i < 2 ^ 64 - 1 -> qvit_next q i = Val (nthN (stored vs) i, i + 1).
Proof. intros vs. destruct (qv_from_iter_correct vs) as (q & E & _ & _ & _ & H). exists q. split; [exact E|exact H]. Qed.
Print Assumptions C12_qvector.
(* bit vector iterators: borrowing (with exact len), consuming (finding F-15, fixed in the source: len after exhaustion), positions *)
Theorem C12_bits : forall b i, bv_inv b ->
  bvit_next b i = Val (nthN (bv_abs b) i, if i <? len (bv_abs b) then i + 1 else i) /\
  (i <= len (bv_abs b) -> bvit_len b i = Val (len (bv_abs b) - i)).
Proof. exact bvit_correct. Qed.
Print Assumptions C12_bits.
Theorem C12_bits_into : forall b i, bv_inv b ->
  bvinto_next b i = Val (nthN (bv_abs b) i, if i <? len (bv_abs b) then i + 1 else i).
Proof. exact bvinto_correct. Qed.
Print Assumptions C12_bits_into.
Theorem C12_example : deque_run [10;20;30] [INext; ILen; IBack; IBack; ILen; INext; IBack; ILen]
  = [OSome 10; OLen 2; OSome 30; OSome 20; OLen 0; ONone; ONone; OLen 0].
Proof. exact deque_example. Qed.
Print Assumptions C12_example.

(* the binary trees WT / HWT: the same iterator state machine over their get_unchecked *)
Theorem C12_wt : forall w t seq, BinWTP.wt_spec w t seq -> len seq < 2 ^ 64 ->
  forall h, wtit_run (wt_get_unchecked w false t) (wtit_new (w_n t)) h = Val (deque_run seq h).
Proof. exact WrapP.wt_iter_correct. Qed.
Print Assumptions C12_wt.
Theorem C12_hwt : forall w t seq, BinWTP.hwt_spec w t seq -> len seq < 2 ^ 64 ->
  forall h, wtit_run (wt_get_unchecked w true t) (wtit_new (w_n t)) h = Val (deque_run seq h).
Proof. exact WrapP.hwt_iter_correct. Qed.
Print Assumptions C12_hwt.
(* from the constructor: iterating a freshly built plain binary tree *)
Theorem C12_wt_new : forall w seq, BinWTP.width_ok w -> Forall (fun x => x < 2 ^ w) seq -> len seq < RSQBuild.RSQ_MAXN ->
  exists t, wt_build w false seq [] = Val t /\
    forall h, wtit_run (wt_get_unchecked w false t) (wtit_new (w_n t)) h = Val (deque_run seq h).
Proof. exact WrapP.wt_new_iter. Qed.
Print Assumptions C12_wt_new.

(* the borrowing bit iterator REGENERATED from src/bitvector/mod.rs (T5, Gen/FnsIters.v: BitVectorIter::next / len):
   the i-th call returns the i-th bit and then None for ever, len is exact *)
From QwtModel Require Import Loops BitVecW FnsIters FnsItersOk.
Theorem C12_source_bits : forall b i, bv_inv b ->
  g_bvit_next (bv_words b) (bv_nbits b) i =
    Val (bv_words b, bv_nbits b, (if i <? len (bv_abs b) then i + 1 else i), nthN (bv_abs b) i) /\
  (i <= len (bv_abs b) -> g_bvit_len (bv_nbits b) i = Val (len (bv_abs b) - i)).
Proof. exact g_bvit_correct. Qed.
Print Assumptions C12_source_bits.
Theorem C12_source_bits_next : forall b i, i < 2 ^ 64 - 1 ->
  g_bvit_next (bv_words b) (bv_nbits b) i =
  let! (v, i') := bvit_next b i in Val (bv_words b, bv_nbits b, i', v).
Proof. exact g_bvit_next_ok. Qed.
Print Assumptions C12_source_bits_next.
Theorem C12_source_positions_total : forall bit b st fuel, bv_inv b -> pi_reach b st ->
  (S (length (bv_words b)) <= fuel)%nat ->
  exists cp' cwp' cw',
  g_pi_next bit fuel (bv_words b) (bv_nbits b) (pi_cur_position st) (pi_cur_word_pos st) (pi_cur_word st) =
  Val (bv_words b, bv_nbits b, cp', cwp', cw', fst (pi_next bit b st)).
Proof. exact g_pi_next_total. Qed.
Print Assumptions C12_source_positions_total.

(* bv.iter() (regenerated) then next / len (regenerated) *)
From QwtModel Require Import FnsIterCtorsOk.
Theorem C12_source_bits_public : forall b, bv_inv b ->
  g_bv_iter (chunks 8 (bv_words b)) (bv_nbits b) = Val (bv_words b, bv_nbits b, 0) /\
  g_bvm_iter (chunks 8 (bv_words b)) (bv_nbits b) = Val (bv_words b, bv_nbits b, 0) /\
  forall i, g_bvit_next (bv_words b) (bv_nbits b) i
            = Val (bv_words b, bv_nbits b, (if i <? len (bv_abs b) then i + 1 else i), nthN (bv_abs b) i) /\
            (i <= len (bv_abs b) -> g_bvit_len (bv_nbits b) i = Val (len (bv_abs b) - i)).
Proof. exact g_bv_iter_public. Qed.
Print Assumptions C12_source_bits_public.

(* the owning bit iterator BitVectorIntoIter::next / len regenerated (with the fix of finding F-15: len does not underflow after exhaustion) *)
From QwtModel Require Import FnsBvIntoOk.
Theorem C12_source_bits_into : forall b i, bv_inv b ->
  g_bvinto_next (chunks 8 (bv_words b)) (bv_nbits b) (bv_nones b) i
  = Val (chunks 8 (bv_words b), bv_nbits b, bv_nones b, (if i <? len (bv_abs b) then i + 1 else i), nthN (bv_abs b) i) /\
  (i <= len (bv_abs b) -> g_bvinto_len (bv_nbits b) i = Val (len (bv_abs b) - i)).
Proof. exact g_bvinto_correct. Qed.
Print Assumptions C12_source_bits_into.
