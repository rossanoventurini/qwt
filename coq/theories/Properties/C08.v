(* C08 — Mutable/immutable bit vectors behave as a sequence of bits under any history.
   The abstraction bv_abs : bitvec -> list bool and the operation specifications op_spec are in
   Model/BitVec.v and Proofs/BitVecP.v. *)
From QwtModel Require Import ListX Seq Loops Consts Words BitVec BitsLib BitVecP FnsBv FnsBvm FnsBvmOk.

(* every reachable state: any finite history of push / append_bits / extend_with_zeros / set /
   set_bits / extend(bools) / extend(positions) whose arguments satisfy the documented
   preconditions (hist_ok) runs without fault, keeps the invariant and yields exactly the
   list computed by the specification *)
Theorem C08_histories : forall h, hist_ok [] h ->
  exists b, bvrun bv_empty h = Val b /\ bv_inv b /\ bv_abs b = fold_left op_spec h [].
Proof. exact bv_history_correct. Qed.
Print Assumptions C08_histories.

Theorem C08_step : forall b o, bv_inv b -> op_pre (bv_abs b) o = true -> op_small (bv_abs b) o ->
  exists b', bvstep b o = Val b' /\ bv_inv b' /\ bv_abs b' = op_spec (bv_abs b) o.
Proof. exact bv_step_correct. Qed.
Print Assumptions C08_step.

(* the documented panics are exactly the violated preconditions *)
Theorem C08_step_panics : forall b o, bv_inv b -> op_typed o -> op_pre (bv_abs b) o = false ->
  exists f, bvstep b o = Fault f.
Proof. exact bv_step_panics. Qed.
Print Assumptions C08_step_panics.

(* every observer is a function of the abstract list, for all arguments *)
Theorem C08_len : forall b, bv_inv b -> bv_len b = len (bv_abs b).
Proof. exact bv_len_correct. Qed.
Print Assumptions C08_len.
Theorem C08_counts : forall b, bv_inv b ->
  bv_count_ones b = countb (bv_abs b) /\ bv_count_zeros b = Val (len (bv_abs b) - countb (bv_abs b)).
Proof. exact bv_count_correct. Qed.
Print Assumptions C08_counts.
Theorem C08_get : forall b i, bv_inv b -> bv_get b i = Val (nthN (bv_abs b) i).
Proof. exact bv_get_correct. Qed.
Print Assumptions C08_get.
(* multi-bit reads; strict = true is BitVectorMut as the code has it (i + n < len: known finding
   KF-13, the last bits cannot be read), strict = false is BitVector (i + n <= len) *)
Theorem C08_get_bits : forall strict b i n, bv_inv b ->
  bv_get_bits strict b i n =
  Val (if (1 <=? n) && (n <=? 64) && (if strict then i + n <? len (bv_abs b) else i + n <=? len (bv_abs b))
       then Some (bits_value (firstnN n (skipnN i (bv_abs b)))) else None).
Proof. exact bv_get_bits_correct. Qed.
Print Assumptions C08_get_bits.
(* KF-13 as a theorem: the mutable vector refuses a read that ends exactly at the end, the
   immutable one answers it *)
Theorem C08_get_bits_known_finding :
  match bv_from_bools [true; false; true; false; true; false; true] with
  | Val b => bv_get_bits true b 0 7 = Val None /\ bv_get_bits false b 0 7 = Val (Some 85)
  | Fault _ => False
  end.
Proof. vm_compute. split; reflexivity. Qed.
Print Assumptions C08_get_bits_known_finding.
(* whole-word reads with zero padding; panic exactly outside the allocated lines *)
Theorem C08_get_word : forall b w, bv_inv b ->
  bv_get_word b w = if w <? 8 * ((len (bv_abs b) + 511) / 512)
                    then Val (bits_value (firstnN 64 (skipnN (64 * w) (bv_abs b)))) else Fault Panic.
Proof. exact bv_get_word_correct. Qed.
Print Assumptions C08_get_word.
(* position iterators, from the start or from any position including past the end *)
Theorem C08_positions : forall bit b pos fuel, bv_inv b -> len (bv_abs b) < N.of_nat fuel ->
  pi_collect bit b (pi_with_pos bit b pos) fuel = positions_from bit (bv_abs b) pos /\
  pi_collect bit b pi_new fuel = positions_from bit (bv_abs b) 0.
Proof. exact pi_collect_correct. Qed.
Print Assumptions C08_positions.
Theorem C08_positions_meaning : forall bit l pos p,
  In p (positions_from bit l pos) <-> pos <= p /\ nthN l p = Some bit.
Proof. exact positions_from_In. Qed.
Print Assumptions C08_positions_meaning.
Theorem C08_positions_fused : forall bit b st st',
  pi_next bit b st = (None, st') -> pi_next bit b st' = (None, st').
Proof. exact pi_next_none_forever. Qed.
Print Assumptions C08_positions_fused.
(* two vectors holding the same bits are equal (derived PartialEq compares the fields) *)
Theorem C08_extensional : forall b1 b2, bv_inv b1 -> bv_inv b2 -> bv_abs b1 = bv_abs b2 -> b1 = b2.
Proof. exact bv_ext. Qed.
Print Assumptions C08_extensional.
Theorem C08_from_bools : forall bs, len bs < 2 ^ 63 ->
  exists b, bv_from_bools bs = Val b /\ bv_inv b /\ bv_abs b = bs.
Proof. exact bv_from_bools_correct. Qed.
Print Assumptions C08_from_bools.
Theorem C08_from_positions : forall ps, Forall (fun p => p < 2 ^ 63 - 1) ps ->
  exists b, bv_from_positions ps = Val b /\ bv_inv b /\ bv_abs b = op_spec [] (OExtPos ps).
Proof. exact bv_from_positions_correct. Qed.
Print Assumptions C08_from_positions.
(* non-vacuity: a history of eight operations crossing a word and a line boundary, evaluated *)
Theorem C08_example : hist_ok [] ex_hist.
Proof. exact ex_hist_ok. Qed.
Print Assumptions C08_example.

(* the same statements about the functions REGENERATED from src/bitvector/mod.rs on every run (T5, Gen/FnsBvm.v,
   Gen/FnsBv.v): BitVectorMut::{push, append_bits, extend_with_zeros, set, set_bits} as state transformers of the three
   fields (data lines, n_bits, n_ones) and every observer.  [gstep]/[grun] dispatch a history to those generated
   functions ([Extend<bool>] / [Extend<usize>] are loops of generated push / extend_with_zeros / set calls). *)
Theorem C08_source_step : forall b o, bv_inv b -> op_pre (bv_abs b) o = true -> op_small (bv_abs b) o ->
  exists b', gstep (fields b) o = Val (fields b') /\ bv_inv b' /\ bv_abs b' = op_spec (bv_abs b) o.
Proof. exact g_step_correct. Qed.
Print Assumptions C08_source_step.
Theorem C08_source_step_panics : forall b o, bv_inv b -> op_typed o -> op_pre (bv_abs b) o = false ->
  exists f, gstep (fields b) o = Fault f.
Proof. exact g_step_panics. Qed.
Print Assumptions C08_source_step_panics.
Theorem C08_source_observers : forall b, bv_inv b -> gobs (fields b) (bv_abs b).
Proof. exact g_observers_correct. Qed.
Print Assumptions C08_source_observers.
Theorem C08_source_get_bits : forall b i n, bv_inv b ->
  g_bvm_get_bits (chunks 8 (bv_words b)) (bv_nbits b) i n =
  Val (if (1 <=? n) && (n <=? 64) && (i + n <? len (bv_abs b))
       then Some (bits_value (firstnN n (skipnN i (bv_abs b)))) else None).
Proof. exact g_get_bits_correct. Qed.
Print Assumptions C08_source_get_bits.
Theorem C08_source_history : forall h, hist_ok [] h ->
  exists s, grun gempty h = Val s /\ gobs s (fold_left op_spec h []).
Proof. exact g_history_observed. Qed.
Print Assumptions C08_source_history.
Theorem C08_source_history_generated_only : forall h, Forall op_gen h -> hist_ok [] h ->
  exists s, grun gempty h = Val s /\ gobs s (fold_left op_spec h []).
Proof. exact g_history_generated_only. Qed.
Print Assumptions C08_source_history_generated_only.

(* the position iterators REGENERATED from src/bitvector/mod.rs on every run (T5, Gen/FnsIters.v:
   BitVectorBitPositionsIter::<BIT>::{new, with_pos, next} for both values of BIT, `next` with its refill `while`): the
   positions collected through the regenerated functions, from the start or from any position, are exactly the positions of
   the bit in the abstract bit list; after the first None every further call is None.  (The regenerated `next` leaves
   `cur_position` at the last word it loaded when the refill loop runs off the end, the hand model leaves it unchanged:
   [g_state_after] states the difference, which no sequence of calls can observe: [C08_source_positions_run].) *)
From QwtModel Require Import BitVecW FnsIters FnsItersOk.
Theorem C08_source_positions : forall bit b pos fuelw n,
  bv_inv b -> pos < 2 ^ 64 -> (S (length (bv_words b)) <= fuelw)%nat -> len (bv_abs b) < N.of_nat n ->
  (let! (d, nb, cp, cwp, cw) := g_pi_with_pos bit (bv_words b) (bv_nbits b) pos in
   g_pi_collect bit fuelw d nb cp cwp cw n) = Val (positions_from bit (bv_abs b) pos) /\
  (let! (d, nb, cp, cwp, cw) := g_pi_new bit (bv_words b) (bv_nbits b) in
   g_pi_collect bit fuelw d nb cp cwp cw n) = Val (positions_from bit (bv_abs b) 0).
Proof. exact g_positions_correct. Qed.
Print Assumptions C08_source_positions.
Theorem C08_source_positions_next : forall bit b st fuel,
  words_ok (bv_words b) -> len (bv_words b) < 2 ^ 58 -> pi_reach b st ->
  (S (length (bv_words b)) <= fuel)%nat ->
  g_pi_next bit fuel (bv_words b) (bv_nbits b) (pi_cur_position st) (pi_cur_word_pos st) (pi_cur_word st) =
  Val (bv_words b, bv_nbits b,
       pi_cur_position (g_state_after bit b st), pi_cur_word_pos (g_state_after bit b st),
       pi_cur_word (g_state_after bit b st), fst (pi_next bit b st)).
Proof. exact g_pi_next_ok. Qed.
Print Assumptions C08_source_positions_next.
Theorem C08_source_positions_run : forall bit b fuelw,
  words_ok (bv_words b) -> len (bv_words b) < 2 ^ 58 -> (S (length (bv_words b)) <= fuelw)%nat ->
  forall k st, pi_reach b st ->
  g_pi_run bit fuelw (bv_words b) (bv_nbits b) (pi_cur_position st) (pi_cur_word_pos st) (pi_cur_word st) k =
  Val (pi_run bit b st k).
Proof. exact g_pi_run_ok. Qed.
Print Assumptions C08_source_positions_run.
Theorem C08_source_positions_fused : forall bit fuel data nbits cp cwp cw d' n' cp' cwp' cw',
  g_pi_next bit fuel data nbits cp cwp cw = Val (d', n', cp', cwp', cw', None) ->
  forall fuel', (1 <= fuel')%nat ->
  g_pi_next bit fuel' d' n' cp' cwp' cw' = Val (d', n', cp', cwp', cw', None).
Proof. exact g_pi_next_fused. Qed.
Print Assumptions C08_source_positions_fused.

(* the PUBLIC constructors of the position iterators regenerated as well (BitVector / BitVectorMut ::ones, zeros, ones_with_pos,
   zeros_with_pos): the whole public path through regenerated functions only *)
From QwtModel Require Import FnsIterCtorsOk.
Theorem C08_source_positions_public : forall mutable bit b pos fuelw n,
  bv_inv b -> pos < 2 ^ 64 -> (S (length (bv_words b)) <= fuelw)%nat -> len (bv_abs b) < N.of_nat n ->
  (let! (d, nb, cp, cwp, cw) := g_bv_positions_from mutable bit (chunks 8 (bv_words b)) (bv_nbits b) pos in
   g_pi_collect bit fuelw d nb cp cwp cw n) = Val (positions_from bit (bv_abs b) pos) /\
  (let! (d, nb, cp, cwp, cw) := g_bv_positions mutable bit (chunks 8 (bv_words b)) (bv_nbits b) in
   g_pi_collect bit fuelw d nb cp cwp cw n) = Val (positions_from bit (bv_abs b) 0).
Proof. exact g_bv_positions_public. Qed.
Print Assumptions C08_source_positions_public.

(* the collecting constructors regenerated (T5, Gen/FnsBvnew.v: Extend<bool> / Extend<usize> for BitVectorMut, FromIterator
   for BitVectorMut and BitVector): definitionally the loops the history theorems above run for the extend operations, so
   those theorems speak of regenerated code only; and end to end: the regenerated constructor from a bit list / a position list
   returns the fields of a vector whose abstraction is the input. *)
From QwtModel Require Import FnsBvnew FnsBvnewOk.
Theorem C08_source_extend_bools : forall bs d nb no,
  g_bvm_extend_bools d nb no bs = g_extend_bools d nb no bs.
Proof. exact g_bvm_extend_bools_ok. Qed.
Print Assumptions C08_source_extend_bools.
Theorem C08_source_extend_positions : forall ps d nb no,
  g_bvm_extend_positions d nb no ps = g_extend_positions d nb no ps.
Proof. exact g_bvm_extend_positions_ok. Qed.
Print Assumptions C08_source_extend_positions.
Theorem C08_source_from_bools : forall bs, len bs < 2 ^ 63 ->
  exists b, g_bv_from_bools bs = Val (chunks 8 (bv_words b), bv_nbits b, bv_nones b) /\ bv_inv b /\ bv_abs b = bs.
Proof. exact g_bv_from_bools_correct. Qed.
Print Assumptions C08_source_from_bools.
Theorem C08_source_mut_from_bools : forall bs, len bs < 2 ^ 63 ->
  exists b, g_bvm_from_bools bs = Val (chunks 8 (bv_words b), bv_nbits b, bv_nones b) /\ bv_inv b /\ bv_abs b = bs.
Proof. exact g_bvm_from_bools_correct. Qed.
Print Assumptions C08_source_mut_from_bools.
Theorem C08_source_from_positions : forall ps, Forall (fun p => p < 2 ^ 63 - 1) ps ->
  exists b, g_bvm_from_positions ps = Val (chunks 8 (bv_words b), bv_nbits b, bv_nones b) /\ bv_inv b /\
            bv_abs b = op_spec [] (OExtPos ps).
Proof. exact g_bvm_from_positions_correct. Qed.
Print Assumptions C08_source_from_positions.
Theorem C08_source_from_bools_observed : forall bs, len bs < 2 ^ 63 ->
  exists s, g_bv_from_bools bs = Val s /\ gobs s bs /\ gobs_bv s bs.
Proof. exact g_bv_from_bools_observed. Qed.
Print Assumptions C08_source_from_bools_observed.
