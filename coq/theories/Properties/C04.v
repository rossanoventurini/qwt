(* C04 — The safe API is total and memory-safe for every argument and every state.
   By construction of the model every panic site (index, unwrap, assert), every unchecked access
   and every overflowing / underflowing machine operation of the code is a [Fault] of the
   outcome monad (Base/Outcome.v), and the functional theorems C01-C03, C05-C08, C12, C13 are
   all of the form "f st args = Val ..." for ALL argument values of the argument types and all
   states reachable through the safe API.  This file collects the totality corollaries, the
   Default / empty states, and the exact characterisation of the documented panics.
   What the model cannot exhibit: undefined behaviour of the compiled unsafe blocks that does
   not trap (the debug build of the harness turns an out-of-range get_unchecked into an abort;
   see DESIGN). *)
From QwtModel Require Import ListX Seq Consts Words QVec RSQ QWT Huff BitVec RSBin DArrayM RSQBuild.
From QwtModel Require Import QVecP RSQP QWTP HQWTP BinWTP BitsLib BitVecP WordsP BinFinalP DArrayP.

Theorem C04_rsq_total : forall bsize r s, rsq_spec bsize r s -> forall c i k, k < 2 ^ 64 ->
  (exists v, rsq_get r i = Val v) /\ (exists v, rsq_rank bsize r c i = Val v) /\ (exists v, rsq_select bsize r c k = Val v) /\
  (exists v, rsq_occs r c = Val v) /\ (exists v, rsq_occs_smaller_q r c = Val v).
Proof. intros bsize r s (_ & _ & G & R & S & O & OS & _) c i k Hk. repeat split; eexists; eauto. Qed.
Print Assumptions C04_rsq_total.

Theorem C04_qwt_total : forall w bsize t seq, qwt_spec w bsize t seq -> forall c i k, c < 2 ^ w -> k < 2 ^ 64 ->
  (exists v, qwt_get w bsize t i = Val v) /\ (exists v, qwt_rank w bsize t c i = Val v) /\
  (exists v, qwt_rank_prefetch w bsize t c i = Val v) /\ (exists v, qwt_select w bsize t c k = Val v).
Proof. intros w bsize t seq (_ & _ & _ & _ & G & R & P & S & _) c i k Hc Hk. repeat split; eexists; eauto.
  rewrite P by assumption. apply R; assumption. Qed.
Print Assumptions C04_qwt_total.

Theorem C04_hqwt_total : forall w bsize t seq, hq_spec w bsize t seq -> forall c i k, c < 2 ^ w -> k < 2 ^ 64 ->
  (exists v, hq_get w bsize t i = Val v) /\ (exists v, hq_rank bsize t c i = Val v) /\
  (exists v, hq_rank_prefetch bsize t c i = Val v) /\ (exists v, hq_select bsize t c k = Val v).
Proof. intros w bsize t seq (_ & G & R & P & S & _) c i k Hc Hk. repeat split; eexists; eauto.
  rewrite P by assumption. apply R; assumption. Qed.
Print Assumptions C04_hqwt_total.

Theorem C04_wt_total : forall w t seq, wt_spec w t seq -> forall c i k, c < 2 ^ w -> k < 2 ^ 64 ->
  (exists v, wt_get w false t i = Val v) /\ (exists v, wt_rank w false t c i = Val v) /\ (exists v, wt_select w false t c k = Val v).
Proof. intros w t seq (_ & _ & G & R & S & _) c i k Hc Hk. repeat split; eexists; eauto. Qed.
Print Assumptions C04_wt_total.
Theorem C04_hwt_total : forall w t seq, hwt_spec w t seq -> forall c i k, c < 2 ^ w -> k < 2 ^ 64 ->
  (exists v, wt_get w true t i = Val v) /\ (exists v, wt_rank w true t c i = Val v) /\ (exists v, wt_select w true t c k = Val v).
Proof. intros w t seq (_ & G & R & S & _) c i k Hc Hk. repeat split; eexists; eauto. Qed.
Print Assumptions C04_hwt_total.

(* bit vectors: every reader on every reachable state; get_word is the one documented panic *)
Theorem C04_bitvector_total : forall b, bv_inv b -> forall strict i n,
  (exists v, bv_get b i = Val v) /\ (exists v, bv_get_bits strict b i n = Val v) /\ (exists v, bv_count_zeros b = Val v).
Proof. intros b Hb strict i n. repeat split; eexists.
  - apply bv_get_correct; exact Hb. - apply bv_get_bits_correct; exact Hb. - apply (bv_count_correct b Hb). Qed.
Print Assumptions C04_bitvector_total.

Theorem C04_default_rsq : forall bsize, (bsize = 256 \/ bsize = 512) -> exists r, rsq_default bsize = Val r /\ rsq_spec bsize r [].
Proof. exact rsq_default_correct. Qed.
Print Assumptions C04_default_rsq.
Theorem C04_default_qwt : forall w bsize, qwt_spec w bsize qwt_default [].
Proof. exact qwt_default_correct. Qed.
Print Assumptions C04_default_qwt.
Theorem C04_empty_qwt : forall w bsize, QWTP.width_ok w -> (bsize = 256 \/ bsize = 512) ->
  exists t, qwt_new w bsize [] = Val t /\ qwt_spec w bsize t [].
Proof. intros w bsize Hw Hb. apply qwt_new_correct; auto. reflexivity. Qed.
Print Assumptions C04_empty_qwt.
Theorem C04_empty_hqwt : forall w bsize, (bsize = 256 \/ bsize = 512) -> exists t, hq_build bsize [] [] = Val t /\ hq_spec w bsize t [].
Proof. exact hq_build_empty. Qed.
Print Assumptions C04_empty_hqwt.
Theorem C04_empty_wt : forall w compressed tab, exists t, wt_build w compressed [] tab = Val t /\
  (forall i, wt_get w compressed t i = Val None) /\ (forall c i, wt_rank w compressed t c i = Val None) /\
  (forall c k, wt_select w compressed t c k = Val None).
Proof. exact wt_build_empty. Qed.
Print Assumptions C04_empty_wt.
Theorem C04_empty_bitvector : bv_inv bv_empty /\ bv_abs bv_empty = [].
Proof. exact bv_inv_empty. Qed.
Print Assumptions C04_empty_bitvector.

(* mutating a bit vector out of bounds / with stray bits: a fault iff the precondition fails *)
Theorem C04_mutator_panics_iff : forall b o, bv_inv b -> op_typed o -> op_small (bv_abs b) o ->
  (op_pre (bv_abs b) o = true -> exists b', bvstep b o = Val b') /\
  (op_pre (bv_abs b) o = false -> exists f, bvstep b o = Fault f).
Proof. intros b o Hb Ht Hs. split; intros Hp.
  - destruct (bv_step_correct b o Hb Hp Hs) as (b' & E & _). eauto.
  - exact (bv_step_panics b o Hb Ht Hp). Qed.
Print Assumptions C04_mutator_panics_iff.
(* an out-of-range word index *)
Theorem C04_get_word_panics_iff : forall b w, bv_inv b ->
  bv_get_word b w = if w <? 8 * ((len (bv_abs b) + 511) / 512)
                    then Val (bits_value (firstnN 64 (skipnN (64 * w) (bv_abs b)))) else Fault Panic.
Proof. exact bv_get_word_correct. Qed.
Print Assumptions C04_get_word_panics_iff.
(* select0 on a DArray built without select0 support; a non-increasing position list *)
Theorem C04_darray_panics : forall s0 ps, Forall (fun p => p < 2 ^ 63 - 1) ps ->
  if strictly_increasing ps
  then exists d, da_from_positions s0 ps = Val d /\ da_spec s0 d (op_spec [] (OExtPos ps))
  else da_from_positions s0 ps = Fault Panic.
Proof. exact (da_of_positions_total select_in_word_correct popcount_correct). Qed.
Print Assumptions C04_darray_panics.
(* exceeding the length limit: the constructor's assert (model: rss_new) *)
Theorem C04_length_limit : forall bsize syms, MAX_LEN <= len syms -> rss_new bsize syms = Fault Panic.
Proof. intros bsize syms H. unfold rss_new. replace (len syms <? MAX_LEN) with false by (symmetry; apply N.ltb_ge; exact H). reflexivity. Qed.
Print Assumptions C04_length_limit.

From QwtModel Require Import State.
(* the derived Default values that no constructor produces.
   RSNarrow::default() / RSWide::default(): every field empty; every query answers None / 0 *)
Theorem C04_default_rsnarrow : forall i,
  rsn_get rsn_default i = Val None /\ rsn_rank1 rsn_default i = Val None /\ rsn_rank0 rsn_default i = Val None /\
  rsn_select1 rsn_default i = Val None /\ rsn_select0 rsn_default i = Val None /\
  rsn_n_ones rsn_default = Val 0 /\ rsn_n_zeros rsn_default = Val 0.
Proof. intros i. repeat split; try reflexivity; destruct i; reflexivity. Qed.
Print Assumptions C04_default_rsnarrow.
Theorem C04_default_rswide : forall i,
  rsw_get rsw_default i = Val None /\ rsw_rank1 rsw_default i = Val None /\ rsw_rank0 rsw_default i = Val None /\
  rsw_select1 rsw_default i = Val None /\ rsw_select0 rsw_default i = Val None /\ rsw_n_ones rsw_default = Val 0.
Proof. intros i. repeat split; try reflexivity; destruct i; reflexivity. Qed.
Print Assumptions C04_default_rswide.
(* HuffQWaveletTree::default(): no code table, no level *)
Theorem C04_default_hqwt : forall w bsize c i,
  hq_get w bsize hq_default i = Val None /\ hq_rank bsize hq_default c i = Val None /\
  hq_rank_prefetch bsize hq_default c i = Val None /\ hq_select bsize hq_default c i = Val None.
Proof.
  intros w bsize c i.
  assert (Hc : hq_code_of hq_default c = None).
  { unfold hq_code_of, hq_default; cbn [h_codes]. change (len (@nil pcode)) with 0.
    replace (0 <=? sym_index c) with true by (symmetry; apply N.leb_le; apply N.le_0_l).
    rewrite Bool.orb_true_r. reflexivity. }
  unfold hq_get, hq_rank, hq_rank_prefetch, hq_select. rewrite Hc. cbn [h_n hq_default].
  replace (0 <=? i) with true by (symmetry; apply N.leb_le; apply N.le_0_l).
  repeat split; try reflexivity; destruct (0 <? i); reflexivity.
Qed.
Print Assumptions C04_default_hqwt.
