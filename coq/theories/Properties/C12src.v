(* C12 (second file) — WTIterator (src/lib.rs: next / next_back / len) REGENERATED for every container (T5, Gen/FnsTiters.v:
   QWaveletTree and HuffQWaveletTree at both block sizes, the plain and the Huffman-shaped binary tree), QVectorIterator::next
   (Gen/FnsQvb.v) and the `iter()` constructors of the trees: each regenerated step equals the hand model's step on (i, end)
   with the container's fields carried along unchanged (value or fault alike), so every history run through the regenerated
   functions is the deque specification; for the plain trees the container itself comes from the regenerated constructors:
   constructor -> iter() -> any history of next / next_back / len, regenerated code only. *)
From Coq Require Import ZArith.
From QwtModel Require Import ListX Loops Iter ListXP BitVec RSBin QVec RSQ QWT Huff RSQBuild QWTP HQWTP HQWTNewP IterP.
From QwtModel Require Import FnsRsqOk FnsQwtOk FnsHqwtOk FnsWtOk FnsWtNewOk FnsQvbOk.
From QwtModel Require Import FnsQv2 FnsQvb FnsQwt FnsQwtnew FnsHqwt FnsWt FnsWtnew FnsTiters FnsWrapQwtOk FnsWrapWtOk FnsTitersOk FnsTiterCtorsOk.
From QwtModel Require C03 WrapP.
Open Scope N_scope.

Theorem C12_source_qwt_step_next : forall wT i e n nl sg d p sb sm oc,
  g_qwtit256_next wT i e n nl sg d p sb sm oc
  = let! (v, st') := wtit_next (g_qwt256_get_unchecked wT nl d p sb oc) (mk_wtit i e) in
    Val (it_i st', it_end st', n, nl, sg, d, p, sb, sm, oc, v).
Proof. exact g_qwtit256_next_ok. Qed.
Print Assumptions C12_source_qwt_step_next.
Theorem C12_source_qwt_step_next_back : forall wT i e n nl sg d p sb sm oc,
  g_qwtit256_next_back wT i e n nl sg d p sb sm oc
  = let! (v, st') := wtit_next_back (g_qwt256_get_unchecked wT nl d p sb oc) (mk_wtit i e) in
    Val (it_i st', it_end st', n, nl, sg, d, p, sb, sm, oc, v).
Proof. exact g_qwtit256_next_back_ok. Qed.
Print Assumptions C12_source_qwt_step_next_back.
Theorem C12_source_qwt_run_256 : forall wT f i e h,
  g_qwtit256_run wT f i e h = wtit_run (qwt256_get_u wT f) (mk_wtit i e) h.
Proof. exact g_qwtit256_run_ok. Qed.
Print Assumptions C12_source_qwt_run_256.
Theorem C12_source_qwt_run_512 : forall wT f i e h,
  g_qwtit512_run wT f i e h = wtit_run (qwt512_get_u wT f) (mk_wtit i e) h.
Proof. exact g_qwtit512_run_ok. Qed.
Print Assumptions C12_source_qwt_run_512.
Theorem C12_source_hqwt_run_256 : forall wT f i e h,
  g_hqwtit256_run wT f i e h = wtit_run (hqwt256_get_u wT f) (mk_wtit i e) h.
Proof. exact g_hqwtit256_run_ok. Qed.
Print Assumptions C12_source_hqwt_run_256.
Theorem C12_source_hqwt_run_512 : forall wT f i e h,
  g_hqwtit512_run wT f i e h = wtit_run (hqwt512_get_u wT f) (mk_wtit i e) h.
Proof. exact g_hqwtit512_run_ok. Qed.
Print Assumptions C12_source_hqwt_run_512.
Theorem C12_source_wt_run : forall wT f i e h,
  g_wtit_run wT f i e h = wtit_run (wt_get_u wT f) (mk_wtit i e) h.
Proof. exact g_wtit_run_ok. Qed.
Print Assumptions C12_source_wt_run.
Theorem C12_source_hwt_run : forall wT f i e h,
  g_hwtit_run wT f i e h = wtit_run (hwt_get_u wT f) (mk_wtit i e) h.
Proof. exact g_hwtit_run_ok. Qed.
Print Assumptions C12_source_hwt_run.
Theorem C12_source_hqwt_built_256 : forall w seq tab t, HQWTP.width_ok w ->
  Forall (fun x => x < 2 ^ w) seq -> len seq < RSQ_MAXN -> table_ok seq tab -> hq_build 256 seq tab = Val t ->
  g_hqwt256_len (h_n t) = Val (len seq) /\
  forall h, g_hqwtit256_run w (hq_fields t) 0 (len seq) h = Val (deque_run seq h).
Proof. exact g_hqwt256_iter_built. Qed.
Print Assumptions C12_source_hqwt_built_256.
Theorem C12_source_hqwt_built_512 : forall w seq tab t, HQWTP.width_ok w ->
  Forall (fun x => x < 2 ^ w) seq -> len seq < RSQ_MAXN -> table_ok seq tab -> hq_build 512 seq tab = Val t ->
  g_hqwt512_len (h_n t) = Val (len seq) /\
  forall h, g_hqwtit512_run w (hq_fields t) 0 (len seq) h = Val (deque_run seq h).
Proof. exact g_hqwt512_iter_built. Qed.
Print Assumptions C12_source_hqwt_built_512.
Theorem C12_source_hwt_built : forall w seq tab t,
  (w = 8 \/ w = 16 \/ w = 32 \/ w = 64 \/ w = 128) -> Forall (fun x => x < 2 ^ w) seq ->
  len seq < RSQ_MAXN -> seq <> [] -> C03.C03_table_ok seq tab -> wt_build w true seq tab = Val t ->
  g_hwt_len (w_n t) = Val (len seq) /\
  forall h, g_hwtit_run w (bwt_fields t) 0 (len seq) h = Val (deque_run seq h).
Proof. exact g_hwt_iter_built. Qed.
Print Assumptions C12_source_hwt_built.
Theorem C12_source_qvector_next : forall i d p,
  g_qvit_next i d p = let! i' := oadd 64 i 1 in let! v := g_qv_get d p i in Val (i', d, p, v).
Proof. exact g_qvit_next_ok. Qed.
Print Assumptions C12_source_qvector_next.
Theorem C12_source_qvector_overflow : forall d p, g_qvit_next (2 ^ 64 - 1) d p = Fault Overflow.
Proof. exact g_qvit_next_overflow. Qed.
Print Assumptions C12_source_qvector_overflow.
Theorem C12_source_qvector_public : forall wT vs, len vs < 2 ^ 63 ->
  exists data pos, g_qv_from_iter wT vs = Val (data, pos) /\
    (forall k, N.of_nat k < 2 ^ 64 ->
       g_qvit_run k 0 data pos = Val (map (nthN (map (fun v => v mod 4) vs)) (seqN 0 k))) /\
    (forall j, N.of_nat (length vs + j) < 2 ^ 64 ->
       g_qvit_run (length vs + j) 0 data pos = Val (map (fun v => Some (v mod 4)) vs ++ repeat None j)).
Proof. exact g_qv_iter_public. Qed.
Print Assumptions C12_source_qvector_public.
Theorem C12_source_qwt_public_256 : forall k w s, width_ok w -> Forall (fun x => x < 2 ^ w) s -> len s < RSQ_MAXN ->
  exists n nl sg d p sb sm oc,
    qwt256_ctor k w s = Val (n, nl, sg, d, p, sb, sm, oc) /\
    g_qwt256_iter w n nl sg d p sb sm oc = Val (0, len s, n, nl, sg, d, p, sb, sm, oc) /\
    forall h, g_qwtit256_run w (n, nl, sg, d, p, sb, sm, oc) 0 (len s) h = Val (deque_run s h).
Proof. exact g_qwt256_iter_path. Qed.
Print Assumptions C12_source_qwt_public_256.
Theorem C12_source_qwt_public_512 : forall k w s, width_ok w -> Forall (fun x => x < 2 ^ w) s -> len s < RSQ_MAXN ->
  exists n nl sg d p sb sm oc,
    qwt512_ctor k w s = Val (n, nl, sg, d, p, sb, sm, oc) /\
    g_qwt512_iter w n nl sg d p sb sm oc = Val (0, len s, n, nl, sg, d, p, sb, sm, oc) /\
    forall h, g_qwtit512_run w (n, nl, sg, d, p, sb, sm, oc) 0 (len s) h = Val (deque_run s h).
Proof. exact g_qwt512_iter_path. Qed.
Print Assumptions C12_source_qwt_public_512.
Theorem C12_source_wt_public : forall k w s, (w = 8 \/ w = 16 \/ w = 32 \/ w = 64 \/ w = 128) ->
  Forall (fun x => x < 2 ^ w) s -> len s < RSQ_MAXN ->
  exists n nl sg data nbits nones meta samples nzeros lens,
    wt_ctor k w s = Val (n, nl, sg, None, None, None, data, nbits, nones, meta, samples, nzeros, lens) /\
    g_wt_iter w n nl sg None None None data nbits nones meta samples nzeros lens
      = Val (0, len s, n, nl, sg, None, None, None, data, nbits, nones, meta, samples, nzeros, lens) /\
    forall h, g_wtit_run w (n, nl, sg, None, None, None, data, nbits, nones, meta, samples, nzeros, lens) 0 (len s) h
              = Val (deque_run s h).
Proof. exact g_wt_iter_path. Qed.
Print Assumptions C12_source_wt_public.
