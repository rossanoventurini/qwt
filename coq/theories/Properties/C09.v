(* C09 — Prefetching never changes an answer or causes a fault.
   rank_prefetch = (validity checks; estimation phase; exact rank).  The estimation phase only
   computes prefetch addresses (prefetch_read_NTA has no architectural effect and is not
   modelled); what can go wrong is a panic or an out-of-range access INSIDE it: the sampled rank
   is `rank1(i >> 11 + 1).unwrap()` on a sampled bit vector, and the estimated positions are used
   as indices of counter arrays.  The theorems say: for every sequence, symbol and position the
   model of rank_prefetch (types with and without prefetch support, plain and Huffman-shaped)
   returns exactly what rank returns — in particular no Fault.  Feature on/off equality is
   checked by the harness (two builds must print identical lines). *)
From QwtModel Require Import ListX Seq Consts Words QVec RSQ QWT Huff Prefetch RSQBuild WordsP QWTP HQWTP PrefetchL PrefetchV PrefetchP.

(* types without prefetch support (QWT256/512, HQWT256/512): part of the tree contracts *)
Theorem C09_qwt_plain : forall w bsize seq t, QWTP.width_ok w -> (bsize = 256 \/ bsize = 512) ->
  Forall (fun x => x < 2 ^ w) seq -> len seq < RSQ_MAXN -> qwt_new w bsize seq = Val t ->
  forall c i, c < 2 ^ w -> qwt_rank_prefetch w bsize t c i = qwt_rank w bsize t c i.
Proof.
  intros w bsize seq t Hw Hb Hs Hn E. destruct (qwt_new_correct w bsize seq Hw Hb Hs Hn) as (t' & E' & S).
  rewrite E in E'. injection E' as <-. destruct S as (_ & _ & _ & _ & _ & _ & P & _). exact P.
Qed.
Print Assumptions C09_qwt_plain.

(* types WITH prefetch support (QWT256Pfs/512Pfs): the sampled estimation never faults *)
Theorem C09_qwt_pfs : forall w bsize seq t pfs, QWTP.width_ok w -> (bsize = 256 \/ bsize = 512) ->
  Forall (fun x => x < 2 ^ w) seq -> len seq < RSQ_MAXN ->
  qwt_new w bsize seq = Val t -> qwt_pfs_new w seq = Val pfs ->
  forall c i, c < 2 ^ w -> qwt_rank_prefetch_pfs w bsize t pfs c i = qwt_rank w bsize t c i.
Proof. exact (qwt_rank_prefetch_pfs_correct select_in_word_correct popcount_correct). Qed.
Print Assumptions C09_qwt_pfs.
Theorem C09_qwt_pfs_built : forall w seq, QWTP.width_ok w -> Forall (fun x => x < 2 ^ w) seq -> len seq < RSQ_MAXN ->
  exists pfs, qwt_pfs_new w seq = Val pfs.
Proof. exact (qwt_pfs_new_total select_in_word_correct popcount_correct). Qed.
Print Assumptions C09_qwt_pfs_built.

(* Huffman-shaped trees with prefetch support: levels shrink, the estimate may exceed the exact
   position by one per level (the proved invariant), still inside every sampled vector *)
Theorem C09_hqwt_pfs : forall w bsize seq tab t pfs, HQWTP.width_ok w -> (bsize = 256 \/ bsize = 512) ->
  Forall (fun x => x < 2 ^ w) seq -> len seq < RSQ_MAXN -> table_ok seq tab ->
  hq_build bsize seq tab = Val t -> hq_pfs_new seq tab = Val pfs ->
  forall c i, c < 2 ^ w -> hq_rank_prefetch_pfs bsize t pfs c i = hq_rank bsize t c i.
Proof. exact (hq_rank_prefetch_pfs_correct select_in_word_correct popcount_correct). Qed.
Print Assumptions C09_hqwt_pfs.

(* the estimates really are imprecise, in both directions: the sampled rank can exceed the exact
   rank (count reaching a multiple of 2048 exactly at a sampling index) *)
Theorem C09_estimate_can_exceed_exact : pfs_val above_D 0 2048 = 2048 /\ countN 0 (firstnN 2048 above_D) = 2047 /\ 2048 < pfs_bound above_D.
Proof. exact pfs_val_above_rank. Qed.
Print Assumptions C09_estimate_can_exceed_exact.

(* rank_prefetch / rank_prefetch_unchecked of the types WITHOUT prefetch support (QWT256 / QWT512) REGENERATED from
   src/quadwt/mod.rs on every run (T5, Gen/FnsQwtnew.v: the estimation loop over the levels with its `Range`, the arguments of
   every prefetch call evaluated with their checked arithmetic and index checks, then rank_unchecked): the estimation phase
   never faults and has no effect, so on every tree — also one built by the regenerated constructors — rank_prefetch is rank,
   for every symbol and every position. *)
From QwtModel Require Import Loops FnsQwt FnsQwtnew FnsQwtOk FnsWrapQwtOk FnsQwtPrefetchOk.
Theorem C09_source_plain_256 : forall k w s, width_ok w -> Forall (fun x => x < 2 ^ w) s ->
  len s < RSQ_MAXN ->
  exists n nl sg d p sb sm oc,
    qwt256_ctor k w s = Val (n, nl, sg, d, p, sb, sm, oc) /\
    (forall c i, c < 2 ^ w ->
       g_qwt256_rank_prefetch w n nl sg d sb oc c i
       = Val (if negb (len s =? 0) && (i <=? len s) && (c <=? maxN s) then Some (rank_spec s c i) else None) /\
       g_qwt256_rank_prefetch w n nl sg d sb oc c i = g_qwt256_rank w n nl sg d sb oc c i) /\
    (forall c i, i <= len s ->
       g_qwt256_rank_prefetch_unchecked w nl d sb oc c i = g_qwt256_rank_unchecked w nl d sb oc c i) /\
    (forall c i, 0 < len s -> c <= maxN s -> i <= len s ->
       g_qwt256_rank_prefetch_unchecked w nl d sb oc c i = Val (rank_spec s c i)).
Proof. exact g_qwt256_ctors_rank_prefetch. Qed.
Print Assumptions C09_source_plain_256.
Theorem C09_source_plain_512 : forall k w s, width_ok w -> Forall (fun x => x < 2 ^ w) s ->
  len s < RSQ_MAXN ->
  exists n nl sg d p sb sm oc,
    qwt512_ctor k w s = Val (n, nl, sg, d, p, sb, sm, oc) /\
    (forall c i, c < 2 ^ w ->
       g_qwt512_rank_prefetch w n nl sg d sb oc c i
       = Val (if negb (len s =? 0) && (i <=? len s) && (c <=? maxN s) then Some (rank_spec s c i) else None) /\
       g_qwt512_rank_prefetch w n nl sg d sb oc c i = g_qwt512_rank w n nl sg d sb oc c i) /\
    (forall c i, i <= len s ->
       g_qwt512_rank_prefetch_unchecked w nl d sb oc c i = g_qwt512_rank_unchecked w nl d sb oc c i) /\
    (forall c i, 0 < len s -> c <= maxN s -> i <= len s ->
       g_qwt512_rank_prefetch_unchecked w nl d sb oc c i = Val (rank_spec s c i)).
Proof. exact g_qwt512_ctors_rank_prefetch. Qed.
Print Assumptions C09_source_plain_512.
Theorem C09_source_eq_rank_256 : forall w s t, width_ok w -> Forall (fun x => x < 2 ^ w) s ->
  len s < RSQ_MAXN -> qwt_new w 256 s = Val t -> forall c i,
  g_qwt256_rank_prefetch w (q_n t) (q_n_levels t) (q_sigma t) (qwt_data t) (qwt_sbs t) (qwt_occs t) c i
  = g_qwt256_rank w (q_n t) (q_n_levels t) (q_sigma t) (qwt_data t) (qwt_sbs t) (qwt_occs t) c i.
Proof. exact g_qwt256_rank_prefetch_eq_rank. Qed.
Print Assumptions C09_source_eq_rank_256.
Theorem C09_source_eq_rank_512 : forall w s t, width_ok w -> Forall (fun x => x < 2 ^ w) s ->
  len s < RSQ_MAXN -> qwt_new w 512 s = Val t -> forall c i,
  g_qwt512_rank_prefetch w (q_n t) (q_n_levels t) (q_sigma t) (qwt_data t) (qwt_sbs t) (qwt_occs t) c i
  = g_qwt512_rank w (q_n t) (q_n_levels t) (q_sigma t) (qwt_data t) (qwt_sbs t) (qwt_occs t) c i.
Proof. exact g_qwt512_rank_prefetch_eq_rank. Qed.
Print Assumptions C09_source_eq_rank_512.

(* the same for the Huffman-shaped types without prefetch support (HQWT256 / HQWT512): rank_prefetch(_unchecked) of
   src/quadwt/huffqwt.rs REGENERATED (T5, Gen/FnsHqwt.v: the code lookup, the `while shift >= 2` estimation loop, the prefetch
   arguments, then rank_unchecked): on every built tree the estimation never faults and has no effect; rank_prefetch = rank for
   every symbol (with or without a code, inside or outside the table) and every position. *)
From QwtModel Require Import FnsHqwt FnsHqwtOk FnsHqwtPrefetchOk HQWTP.
Theorem C09_source_hqwt_eq_rank_256 : forall w seq tab t fuel, width_ok w ->
  Forall (fun x => x < 2 ^ w) seq -> len seq < RSQ_MAXN -> table_ok seq tab ->
  hq_build 256 seq tab = Val t -> (17 <= fuel)%nat ->
  forall c i,
  g_hqwt256_rank_prefetch fuel w (h_n t) (hq_enc_content t) (hq_enc_len t) (hq_data t) (hq_sbs t) (hq_occs t) c i
  = g_hqwt256_rank fuel w (h_n t) (hq_enc_content t) (hq_enc_len t) (hq_data t) (hq_sbs t) (hq_occs t) c i.
Proof. exact g_hqwt256_rank_prefetch_eq_rank. Qed.
Print Assumptions C09_source_hqwt_eq_rank_256.
Theorem C09_source_hqwt_eq_rank_512 : forall w seq tab t fuel, width_ok w ->
  Forall (fun x => x < 2 ^ w) seq -> len seq < RSQ_MAXN -> table_ok seq tab ->
  hq_build 512 seq tab = Val t -> (17 <= fuel)%nat ->
  forall c i,
  g_hqwt512_rank_prefetch fuel w (h_n t) (hq_enc_content t) (hq_enc_len t) (hq_data t) (hq_sbs t) (hq_occs t) c i
  = g_hqwt512_rank fuel w (h_n t) (hq_enc_content t) (hq_enc_len t) (hq_data t) (hq_sbs t) (hq_occs t) c i.
Proof. exact g_hqwt512_rank_prefetch_eq_rank. Qed.
Print Assumptions C09_source_hqwt_eq_rank_512.
Theorem C09_source_hqwt_built_256 : forall w seq tab t fuel, width_ok w ->
  Forall (fun x => x < 2 ^ w) seq -> len seq < RSQ_MAXN -> table_ok seq tab ->
  hq_build 256 seq tab = Val t ->
  (17 <= fuel)%nat -> (S (S (N.to_nat (len seq / (8 * 256)))) <= fuel)%nat ->
  forall c i, c < 2 ^ w -> i < 2 ^ 64 ->
  g_hqwt256_rank_prefetch fuel w (h_n t) (hq_enc_content t) (hq_enc_len t) (hq_data t) (hq_sbs t) (hq_occs t) c i
  = Val (if (i <=? len seq) && (0 <? countN c seq) then Some (rank_spec seq c i) else None).
Proof. exact g_hqwt256_rank_prefetch_built. Qed.
Print Assumptions C09_source_hqwt_built_256.
Theorem C09_source_hqwt_built_512 : forall w seq tab t fuel, width_ok w ->
  Forall (fun x => x < 2 ^ w) seq -> len seq < RSQ_MAXN -> table_ok seq tab ->
  hq_build 512 seq tab = Val t ->
  (17 <= fuel)%nat -> (S (S (N.to_nat (len seq / (8 * 512)))) <= fuel)%nat ->
  forall c i, c < 2 ^ w -> i < 2 ^ 64 ->
  g_hqwt512_rank_prefetch fuel w (h_n t) (hq_enc_content t) (hq_enc_len t) (hq_data t) (hq_sbs t) (hq_occs t) c i
  = Val (if (i <=? len seq) && (0 <? countN c seq) then Some (rank_spec seq c i) else None).
Proof. exact g_hqwt512_rank_prefetch_built. Qed.
Print Assumptions C09_source_hqwt_built_512.
