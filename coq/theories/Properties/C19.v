(* C19 — All construction paths and copies build the same structure.
   In the code From<Vec<T>> and FromIterator delegate to new(&mut [T]) (the harness compares
   the three paths and Clone on the implementation: equal values, equal answers); in the model
   a constructor is a function of the sequence.  What needs proof: different sequences never
   build equal values, and the element width does not matter. *)
From QwtModel Require Import ListX Seq QVec RSQ QWT Huff RSQBuild QVecP QWTP HQWTP PathsP.

Theorem C19_width_independent : forall w1 w2 bsize seq t1 t2,
  QWTP.width_ok w1 -> QWTP.width_ok w2 -> (bsize = 256 \/ bsize = 512) ->
  Forall (fun x => x < 2 ^ w1) seq -> Forall (fun x => x < 2 ^ w2) seq -> len seq < RSQ_MAXN ->
  qwt_new w1 bsize seq = Val t1 -> qwt_new w2 bsize seq = Val t2 ->
  (forall i, qwt_get w1 bsize t1 i = qwt_get w2 bsize t2 i) /\
  (forall c i, c < 2 ^ w1 -> c < 2 ^ w2 -> qwt_rank w1 bsize t1 c i = qwt_rank w2 bsize t2 c i) /\
  (forall c k, c < 2 ^ w1 -> c < 2 ^ w2 -> k < 2 ^ 64 -> qwt_select w1 bsize t1 c k = qwt_select w2 bsize t2 c k).
Proof. exact qwt_width_independent. Qed.
Print Assumptions C19_width_independent.

Theorem C19_qwt_injective : forall w bsize s1 s2 t, QWTP.width_ok w -> (bsize = 256 \/ bsize = 512) ->
  Forall (fun x => x < 2 ^ w) s1 -> Forall (fun x => x < 2 ^ w) s2 -> len s1 < RSQ_MAXN -> len s2 < RSQ_MAXN ->
  qwt_new w bsize s1 = Val t -> qwt_new w bsize s2 = Val t -> s1 = s2.
Proof. exact qwt_new_inj. Qed.
Print Assumptions C19_qwt_injective.
Theorem C19_rsq_injective : forall bsize v1 v2 r, (bsize = 256 \/ bsize = 512) ->
  len v1 < RSQ_MAXN -> len v2 < RSQ_MAXN -> rsq_new bsize v1 = Val r -> rsq_new bsize v2 = Val r ->
  map sym4 v1 = map sym4 v2.
Proof. exact rsq_new_inj. Qed.
Print Assumptions C19_rsq_injective.
Theorem C19_hqwt_injective : forall w bsize s1 s2 tab t, HQWTP.width_ok w -> (bsize = 256 \/ bsize = 512) ->
  Forall (fun x => x < 2 ^ w) s1 -> Forall (fun x => x < 2 ^ w) s2 -> len s1 < RSQ_MAXN -> len s2 < RSQ_MAXN ->
  table_ok s1 tab -> table_ok s2 tab -> hq_build bsize s1 tab = Val t -> hq_build bsize s2 tab = Val t -> s1 = s2.
Proof. exact hq_build_inj. Qed.
Print Assumptions C19_hqwt_injective.
(* Huffman-shaped trees built with different (equally good) code tables answer identically:
   both equal the specification (C02), for whichever table the builder picked *)
Theorem C19_hqwt_any_table : forall w bsize seq tab1 tab2 t1 t2, HQWTP.width_ok w -> (bsize = 256 \/ bsize = 512) ->
  Forall (fun x => x < 2 ^ w) seq -> len seq < RSQ_MAXN -> table_ok seq tab1 -> table_ok seq tab2 ->
  hq_build bsize seq tab1 = Val t1 -> hq_build bsize seq tab2 = Val t2 ->
  (forall i, hq_get w bsize t1 i = hq_get w bsize t2 i) /\
  (forall c i, c < 2 ^ w -> hq_rank bsize t1 c i = hq_rank bsize t2 c i) /\
  (forall c k, c < 2 ^ w -> k < 2 ^ 64 -> hq_select bsize t1 c k = hq_select bsize t2 c k).
Proof.
  intros w bsize seq tab1 tab2 t1 t2 Hw Hb Hs Hn H1 H2 E1 E2.
  destruct (hq_build_correct w bsize seq tab1 Hw Hb Hs Hn H1) as (u1 & F1 & S1).
  destruct (hq_build_correct w bsize seq tab2 Hw Hb Hs Hn H2) as (u2 & F2 & S2).
  rewrite E1 in F1. rewrite E2 in F2. injection F1 as <-. injection F2 as <-.
  destruct S1 as (_ & G1 & R1 & _ & L1 & _). destruct S2 as (_ & G2 & R2 & _ & L2 & _).
  repeat split; intros.
  - now rewrite G1, G2.
  - now rewrite R1, R2.
  - now rewrite L1, L2.
Qed.
Print Assumptions C19_hqwt_any_table.

(* the remaining families (Proofs/GapsP.v): binary trees, rank/select bit vectors, DArray,
   quad vector: values built from different inputs are different values, element width and
   (for Huffman-shaped trees) the code table do not change any answer *)
From QwtModel Require Import Words BitVec RSBin DArrayM BinWTP GapsP.

Theorem C19_wt_injective : forall w s1 s2 t, BinWTP.width_ok w ->
  Forall (fun x => x < 2 ^ w) s1 -> Forall (fun x => x < 2 ^ w) s2 -> len s1 < RSQ_MAXN -> len s2 < RSQ_MAXN ->
  wt_build w false s1 [] = Val t -> wt_build w false s2 [] = Val t -> s1 = s2.
Proof. exact wt_new_inj. Qed.
Print Assumptions C19_wt_injective.
Theorem C19_hwt_injective : forall w s1 s2 tab t, BinWTP.width_ok w ->
  Forall (fun x => x < 2 ^ w) s1 -> Forall (fun x => x < 2 ^ w) s2 -> len s1 < RSQ_MAXN -> len s2 < RSQ_MAXN ->
  table_ok2 s1 tab -> table_ok2 s2 tab ->
  wt_build w true s1 tab = Val t -> wt_build w true s2 tab = Val t -> s1 = s2.
Proof. exact hwt_build_inj. Qed.
Print Assumptions C19_hwt_injective.
Theorem C19_wt_width_independent : forall w1 w2 seq t1 t2,
  BinWTP.width_ok w1 -> BinWTP.width_ok w2 ->
  Forall (fun x => x < 2 ^ w1) seq -> Forall (fun x => x < 2 ^ w2) seq -> len seq < RSQ_MAXN ->
  wt_build w1 false seq [] = Val t1 -> wt_build w2 false seq [] = Val t2 ->
  (forall i, wt_get w1 false t1 i = wt_get w2 false t2 i) /\
  (forall c i, c < 2 ^ w1 -> c < 2 ^ w2 -> wt_rank w1 false t1 c i = wt_rank w2 false t2 c i) /\
  (forall c k, c < 2 ^ w1 -> c < 2 ^ w2 -> k < 2 ^ 64 -> wt_select w1 false t1 c k = wt_select w2 false t2 c k).
Proof. exact wt_width_independent. Qed.
Print Assumptions C19_wt_width_independent.
Theorem C19_hwt_any_table : forall w seq tab1 tab2 t1 t2, BinWTP.width_ok w ->
  Forall (fun x => x < 2 ^ w) seq -> len seq < RSQ_MAXN -> table_ok2 seq tab1 -> table_ok2 seq tab2 ->
  wt_build w true seq tab1 = Val t1 -> wt_build w true seq tab2 = Val t2 ->
  (forall i, wt_get w true t1 i = wt_get w true t2 i) /\
  (forall c i, c < 2 ^ w -> wt_rank w true t1 c i = wt_rank w true t2 c i) /\
  (forall c k, c < 2 ^ w -> k < 2 ^ 64 -> wt_select w true t1 c k = wt_select w true t2 c k).
Proof. exact hwt_any_table. Qed.
Print Assumptions C19_hwt_any_table.
Theorem C19_rsnarrow_injective : forall b1 b2 bv1 bv2 r, len b1 < 2 ^ 43 -> len b2 < 2 ^ 43 ->
  bv_from_bools b1 = Val bv1 -> bv_from_bools b2 = Val bv2 ->
  rsn_new bv1 = Val r -> rsn_new bv2 = Val r -> b1 = b2.
Proof. exact rsn_inj. Qed.
Print Assumptions C19_rsnarrow_injective.
Theorem C19_rswide_injective : forall b1 b2 bv1 bv2 r, len b1 < 2 ^ 43 -> len b2 < 2 ^ 43 ->
  bv_from_bools b1 = Val bv1 -> bv_from_bools b2 = Val bv2 ->
  rsw_new bv1 = Val r -> rsw_new bv2 = Val r -> b1 = b2.
Proof. exact rsw_inj. Qed.
Print Assumptions C19_rswide_injective.
Theorem C19_darray_injective : forall s0 s0' b1 b2 d, len b1 < 2 ^ 63 -> len b2 < 2 ^ 63 ->
  da_from_bools s0 b1 = Val d -> da_from_bools s0' b2 = Val d -> b1 = b2.
Proof. exact da_from_bools_inj. Qed.
Print Assumptions C19_darray_injective.
Theorem C19_qvector_injective : forall v1 v2 q,
  qv_from_iter v1 = Val q -> qv_from_iter v2 = Val q -> stored v1 = stored v2.
Proof. exact qv_from_iter_inj. Qed.
Print Assumptions C19_qvector_injective.
(* non-vacuity: two concrete sequences build different trees *)
Theorem C19_example : gap_ex_plain_b = true.
Proof. exact wt_differ_ex. Qed.
Print Assumptions C19_example.
