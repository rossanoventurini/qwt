(* C18 — Queries are pure and structures can be shared across threads.
   What a Gallina model can carry: every query of the model is a FUNCTION of the (immutable)
   state and its arguments and returns no new state.  Over an explicit interleaving semantics
   (any number of threads, any scheduler) this gives: the state is never changed, and every
   thread observes exactly the answers a single thread would.  The modelling claim itself —
   that the real query methods take &self and touch nothing else, and that the types are
   Send + Sync — is tied to the code by the harness (compile-time Send + Sync bounds, serialized
   bytes identical before/after, multi-threaded runs); data races of a hypothetical interior
   mutable cache cannot be exhibited by this model (partial; see DESIGN). *)
From Coq Require Import List.
Import ListNotations.

Section Frame.
Variables (state arg out : Type).
Variable query : state -> arg -> out.          (* any &self method *)

(* a schedule: which thread issues which query, in global order *)
Definition step (st : state) (e : nat * arg) : state * (nat * out) := (st, (fst e, query st (snd e))).
Fixpoint run (st : state) (sched : list (nat * arg)) : state * list (nat * out) :=
  match sched with
  | [] => (st, [])
  | e :: r => let '(st1, o) := step st e in let '(st2, os) := run st1 r in (st2, o :: os)
  end.
Definition of_thread {A} (i : nat) (l : list (nat * A)) : list A :=
  map snd (filter (fun e => Nat.eqb (fst e) i) l).

Theorem C18_frame : forall st sched, fst (run st sched) = st.
Proof. intros st sched. induction sched as [|e r IH]; cbn [run step]; [reflexivity|].
  destruct (run st r) as [st2 os] eqn:E. cbn [fst] in *. exact IH. Qed.

Theorem C18_schedule_independent : forall st sched i,
  of_thread i (snd (run st sched)) = map (query st) (of_thread i sched).
Proof. intros st sched i. induction sched as [|e r IH]; cbn [run step]; [reflexivity|].
  destruct (run st r) as [st2 os] eqn:E. cbn [snd fst] in *. unfold of_thread in *. cbn [filter fst snd].
  destruct (Nat.eqb (fst e) i); cbn [map snd]; rewrite IH; reflexivity. Qed.

Theorem C18_repeatable : forall st a sched, query (fst (run st sched)) a = query st a.
Proof. intros. now rewrite C18_frame. Qed.
End Frame.
Print Assumptions C18_frame.
Print Assumptions C18_schedule_independent.
Print Assumptions C18_repeatable.

(* instantiation: the query functions of the model have exactly this shape *)
From QwtModel Require Import ListX QWT Huff RSBin DArrayM.
Theorem C18_qwt_rank_shared : forall w bsize (t : qwt) (sched : list (nat * (N * N))) i,
  of_thread i (snd (run _ _ _ (fun t a => qwt_rank w bsize t (fst a) (snd a)) t sched))
  = map (fun a => qwt_rank w bsize t (fst a) (snd a)) (of_thread i sched).
Proof. intros. apply C18_schedule_independent. Qed.
Print Assumptions C18_qwt_rank_shared.
