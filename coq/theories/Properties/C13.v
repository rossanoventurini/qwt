(* C13 — Quad vector and its builder store exactly the pushed 2-bit symbols. *)
From Coq Require Import ZArith.
From QwtModel Require Import ListX Consts Words QVec QVecP LeafP.

(* collecting any list of integers (any primitive integer type: the value enters as a
   mathematical integer and is cast with as_ to u8) gives a quad vector whose length is the
   number of values, whose i-th symbol is (v_i mod 4), None beyond the end, is_empty exactly
   for no values; the iterator yields the same symbols in order and then None *)
Theorem C13_collect : forall vs : list Z,
  exists q, qv_from_iter vs = Val q /\
    qv_len q = len vs /\
    qv_is_empty q = (len vs =? 0) /\
    (forall i, qv_get q i = Val (nthN (stored vs) i)) /\
    (forall i, i < 2 ^ 64 - 1 -> qvit_next q i = Val (nthN (stored vs) i, i + 1)).
Proof. exact qv_from_iter_correct. Qed.
Print Assumptions C13_collect.

(* every push / extend history of the builder, then build *)
Theorem C13_histories : forall h : list bop,
  exists q, brun qvb_new h = Val q /\
    let s := concat (map bop_spec h) in
    qv_len (qvb_build q) = len s /\
    qv_is_empty (qvb_build q) = (len s =? 0) /\
    forall i, qv_get (qvb_build q) i = Val (nthN s i).
Proof. exact qvb_history_correct. Qed.
Print Assumptions C13_histories.

(* the hypotheses are satisfiable / the statement is not vacuous: a concrete history *)
Theorem C13_example :
  match brun qvb_new [Push 7; Extend [(-1)%Z; 6%Z; 256%Z]; Push 2] with
  | Val q => qv_len q = 5 /\ qv_get q 1 = Val (Some 3) /\ qv_get q 3 = Val (Some 0) /\ qv_get q 5 = Val None
  | Fault _ => False
  end.
Proof. exact qvb_history_example. Qed.
Print Assumptions C13_example.

(* the 512-bit data line: word view (four u128, two bit planes — the layout of
   DataLine { words: [u128; 4] } that the byte-exact state tie compares with the real value)
   versus the list view the theorems above are stated on.  For every well-formed line
   (256 symbols < 4) the word-level read, rank and write of Model/Words.v (transcribed from
   DataLine::get_unchecked / rank_unchecked / set_symbol: shifts, masks, REPEATEDSYMB
   normalisation, popcounts) compute exactly the list-level results. *)
Theorem C13_line_words : forall l, line_ok l ->
  len (pack_qline l) = 4 /\ Forall (fun w => w < 2 ^ 128) (pack_qline l).
Proof. exact pack_qline_words. Qed.
Print Assumptions C13_line_words.

Theorem C13_line_get : forall l i x, line_ok l -> nthN l i = Some x ->
  qline_get_unchecked (pack_qline l) i = Val x.
Proof. exact qline_get_correct. Qed.
Print Assumptions C13_line_get.

Theorem C13_line_rank : forall l c i, line_ok l -> c <= 3 -> i <= 256 ->
  qline_rank_unchecked (pack_qline l) c i = Val (countN c (firstnN i l)).
Proof. exact qline_rank_correct. Qed.
Print Assumptions C13_line_rank.

Theorem C13_line_set : forall l i s, line_ok l -> i < 256 ->
  qline_set_symbol (pack_qline l) s i = Val (pack_qline (line_set_symbol l s i)).
Proof. exact line_set_refined. Qed.
Print Assumptions C13_line_set.

From QwtModel Require Import LeavesLine LeavesLineOk.

(* T3: the word-level DataLine functions REGENERATED from src/qvector/mod.rs on every run
   (tools/gen_leaves.py -> Gen/LeavesLine.v: typed, operation-by-operation translation of the Rust
   text) are equal to the hand-written word view on all in-range arguments; together with
   C13_line_get / C13_line_rank / C13_line_set the theorems hold of the source as it stands. *)
Theorem C13_source_line_normalize : forall ws symbol, symbol < 256 ->
  g_qline_normalize ws symbol = qline_normalize ws symbol.
Proof. exact g_qline_normalize_ok. Qed.
Print Assumptions C13_source_line_normalize.
Theorem C13_source_line_set_symbol : forall ws symbol i, symbol < 256 -> i < 256 ->
  g_qline_set_symbol ws symbol i = qline_set_symbol ws symbol i.
Proof. exact g_qline_set_symbol_ok. Qed.
Print Assumptions C13_source_line_set_symbol.
Theorem C13_source_line_get_unchecked : forall ws i, i < 2 ^ 64 ->
  g_qline_get_unchecked ws i = qline_get_unchecked ws i.
Proof. exact g_qline_get_unchecked_ok. Qed.
Print Assumptions C13_source_line_get_unchecked.
Theorem C13_source_line_rank_unchecked : forall ws symbol i, symbol < 256 -> i < 2 ^ 64 ->
  g_qline_rank_unchecked ws symbol i = qline_rank_unchecked ws symbol i.
Proof. exact g_qline_rank_unchecked_ok. Qed.
Print Assumptions C13_source_line_rank_unchecked.

From QwtModel Require Import LeavesQV LeavesQVOk.

(* T3: QVector::len / is_empty REGENERATED from src/qvector/mod.rs (Gen/LeavesQV.v; they read the
   scalar field `position` only) are the hand model's qv_len / qv_is_empty and cannot fault.
   (QVector::get_unchecked indexes a slice of DataLine structs: outside the translated subset.) *)
Theorem C13_source_qv_len : forall q, qv_position q < 2 ^ 64 -> g_qv_len (qv_position q) = Val (qv_len q).
Proof. exact g_qv_len_ok. Qed.
Print Assumptions C13_source_qv_len.
Theorem C13_source_qv_is_empty : forall q, qv_position q < 2 ^ 64 ->
  g_qv_is_empty (qv_position q) = Val (qv_is_empty q).
Proof. exact g_qv_is_empty_ok. Qed.
Print Assumptions C13_source_qv_is_empty.

(* the BUILDER and the collecting constructor REGENERATED from src/qvector/mod.rs on every run (T5, Gen/FnsQvb.v:
   QVectorBuilder::{with_capacity, push, build}, Extend::extend, FromIterator for QVectorBuilder and for QVector) together
   with the regenerated accessors (Gen/FnsQv2.v: len, is_empty, get, get_unchecked): equal to the hand model (faults
   included) wherever the 64-bit position counter does not overflow, and END TO END: collecting any sequence of fewer than
   2^63 values of any width through the regenerated constructor and reading it back through the regenerated accessors is the
   list specification (v mod 4 at each position, None beyond the end). *)
From QwtModel Require Import Loops FnsQv2 FnsQvb FnsQv2Ok FnsQvbOk.
Theorem C13_source_with_capacity : forall n,
  g_qvb_with_capacity n = if 2 * n + 512 <? 2 ^ 64 then Val ([], 0) else Fault Overflow.
Proof. exact g_qvb_with_capacity_ok. Qed.
Print Assumptions C13_source_with_capacity.
Theorem C13_source_push : forall b sym, qv_lines_ok b -> sym < 256 -> qv_position b + 2 < 2 ^ 64 ->
  g_qvb_push (pack_qdata (qv_data b)) (qv_position b) sym =
  let! b' := qvb_push b sym in Val (pack_qdata (qv_data b'), qv_position b').
Proof. exact g_qvb_push_ok. Qed.
Print Assumptions C13_source_push.
Theorem C13_source_push_overflow : forall b sym b', qv_lines_ok b -> sym < 256 -> 2 ^ 64 <= qv_position b + 2 ->
  qvb_push b sym = Val b' ->
  g_qvb_push (pack_qdata (qv_data b)) (qv_position b) sym = Fault Overflow.
Proof. exact g_qvb_push_overflow. Qed.
Print Assumptions C13_source_push_overflow.
Theorem C13_source_extend : forall wT b vs, qv_lines_ok b -> qv_position b + 2 * len vs < 2 ^ 64 ->
  g_qvb_extend wT (pack_qdata (qv_data b)) (qv_position b) vs =
  let! q := qvb_push_all b (map (fun v => v mod 256) vs) in Val (pack_qdata (qv_data q), qv_position q).
Proof. exact g_qvb_extend_ok. Qed.
Print Assumptions C13_source_extend.
Theorem C13_source_builder_from_iter : forall wT vs, len vs < 2 ^ 63 ->
  g_qvb_from_iter wT vs =
  let! q := qvb_push_all qvb_new (map (fun v => v mod 256) vs) in Val (pack_qdata (qv_data q), qv_position q).
Proof. exact g_qvb_from_iter_ok. Qed.
Print Assumptions C13_source_builder_from_iter.
Theorem C13_source_from_iter : forall wT vs, len vs < 2 ^ 63 ->
  g_qv_from_iter wT vs =
  let! q := qv_from_iter (map Z.of_N vs) in Val (pack_qdata (qv_data (qvb_build q)), qv_position (qvb_build q)).
Proof. exact g_qv_from_iter_ok. Qed.
Print Assumptions C13_source_from_iter.
Theorem C13_source_collect : forall wT vs, len vs < 2 ^ 63 ->
  exists data pos, g_qv_from_iter wT vs = Val (data, pos) /\
    g_qv_len pos = Val (len vs) /\
    g_qv_is_empty pos = Val (len vs =? 0) /\
    (forall i, g_qv_get data pos i = Val (nthN (map (fun v => v mod 4) vs) i)) /\
    (forall i x, nthN vs i = Some x -> g_qv_get_unchecked data pos i = Val (x mod 4)).
Proof. exact g_qv_from_iter_e2e. Qed.
Print Assumptions C13_source_collect.
