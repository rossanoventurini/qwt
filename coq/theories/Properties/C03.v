(* C03 — Binary wavelet trees (plain and Huffman-shaped) answer get/rank/select exactly. *)
From QwtModel Require Import ListX Seq Consts Words QWT Huff RSBin RSQBuild Codes WordsP BinWTP CraftP WrapP.

Definition C03_plain_contract (w : N) (t : bwt) (seq : list N) : Prop :=
  w_n t = len seq /\
  w_n_levels t = (if len seq =? 0 then 0 else msb (maxN seq) + 1) /\
  (forall i, wt_get w false t i = Val (nthN seq i)) /\
  (forall c i, c < 2 ^ w -> wt_rank w false t c i =
       Val (if negb (len seq =? 0) && (i <=? len seq) && (c <=? maxN seq) then Some (rank_spec seq c i) else None)) /\
  (forall c k, c < 2 ^ w -> k < 2 ^ 64 -> wt_select w false t c k =
       Val (if negb (len seq =? 0) && (c <=? maxN seq) then select_spec seq c k else None)) /\
  (forall i x, nthN seq i = Some x -> wt_get_unchecked w false t i = Val x) /\
  (forall c i, 0 < len seq -> c <= maxN seq -> i <= len seq -> wt_rank_unchecked w false t c i = Val (rank_spec seq c i)) /\
  (forall c k p, c < 2 ^ w -> select_spec seq c k = Some p -> wt_select_unchecked w false t c k = Val p).

Definition C03_huffman_contract (w : N) (t : bwt) (seq : list N) : Prop :=
  w_n t = len seq /\
  (forall i, wt_get w true t i = Val (nthN seq i)) /\
  (forall c i, c < 2 ^ w -> wt_rank w true t c i =
       Val (if (i <=? len seq) && (0 <? countN c seq) then Some (rank_spec seq c i) else None)) /\
  (forall c k, c < 2 ^ w -> k < 2 ^ 64 -> wt_select w true t c k = Val (select_spec seq c k)) /\
  (forall i x, nthN seq i = Some x -> wt_get_unchecked w true t i = Val x) /\
  (forall c i, 0 < countN c seq -> i <= len seq -> wt_rank_unchecked w true t c i = Val (rank_spec seq c i)) /\
  (forall c k p, c < 2 ^ w -> select_spec seq c k = Some p -> wt_select_unchecked w true t c k = Val p).

Definition C03_table_ok (seq : list N) (tab : list pcode) : Prop :=
  len tab < 2 ^ 64 /\
  (forall x, In x seq -> exists c, nthN tab x = Some c /\ code_wf 1 c = true) /\
  (forall x c, nthN tab x = Some c -> pc_len c <> 0 -> In x seq) /\
  (forall syms, (forall x, In x syms -> In x seq) -> code_wm_ok 1 tab syms = true) /\
  (forall x y c, In x seq -> In y seq -> nthN tab x = Some c -> nthN tab y = Some c -> x = y).

(* plain tree WT: every sequence of every width (symbols wider than 32 bits included) *)
Theorem C03_wt_correct : forall w seq,
  (w = 8 \/ w = 16 \/ w = 32 \/ w = 64 \/ w = 128) -> Forall (fun x => x < 2 ^ w) seq -> len seq < RSQ_MAXN ->
  exists t, wt_build w false seq [] = Val t /\ C03_plain_contract w t seq.
Proof. exact (wt_build_correct select_in_word_correct popcount_correct). Qed.
Print Assumptions C03_wt_correct.

(* Huffman-shaped tree HWT: every sequence and every compatible binary code table
   (the builder returns one: C02_craft_compatible with frag = 1) *)
Theorem C03_hwt_correct : forall w seq tab,
  (w = 8 \/ w = 16 \/ w = 32 \/ w = 64 \/ w = 128) -> Forall (fun x => x < 2 ^ w) seq -> len seq < RSQ_MAXN ->
  seq <> [] -> C03_table_ok seq tab ->
  exists t, wt_build w true seq tab = Val t /\ C03_huffman_contract w t seq.
Proof. exact (hwt_build_correct select_in_word_correct popcount_correct). Qed.
Print Assumptions C03_hwt_correct.

(* empty sequence, both flavours: every query is None *)
Theorem C03_empty : forall w compressed tab, exists t, wt_build w compressed [] tab = Val t /\
  (forall i, wt_get w compressed t i = Val None) /\ (forall c i, wt_rank w compressed t c i = Val None) /\
  (forall c k, wt_select w compressed t c k = Val None).
Proof. exact wt_build_empty. Qed.
Print Assumptions C03_empty.

(* the binary code builder (same theorem as for the quad tree, frag = 1) *)
Theorem C03_craft2_compatible : forall f sigma scratch tab,
  craft_input_ok 1 f sigma -> craft_wm_codes 1 f sigma scratch = Val tab ->
  len tab = sigma + 1 /\
  (forall sym l, In (sym, l) f -> exists c, nthN tab sym = Some c /\ pc_len c = l /\ code_wf 1 c = true) /\
  (forall sym, ~ In sym (map fst f) -> sym <= sigma -> nthN tab sym = Some pc_zero) /\
  code_wm_ok 1 tab (map fst f) = true.
Proof. exact (craft_table_ok 1). Qed.
Print Assumptions C03_craft2_compatible.

(* end to end: HWT::new = code builder (on the lengths f of the external coder, any tie order)
   followed by the tree builder; [lengths_for2 seq f]: f lists exactly the distinct symbols of
   seq with admissible lengths.  The second form replaces "the code builder returned" by the
   explicit sufficient condition (lengths <= 32 bits — KF-17 — and the scratch array fits). *)
Theorem C03_new_end_to_end : forall w seq f, width_ok w -> Forall (fun x => x < 2 ^ w) seq ->
  len seq < RSQ_MAXN -> seq <> [] -> maxN seq < 2 ^ 64 - 1 -> lengths_for2 seq f ->
  forall tab, craft2 f (sym_index (maxN seq)) = Val tab ->
  exists t, hwt_new w seq f = Val t /\ C03_huffman_contract w t seq.
Proof. exact hwt_new_correct. Qed.
Print Assumptions C03_new_end_to_end.

Theorem C03_new_total : forall w seq f, width_ok w -> Forall (fun x => x < 2 ^ w) seq ->
  len seq < RSQ_MAXN -> seq <> [] -> maxN seq < 2 ^ 64 - 1 ->
  lengths_for2 seq f -> Forall (fun p => snd p <= 32) f -> craft_fits 1 f (N.max (len f) 2) = true ->
  exists t, hwt_new w seq f = Val t /\ C03_huffman_contract w t seq.
Proof. exact hwt_new_total. Qed.
Print Assumptions C03_new_total.

Theorem C03_new_empty : forall w f, exists t, hwt_new w [] f = Val t /\ C03_huffman_contract w t [].
Proof. exact hwt_new_nil. Qed.
Print Assumptions C03_new_empty.
