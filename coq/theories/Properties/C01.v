(* C01 — Quad wavelet tree answers get/rank/select exactly for every sequence. *)
From QwtModel Require Import ListX Seq Consts QVec RSQ QWT RSQBuild QWTP.

(* the contract, spelled out (identical to QWTP.qwt_spec; restated here so that it cannot be
   weakened unnoticed): len, is_empty, largest symbol, number of levels = ceil(bitlen(max)/2),
   get, rank (None for i > |S|, c > max, and on the empty sequence), rank_prefetch = rank,
   select (None for c > max / missing occurrence / empty), and the unchecked variants.
   Every right-hand side is [Val ...]: the model of the code never reaches a panic, an
   out-of-range unchecked access or an overflowing operation. *)
Definition C01_contract (w bsize : N) (t : qwt) (seq : list N) : Prop :=
  qwt_len t = len seq /\
  qwt_is_empty t = (len seq =? 0) /\
  qwt_sigma t = (if len seq =? 0 then None else Some (maxN seq)) /\
  q_n_levels t = (if len seq =? 0 then 0 else (msb (maxN seq) + 1 + 1) / 2) /\
  (forall i, qwt_get w bsize t i = Val (nthN seq i)) /\
  (forall c i, c < 2 ^ w -> qwt_rank w bsize t c i =
       Val (if negb (len seq =? 0) && (i <=? len seq) && (c <=? maxN seq) then Some (rank_spec seq c i) else None)) /\
  (forall c i, c < 2 ^ w -> qwt_rank_prefetch w bsize t c i = qwt_rank w bsize t c i) /\
  (forall c k, c < 2 ^ w -> k < 2 ^ 64 -> qwt_select w bsize t c k =
       Val (if negb (len seq =? 0) && (c <=? maxN seq) then select_spec seq c k else None)) /\
  (forall i x, nthN seq i = Some x -> qwt_get_unchecked w bsize t i = Val x) /\
  (forall c i, 0 < len seq -> c <= maxN seq -> i <= len seq ->
       qwt_rank_unchecked w bsize t c i = Val (rank_spec seq c i) /\
       qwt_rank_prefetch_unchecked w bsize t c i = Val (rank_spec seq c i)) /\
  (forall c k p, c < 2 ^ w -> select_spec seq c k = Some p -> qwt_select_unchecked w bsize t c k = Val p).

(* every sequence of every supported width, both block sizes (the Pfs aliases share this
   structure; their extra estimation phase is C09) *)
Theorem C01_qwt_correct : forall w bsize seq,
  (w = 8 \/ w = 16 \/ w = 32 \/ w = 64 \/ w = 128) -> (bsize = 256 \/ bsize = 512) ->
  Forall (fun x => x < 2 ^ w) seq -> len seq < RSQ_MAXN ->
  exists t, qwt_new w bsize seq = Val t /\ C01_contract w bsize t seq.
Proof. exact qwt_new_correct. Qed.
Print Assumptions C01_qwt_correct.

(* Default::default() *)
Theorem C01_default : forall w bsize, C01_contract w bsize qwt_default [].
Proof. exact qwt_default_correct. Qed.
Print Assumptions C01_default.

(* non-vacuity: concrete trees evaluated by vm_compute (40 symbols, w = 8, 22 queries per block
   size; and symbols above 2^64 with 64 levels) *)
Theorem C01_examples : qwt_example_checks 256 /\ qwt_example_checks 512.
Proof. exact (conj qwt_example_256 qwt_example_512). Qed.
Print Assumptions C01_examples.

From QwtModel Require Import Loops FnsQwt FnsQwtOk.

(* T5: the WALKS of the quad wavelet tree REGENERATED from src/quadwt/mod.rs on every run
   (tools/gen_fns.py -> Gen/FnsQwt.v: get / rank / select with its downward and upward passes, the i64 `shift`,
   the `?` early returns and the local path vectors; element type symbolic of width w, RS = RSQVector<RSSupportPlain<B>>
   for B = 256 and 512, whose own API is regenerated too, Gen/FnsRsq.v), applied to the fields of the tree the
   hand-modelled constructor builds (`qvs` as one list per field of RSQVector: qwt_data / qwt_pos / qwt_sbs /
   qwt_samples / qwt_occs), return exactly the list specification for every sequence, symbol, position and
   occurrence index, for every fuel above the number of superblocks of a level. *)
Theorem C01_source_get_256 : forall w s t, width_ok w -> Forall (fun x => x < 2 ^ w) s -> len s < RSQ_MAXN ->
  qwt_new w 256 s = Val t -> forall i,
  g_qwt256_get w (q_n t) (q_n_levels t) (qwt_data t) (qwt_pos t) (qwt_sbs t) (qwt_occs t) i = Val (nthN s i).
Proof. exact g_qwt256_get_new. Qed.
Print Assumptions C01_source_get_256.
Theorem C01_source_get_512 : forall w s t, width_ok w -> Forall (fun x => x < 2 ^ w) s -> len s < RSQ_MAXN ->
  qwt_new w 512 s = Val t -> forall i,
  g_qwt512_get w (q_n t) (q_n_levels t) (qwt_data t) (qwt_pos t) (qwt_sbs t) (qwt_occs t) i = Val (nthN s i).
Proof. exact g_qwt512_get_new. Qed.
Print Assumptions C01_source_get_512.
Theorem C01_source_rank_256 : forall w s t, width_ok w -> Forall (fun x => x < 2 ^ w) s -> len s < RSQ_MAXN ->
  qwt_new w 256 s = Val t -> forall c i, c < 2 ^ w ->
  g_qwt256_rank w (q_n t) (q_n_levels t) (q_sigma t) (qwt_data t) (qwt_sbs t) (qwt_occs t) c i
  = Val (if negb (len s =? 0) && (i <=? len s) && (c <=? maxN s) then Some (rank_spec s c i) else None).
Proof. exact g_qwt256_rank_new. Qed.
Print Assumptions C01_source_rank_256.
Theorem C01_source_rank_512 : forall w s t, width_ok w -> Forall (fun x => x < 2 ^ w) s -> len s < RSQ_MAXN ->
  qwt_new w 512 s = Val t -> forall c i, c < 2 ^ w ->
  g_qwt512_rank w (q_n t) (q_n_levels t) (q_sigma t) (qwt_data t) (qwt_sbs t) (qwt_occs t) c i
  = Val (if negb (len s =? 0) && (i <=? len s) && (c <=? maxN s) then Some (rank_spec s c i) else None).
Proof. exact g_qwt512_rank_new. Qed.
Print Assumptions C01_source_rank_512.
Theorem C01_source_select_256 : forall w s t, width_ok w -> Forall (fun x => x < 2 ^ w) s -> len s < RSQ_MAXN ->
  qwt_new w 256 s = Val t -> forall c k fuel, c < 2 ^ w -> k < 2 ^ 64 ->
  (S (S (N.to_nat (len s / (8 * 256)))) <= fuel)%nat ->
  g_qwt256_select fuel w (q_n t) (q_n_levels t) (q_sigma t) (qwt_data t) (qwt_pos t) (qwt_sbs t) (qwt_samples t)
    (qwt_occs t) c k
  = Val (if negb (len s =? 0) && (c <=? maxN s) then select_spec s c k else None).
Proof. exact g_qwt256_select_new. Qed.
Print Assumptions C01_source_select_256.
Theorem C01_source_select_512 : forall w s t, width_ok w -> Forall (fun x => x < 2 ^ w) s -> len s < RSQ_MAXN ->
  qwt_new w 512 s = Val t -> forall c k fuel, c < 2 ^ w -> k < 2 ^ 64 ->
  (S (S (N.to_nat (len s / (8 * 512)))) <= fuel)%nat ->
  g_qwt512_select fuel w (q_n t) (q_n_levels t) (q_sigma t) (qwt_data t) (qwt_pos t) (qwt_sbs t) (qwt_samples t)
    (qwt_occs t) c k
  = Val (if negb (len s =? 0) && (c <=? maxN s) then select_spec s c k else None).
Proof. exact g_qwt512_select_new. Qed.
Print Assumptions C01_source_select_512.
Theorem C01_source_unchecked_256 : forall w s t, width_ok w -> Forall (fun x => x < 2 ^ w) s ->
  len s < RSQ_MAXN -> qwt_new w 256 s = Val t ->
  (forall c i, 0 < len s -> c <= maxN s -> i <= len s ->
     g_qwt256_rank_unchecked w (q_n_levels t) (qwt_data t) (qwt_sbs t) (qwt_occs t) c i = Val (rank_spec s c i)) /\
  (forall c k p fuel, c < 2 ^ w -> select_spec s c k = Some p -> (S (S (N.to_nat (len s / (8 * 256)))) <= fuel)%nat ->
     g_qwt256_select_unchecked fuel w (q_n t) (q_n_levels t) (q_sigma t) (qwt_data t) (qwt_pos t) (qwt_sbs t)
       (qwt_samples t) (qwt_occs t) c k = Val p).
Proof.
  intros w s t Hw HF Hn E.
  exact (conj (g_qwt256_rank_unchecked_new w s t Hw HF Hn E) (g_qwt256_select_unchecked_new w s t Hw HF Hn E)).
Qed.
Print Assumptions C01_source_unchecked_256.
Theorem C01_source_unchecked_512 : forall w s t, width_ok w -> Forall (fun x => x < 2 ^ w) s ->
  len s < RSQ_MAXN -> qwt_new w 512 s = Val t ->
  (forall c i, 0 < len s -> c <= maxN s -> i <= len s ->
     g_qwt512_rank_unchecked w (q_n_levels t) (qwt_data t) (qwt_sbs t) (qwt_occs t) c i = Val (rank_spec s c i)) /\
  (forall c k p fuel, c < 2 ^ w -> select_spec s c k = Some p -> (S (S (N.to_nat (len s / (8 * 512)))) <= fuel)%nat ->
     g_qwt512_select_unchecked fuel w (q_n t) (q_n_levels t) (q_sigma t) (qwt_data t) (qwt_pos t) (qwt_sbs t)
       (qwt_samples t) (qwt_occs t) c k = Val p).
Proof.
  intros w s t Hw HF Hn E.
  exact (conj (g_qwt512_rank_unchecked_new w s t Hw HF Hn E) (g_qwt512_select_unchecked_new w s t Hw HF Hn E)).
Qed.
Print Assumptions C01_source_unchecked_512.

(* the CONSTRUCTORS regenerated from src/quadwt/mod.rs on every run (T5, Gen/FnsQwtnew.v: QWaveletTree::new as it is
   written — max, msb, per level a QVectorBuilder filled by push, RS::from, stable_partition_of_4, the shift update — and the
   thin From<Vec<T>> / FromIterator wrappers), with everything they call regenerated too (g_msb, g_stable_partition_of_4,
   g_qvb_*, g_rsqNNN_from with g_rssNNN_new below it): [qwtNNN_ctor k] is one of the three public construction paths.
   Every path, followed by the regenerated queries, is the list specification: no hand-model function occurs in the
   statements. *)
From QwtModel Require Import Loops FnsQwtnew FnsWrapQwtOk.
Theorem C01_source_constructors_256 : forall k w s, width_ok w -> Forall (fun x => x < 2 ^ w) s -> len s < RSQ_MAXN ->
  exists n nl sg d p sb sm oc,
    qwt256_ctor k w s = Val (n, nl, sg, d, p, sb, sm, oc) /\
    g_qwt256_len n = Val (len s) /\ g_qwt256_is_empty n = Val (len s =? 0) /\
    g_qwt256_n_levels nl = Val (if len s =? 0 then 0 else (msb (maxN s) + 1 + 1) / 2) /\
    (forall i, g_qwt256_get w n nl d p sb oc i = Val (nthN s i)) /\
    (forall c i, c < 2 ^ w ->
       g_qwt256_rank w n nl sg d sb oc c i
       = Val (if negb (len s =? 0) && (i <=? len s) && (c <=? maxN s) then Some (rank_spec s c i) else None)) /\
    (forall c k fuel, c < 2 ^ w -> k < 2 ^ 64 -> (S (S (N.to_nat (len s / (8 * 256)))) <= fuel)%nat ->
       g_qwt256_select fuel w n nl sg d p sb sm oc c k
       = Val (if negb (len s =? 0) && (c <=? maxN s) then select_spec s c k else None)) /\
    (forall i x, nthN s i = Some x -> g_qwt256_get_unchecked w nl d p sb oc i = Val x) /\
    (forall c i, 0 < len s -> c <= maxN s -> i <= len s ->
       g_qwt256_rank_unchecked w nl d sb oc c i = Val (rank_spec s c i)) /\
    (forall c k p' fuel, c < 2 ^ w -> select_spec s c k = Some p' ->
       (S (S (N.to_nat (len s / (8 * 256)))) <= fuel)%nat ->
       g_qwt256_select_unchecked fuel w n nl sg d p sb sm oc c k = Val p').
Proof. exact g_qwt256_ctors_correct. Qed.
Print Assumptions C01_source_constructors_256.
Theorem C01_source_constructors_512 : forall k w s, width_ok w -> Forall (fun x => x < 2 ^ w) s -> len s < RSQ_MAXN ->
  exists n nl sg d p sb sm oc,
    qwt512_ctor k w s = Val (n, nl, sg, d, p, sb, sm, oc) /\
    g_qwt512_len n = Val (len s) /\ g_qwt512_is_empty n = Val (len s =? 0) /\
    g_qwt512_n_levels nl = Val (if len s =? 0 then 0 else (msb (maxN s) + 1 + 1) / 2) /\
    (forall i, g_qwt512_get w n nl d p sb oc i = Val (nthN s i)) /\
    (forall c i, c < 2 ^ w ->
       g_qwt512_rank w n nl sg d sb oc c i
       = Val (if negb (len s =? 0) && (i <=? len s) && (c <=? maxN s) then Some (rank_spec s c i) else None)) /\
    (forall c k fuel, c < 2 ^ w -> k < 2 ^ 64 -> (S (S (N.to_nat (len s / (8 * 512)))) <= fuel)%nat ->
       g_qwt512_select fuel w n nl sg d p sb sm oc c k
       = Val (if negb (len s =? 0) && (c <=? maxN s) then select_spec s c k else None)) /\
    (forall i x, nthN s i = Some x -> g_qwt512_get_unchecked w nl d p sb oc i = Val x) /\
    (forall c i, 0 < len s -> c <= maxN s -> i <= len s ->
       g_qwt512_rank_unchecked w nl d sb oc c i = Val (rank_spec s c i)) /\
    (forall c k p' fuel, c < 2 ^ w -> select_spec s c k = Some p' ->
       (S (S (N.to_nat (len s / (8 * 512)))) <= fuel)%nat ->
       g_qwt512_select_unchecked fuel w n nl sg d p sb sm oc c k = Val p').
Proof. exact g_qwt512_ctors_correct. Qed.
Print Assumptions C01_source_constructors_512.
Theorem C01_source_new_fields_256 : forall wT seq t, width_ok wT -> Forall (fun x => x < 2 ^ wT) seq -> len seq < RSQ_MAXN ->
  qwt_new wT 256 seq = Val t ->
  exists seq', g_qwt256_new wT seq = Val (seq', (q_n t, q_n_levels t, q_sigma t, qwt_data t, qwt_pos t, qwt_sbs t, qwt_samples t, qwt_occs t))
    /\ Permutation.Permutation seq seq'.
Proof. exact g_qwt256_new_sim_closed. Qed.
Print Assumptions C01_source_new_fields_256.
Theorem C01_source_new_fields_512 : forall wT seq t, width_ok wT -> Forall (fun x => x < 2 ^ wT) seq -> len seq < RSQ_MAXN ->
  qwt_new wT 512 seq = Val t ->
  exists seq', g_qwt512_new wT seq = Val (seq', (q_n t, q_n_levels t, q_sigma t, qwt_data t, qwt_pos t, qwt_sbs t, qwt_samples t, qwt_occs t))
    /\ Permutation.Permutation seq seq'.
Proof. exact g_qwt512_new_sim_closed. Qed.
Print Assumptions C01_source_new_fields_512.
