(* C07 — DArray select agrees with the bit vector for every distribution of ones. *)
From QwtModel Require Import ListX Seq Consts Words BitVec RSBin DArrayM WordsP BitVecP DArrayP BinFinalP.

Definition C07_contract (s0 : bool) (d : darray) (s : list bool) : Prop :=
  da_len d = len s /\ da_count_ones d = countb s /\ da_count_zeros d = Val (len s - countb s) /\
  (forall i, da_get d i = Val (nthN s i)) /\
  (forall k, da_select1 d k = Val (select1_spec s k)) /\
  (s0 = true -> forall k, da_select0 true d k = Val (select0_spec s k)) /\
  (* documented panic: select0 on a DArray built without select0 support *)
  (s0 = false -> forall k, da_select0 false d k = Fault Panic).

(* built from bits: every vector — any mix of dense and sparse groups, partial last group, empty *)
Theorem C07_from_bits : forall s0 bs, len bs < 2 ^ 63 ->
  exists d, da_from_bools s0 bs = Val d /\ C07_contract s0 d bs.
Proof. exact (da_of_bools_correct select_in_word_correct popcount_correct). Qed.
Print Assumptions C07_from_bits.

(* built from a list of positions: strictly increasing lists give the characteristic vector,
   anything else is the documented panic *)
Theorem C07_from_positions : forall s0 ps, Forall (fun p => p < 2 ^ 63 - 1) ps ->
  if strictly_increasing ps
  then exists d, da_from_positions s0 ps = Val d /\ C07_contract s0 d (op_spec [] (OExtPos ps))
  else da_from_positions s0 ps = Fault Panic.
Proof. exact (da_of_positions_total select_in_word_correct popcount_correct). Qed.
Print Assumptions C07_from_positions.
Theorem C07_positions_vector : forall ps, strictly_increasing ps = true ->
  forall i, nthN (op_spec [] (OExtPos ps)) i = (if i <? pos_len ps then Some (existsb (N.eqb i) ps) else None).
Proof. exact ext_pos_char. Qed.
Print Assumptions C07_positions_vector.

(* on top of any reachable bit vector state *)
Theorem C07_from_bitvector : forall s0 bv, bv_inv bv ->
  exists d, da_new s0 bv = Val d /\ da_bv d = bv /\ C07_contract s0 d (bv_abs bv).
Proof. exact (da_of_inv_correct select_in_word_correct popcount_correct). Qed.
Print Assumptions C07_from_bitvector.

From QwtModel Require Import Loops FnsBv FnsDa FnsBvOk FnsDaOk.

(* T5: the queries of DArray REGENERATED from src/darray/mod.rs on every run (tools/gen_fns.py -> Gen/FnsDa.v:
   the private generic select<const BIT: bool> monomorphised for ones and zeros (sparse blocks through the signed
   block inventory, dense blocks through the sub-block offsets and the word scan `loop`), select1 / select0 and their
   unchecked variants, get, len, is_empty, count_ones, count_zeros; DArray<false> (functions g_da1_..) and
   DArray<true> (g_da0_..)), applied to the fields of the structure the hand-modelled constructor builds, return
   exactly the list specification for every bit sequence, for every fuel above the number of words; select0 without
   select0 support is the documented panic. *)
Definition C07_source_contract1 (d : darray) (s : list bool) : Prop :=
  forall fuel, (S (length (bv_words (da_bv d))) <= fuel)%nat ->
  let data := da_data d in let nbits := da_nbits d in
  let on := inv_n_sets (da_ones d) in let ob := inv_block (da_ones d) in
  let os := inv_sub (da_ones d) in let oo := inv_overflow (da_ones d) in
  g_da1_len nbits = Val (len s) /\ g_da1_is_empty nbits = Val (len s =? 0) /\
  g_da1_count_ones on = Val (countb s) /\ g_da1_count_zeros nbits on = Val (len s - countb s) /\
  (forall i, g_da1_get data nbits i = Val (nthN s i)) /\
  (forall i b, nthN s i = Some b -> g_da1_get_unchecked data i = Val b) /\
  (forall k, g_da1_select1 fuel data on ob os oo k = Val (select1_spec s k)) /\
  (forall k, g_da1_select1_unchecked fuel data on ob os oo k = ounwrap (select1_spec s k)) /\
  (* documented panic: select0 on a DArray without select0 support *)
  (forall k, g_da1_select0 fuel data (da_z_n_sets d) (da_z_block d) (da_z_sub d) (da_z_overflow d) k = Fault Panic) /\
  (forall k, g_da1_select0_unchecked fuel data (da_z_n_sets d) (da_z_block d) (da_z_sub d) (da_z_overflow d) k
             = Fault Panic).

Definition C07_source_contract0 (d : darray) (s : list bool) : Prop :=
  forall fuel, (S (length (bv_words (da_bv d))) <= fuel)%nat ->
  let data := da_data d in let nbits := da_nbits d in
  let on := inv_n_sets (da_ones d) in let ob := inv_block (da_ones d) in
  let os := inv_sub (da_ones d) in let oo := inv_overflow (da_ones d) in
  g_da0_len nbits = Val (len s) /\ g_da0_is_empty nbits = Val (len s =? 0) /\
  g_da0_count_ones on = Val (countb s) /\ g_da0_count_zeros nbits on = Val (len s - countb s) /\
  (forall i, g_da0_get data nbits i = Val (nthN s i)) /\
  (forall i b, nthN s i = Some b -> g_da0_get_unchecked data i = Val b) /\
  (forall k, g_da0_select1 fuel data on ob os oo k = Val (select1_spec s k)) /\
  (forall k, g_da0_select1_unchecked fuel data on ob os oo k = ounwrap (select1_spec s k)) /\
  (forall k, g_da0_select0 fuel data (da_z_n_sets d) (da_z_block d) (da_z_sub d) (da_z_overflow d) k
             = Val (select0_spec s k)) /\
  (forall k, g_da0_select0_unchecked fuel data (da_z_n_sets d) (da_z_block d) (da_z_sub d) (da_z_overflow d) k
             = ounwrap (select0_spec s k)).

Definition C07_source_contract (s0 : bool) (d : darray) (s : list bool) : Prop :=
  if s0 then C07_source_contract0 d s else C07_source_contract1 d s.

Theorem C07_source_from_bits : forall s0 bs, len bs < 2 ^ 63 ->
  exists d, da_from_bools s0 bs = Val d /\ da_types_ok d /\ C07_source_contract s0 d bs.
Proof. exact da_gen_of_bools. Qed.
Print Assumptions C07_source_from_bits.
Theorem C07_source_from_bitvector : forall s0 bv, BitVecP.bv_inv bv ->
  exists d, da_new s0 bv = Val d /\ da_bv d = bv /\ da_types_ok d /\ C07_source_contract s0 d (bv_abs bv).
Proof. exact da_gen_of_bitvector. Qed.
Print Assumptions C07_source_from_bitvector.
Theorem C07_source_get_word : forall b i, g_bv_get_word (chunks 8 (bv_words b)) i = bv_get_word b i.
Proof. exact g_bv_get_word_ok. Qed.
Print Assumptions C07_source_get_word.

(* the CONSTRUCTION regenerated from src/darray/mod.rs on every run (T5, Gen/FnsDanew.v: Inventories::flush_block with its
   three `&mut Vec`, Inventories::<BIT>::new — `for pos in bv.ones()` / `bv.zeros()` as the iterator protocol over the
   regenerated position iterator, a flush every 1024 positions and a last one — DArray::<SELECT0_SUPPORT>::new and
   FromIterator<bool>): equal to / simulated by the hand model, and end to end: the regenerated constructor returns the fields
   of a structure on which the regenerated queries satisfy the contract [C07_gen] (= C07_source_contract), from a bit vector and
   from a bit sequence (through the regenerated BitVector::from_iter). *)
From QwtModel Require Import FnsBvnew FnsDanew FnsBvnewOk FnsDanewOk FnsDaFromOk.
Theorem C07_source_flush_block : forall curr blk sub ovf,
  ge_hd curr -> hd 0 curr < 2 ^ 63 -> len curr + 32 < 2 ^ 64 -> len ovf < 2 ^ 63 ->
  g_da_flush_block curr blk sub ovf =
  let! (b', s', o') := flush_block curr (rev blk, rev sub, rev ovf) in Val (rev b', rev s', rev o').
Proof. exact g_da_flush_block_ok. Qed.
Print Assumptions C07_source_flush_block.
Theorem C07_source_inventories_new : forall bit b fuel inv, bv_inv b ->
  (N.to_nat (bv_nbits b) + length (bv_words b) + 2 <= fuel)%nat ->
  inv_new bit b = Val inv ->
  gi_new bit fuel (chunks 8 (bv_words b)) (bv_nbits b) (bv_nones b) = Val (inv_fields inv).
Proof. exact gi_new_sim. Qed.
Print Assumptions C07_source_inventories_new.
Theorem C07_source_new : forall s0 b fuel, bv_inv b ->
  (N.to_nat (bv_nbits b) + length (bv_words b) + 2 <= fuel)%nat ->
  exists d,
    g_da_new s0 fuel (chunks 8 (bv_words b)) (bv_nbits b) (bv_nones b) = Val (da_fields d) /\
    da_new s0 b = Val d /\ da_bv d = b /\ da_types_ok d /\ C07_gen s0 d (bv_abs b).
Proof. exact g_da_new_of_bitvector. Qed.
Print Assumptions C07_source_new.
Theorem C07_source_from_bools : forall s0 bs fuel, len bs < 2 ^ 63 ->
  (N.to_nat (len bs) + N.to_nat (8 * ((len bs + 511) / 512)) + 2 <= fuel)%nat ->
  exists d, g_da_from_bools s0 fuel bs = Val (da_fields d) /\ da_types_ok d /\ C07_gen s0 d bs.
Proof. exact g_da_from_bools_correct. Qed.
Print Assumptions C07_source_from_bools.
