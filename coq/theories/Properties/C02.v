(* C02 — Huffman-shaped quad wavelet tree answers get/rank/select exactly.
   Two theorems that compose: (a) for EVERY wavelet-matrix compatible code table the tree is
   correct; (b) the code builder returns such a table for EVERY admissible length assignment
   and EVERY order among symbols of equal length. *)
From QwtModel Require Import ListX Seq Consts QVec RSQ QWT Huff RSQBuild Codes HQWTP CraftP HQWTNewP.

Definition C02_contract (w bsize : N) (t : hqwt) (seq : list N) : Prop :=
  hq_len t = len seq /\
  (forall i, hq_get w bsize t i = Val (nthN seq i)) /\
  (forall c i, c < 2 ^ w -> hq_rank bsize t c i =
       Val (if (i <=? len seq) && (0 <? countN c seq) then Some (rank_spec seq c i) else None)) /\
  (forall c i, c < 2 ^ w -> hq_rank_prefetch bsize t c i = hq_rank bsize t c i) /\
  (forall c k, c < 2 ^ w -> k < 2 ^ 64 -> hq_select bsize t c k = Val (select_spec seq c k)) /\
  (forall i x, nthN seq i = Some x -> hq_get_unchecked w bsize t i = Val x) /\
  (forall c i, 0 < countN c seq -> i <= len seq ->
       hq_rank_unchecked bsize t c i = Val (rank_spec seq c i) /\
       hq_rank_prefetch_unchecked bsize t c i = Val (rank_spec seq c i)) /\
  (forall c k p, c < 2 ^ w -> select_spec seq c k = Some p -> hq_select_unchecked bsize t c k = Val p).

(* what the tree needs from the table: a well-formed code exactly for the symbols of seq,
   wavelet-matrix compatibility (Theory/HuffWM.v: a code that ends at a level is larger, in
   reversed-fragment order, than every code prefix that continues), distinct codes *)
Definition C02_table_ok (seq : list N) (tab : list pcode) : Prop :=
  len tab < 2 ^ 64 /\
  (forall x, In x seq -> exists c, nthN tab x = Some c /\ code_wf 2 c = true) /\
  (forall x c, nthN tab x = Some c -> pc_len c <> 0 -> In x seq) /\
  (forall syms, (forall x, In x syms -> In x seq) -> code_wm_ok 2 tab syms = true) /\
  (forall x y c, In x seq -> In y seq -> nthN tab x = Some c -> nthN tab y = Some c -> x = y).

Theorem C02_tree_correct_for_every_compatible_table : forall w bsize seq tab,
  (w = 8 \/ w = 16 \/ w = 32 \/ w = 64 \/ w = 128) -> (bsize = 256 \/ bsize = 512) ->
  Forall (fun x => x < 2 ^ w) seq -> len seq < RSQ_MAXN -> C02_table_ok seq tab ->
  exists t, hq_build bsize seq tab = Val t /\ C02_contract w bsize t seq.
Proof. exact hq_build_correct. Qed.
Print Assumptions C02_tree_correct_for_every_compatible_table.

Theorem C02_empty : forall w bsize, (bsize = 256 \/ bsize = 512) ->
  exists t, hq_build bsize [] [] = Val t /\ C02_contract w bsize t [].
Proof. exact hq_build_empty. Qed.
Print Assumptions C02_empty.

(* the builder: f = (symbol, length in bits) in the order the sorted vector had; the order
   among equal lengths is arbitrary (it comes from a randomly seeded hash map) *)
Theorem C02_craft_compatible : forall frag f sigma scratch tab,
  craft_input_ok frag f sigma -> craft_wm_codes frag f sigma scratch = Val tab ->
  len tab = sigma + 1 /\
  (forall sym l, In (sym, l) f -> exists c, nthN tab sym = Some c /\ pc_len c = l /\ code_wf frag c = true) /\
  (forall sym, ~ In sym (map fst f) -> sym <= sigma -> nthN tab sym = Some pc_zero) /\
  code_wm_ok frag tab (map fst f) = true.
Proof. exact craft_table_ok. Qed.
Print Assumptions C02_craft_compatible.

(* the builder faults only for code lengths above 32 bits, an infeasible (Kraft) request, or a
   request that does not fit its scratch array: craft_fits is exact *)
Theorem C02_craft_total : forall frag f sigma scratch, craft_input_ok frag f sigma ->
  Forall (fun p => snd p <= 32) f -> craft_fits frag f scratch = true ->
  exists tab, craft_wm_codes frag f sigma scratch = Val tab.
Proof. exact craft_total. Qed.
Print Assumptions C02_craft_total.

(* the compatibility predicate is not trivially true: a canonical (lexicographic) code for the
   same lengths violates it; and a table with two identical entries breaks the tree *)
Theorem C02_canonical_code_is_not_compatible :
  let canon := [pc_zero; mk_pc 10 4; pc_zero; mk_pc 9 4; pc_zero; mk_pc 0 2; pc_zero; mk_pc 8 4; pc_zero; mk_pc 1 2] in
  code_wm_ok 2 canon [5; 9; 7; 3; 1] = false.
Proof. vm_compute. reflexivity. Qed.
Print Assumptions C02_canonical_code_is_not_compatible.

Theorem C02_example : hq_ex_checks 256 /\ hq_ex_checks 512.
Proof. exact (conj hq_example_256 hq_example_512). Qed.
Print Assumptions C02_example.

(* Known finding KF-17, as a theorem about the model: growing a code beyond 32 bits faults
   (`k << l` on u32 overflows; debug panic, wrong codes in optimized builds).  A degenerate
   frequency profile needs millions of symbols to get there (reproduced by the thorough tier). *)
Theorem C02_known_finding_code_longer_than_32_bits : forall frag c j l size, 32 <= l ->
  craft_expand frag c j l size = Fault Overflow.
Proof. intros frag c j l size H. unfold craft_expand. replace (32 <=? l) with true by (symmetry; apply N.leb_le; exact H). reflexivity. Qed.
Print Assumptions C02_known_finding_code_longer_than_32_bits.

(* end to end: HuffQWaveletTree::new = code builder on the external coder's lengths f (any tie
   order) followed by the tree builder.  [lengths_for seq f]: f lists exactly the distinct symbols
   of seq with admissible lengths.  The second form replaces "the code builder returned" by the
   explicit sufficient condition (lengths <= 32 bits — KF-17 — and the scratch array fits). *)
Theorem C02_new_end_to_end : forall w bsize seq f, width_ok w -> (bsize = 256 \/ bsize = 512) ->
  Forall (fun x => x < 2 ^ w) seq -> len seq < RSQ_MAXN -> seq <> [] -> maxN seq < 2 ^ 64 - 1 ->
  lengths_for seq f ->
  forall tab, craft4 f (sym_index (maxN seq)) = Val tab ->
  exists t, hq_new bsize seq f = Val t /\ C02_contract w bsize t seq.
Proof. exact hq_new_correct. Qed.
Print Assumptions C02_new_end_to_end.

Theorem C02_new_total : forall w bsize seq f, width_ok w -> (bsize = 256 \/ bsize = 512) ->
  Forall (fun x => x < 2 ^ w) seq -> len seq < RSQ_MAXN -> seq <> [] -> maxN seq < 2 ^ 64 - 1 ->
  lengths_for seq f -> Forall (fun p => snd p <= 32) f -> craft_fits 2 f (len f * 4) = true ->
  exists t, hq_new bsize seq f = Val t /\ C02_contract w bsize t seq.
Proof. exact hq_new_total. Qed.
Print Assumptions C02_new_total.

From QwtModel Require Import Loops FnsHqwt FnsRsqOk FnsHqwtOk.

(* T5: the WALKS of the Huffman-shaped quad wavelet tree REGENERATED from src/quadwt/huffqwt.rs on every run
   (tools/gen_fns.py -> Gen/FnsHqwt.v: code_index, get with the decode-table search, rank with its `while shift >= 0`
   loop over the code fragments, select with its two passes; B = 256 and 512; the RSQVector API below them is
   regenerated too), applied to the fields of the tree the hand-modelled builder constructs. The contract is the one
   of C02 restated for the regenerated functions: for every sequence and every compatible code table (and for the
   table craft_wm_codes builds from any admissible lengths), they return exactly the list specification, for every
   fuel >= 17 and above the number of superblocks of a level. *)
Definition C02_source_contract (w : N) (t : hqwt) (seq : list N)
  (g_code_index : N -> list N -> list N -> N -> outcome (option N))
  (g_len : N -> outcome N)
  (g_get : N -> N -> N -> list (list (N * N)) -> list (list (list N)) -> list N -> list (list (list N)) -> list (list N) -> list N -> N -> outcome (option N))
  (g_get_unchecked : N -> N -> list (list (N * N)) -> list (list (list N)) -> list N -> list (list (list N)) -> list (list N) -> list N -> N -> outcome N)
  (g_rank : N -> N -> list N -> list N -> list (list (list N)) -> list (list (list N)) -> list (list N) -> N -> N -> outcome (option N))
  (g_rank_unchecked : N -> list N -> list N -> list (list (list N)) -> list (list (list N)) -> list (list N) -> N -> N -> outcome N)
  (g_select : N -> N -> list N -> list N -> list (list (list N)) -> list N -> list (list (list N)) -> list (list (list N)) -> list (list N) -> N -> N -> outcome (option N))
  (g_select_unchecked : N -> N -> list N -> list N -> list (list (list N)) -> list N -> list (list (list N)) -> list (list (list N)) -> list (list N) -> N -> N -> outcome N)
  : Prop :=
  let ec := hq_enc_content t in let el := hq_enc_len t in
  let d := hq_data t in let p := hq_pos t in let sb := hq_sbs t in let sm := hq_samples t in let oc := hq_occs t in
  g_len (h_n t) = Val (len seq) /\
  (forall c, c < 2 ^ w -> g_code_index w ec el c = Val (if 0 <? countN c seq then Some (sym_index c) else None)) /\
  (forall i, i < 2 ^ 64 -> g_get w (h_n t) (h_n_levels t) (h_decode t) d p sb oc (h_lens t) i = Val (nthN seq i)) /\
  (forall i x, nthN seq i = Some x -> g_get_unchecked w (h_n_levels t) (h_decode t) d p sb oc (h_lens t) i = Val x) /\
  (forall c i, c < 2 ^ w -> i < 2 ^ 64 -> g_rank w (h_n t) ec el d sb oc c i =
       Val (if (i <=? len seq) && (0 <? countN c seq) then Some (rank_spec seq c i) else None)) /\
  (forall c i, 0 < countN c seq -> i <= len seq -> g_rank_unchecked w ec el d sb oc c i = Val (rank_spec seq c i)) /\
  (forall c k, c < 2 ^ w -> k < 2 ^ 64 ->
       g_select w (h_n_levels t) ec el d p sb sm oc c k = Val (select_spec seq c k)) /\
  (forall c k q, c < 2 ^ w -> select_spec seq c k = Some q ->
       g_select_unchecked w (h_n_levels t) ec el d p sb sm oc c k = Val q).

Theorem C02_source_tree_256 : forall w seq tab t fuel, width_ok w ->
  Forall (fun x => x < 2 ^ w) seq -> len seq < RSQ_MAXN -> table_ok seq tab ->
  hq_build 256 seq tab = Val t ->
  (17 <= fuel)%nat -> (S (S (N.to_nat (len seq / (8 * 256)))) <= fuel)%nat ->
  C02_source_contract w t seq g_hqwt256_code_index g_hqwt256_len g_hqwt256_get g_hqwt256_get_unchecked
    (g_hqwt256_rank fuel) (g_hqwt256_rank_unchecked fuel) (g_hqwt256_select fuel) (g_hqwt256_select_unchecked fuel).
Proof. exact g_hqwt256_end_to_end. Qed.
Print Assumptions C02_source_tree_256.
Theorem C02_source_tree_512 : forall w seq tab t fuel, width_ok w ->
  Forall (fun x => x < 2 ^ w) seq -> len seq < RSQ_MAXN -> table_ok seq tab ->
  hq_build 512 seq tab = Val t ->
  (17 <= fuel)%nat -> (S (S (N.to_nat (len seq / (8 * 512)))) <= fuel)%nat ->
  C02_source_contract w t seq g_hqwt512_code_index g_hqwt512_len g_hqwt512_get g_hqwt512_get_unchecked
    (g_hqwt512_rank fuel) (g_hqwt512_rank_unchecked fuel) (g_hqwt512_select fuel) (g_hqwt512_select_unchecked fuel).
Proof. exact g_hqwt512_end_to_end. Qed.
Print Assumptions C02_source_tree_512.
Theorem C02_source_new_256 : forall w seq f tab t fuel, width_ok w ->
  Forall (fun x => x < 2 ^ w) seq -> len seq < RSQ_MAXN -> seq <> [] -> maxN seq < 2 ^ 64 - 1 ->
  lengths_for seq f -> craft4 f (sym_index (maxN seq)) = Val tab -> hq_new 256 seq f = Val t ->
  (17 <= fuel)%nat -> (S (S (N.to_nat (len seq / (8 * 256)))) <= fuel)%nat ->
  C02_source_contract w t seq g_hqwt256_code_index g_hqwt256_len g_hqwt256_get g_hqwt256_get_unchecked
    (g_hqwt256_rank fuel) (g_hqwt256_rank_unchecked fuel) (g_hqwt256_select fuel) (g_hqwt256_select_unchecked fuel).
Proof. exact g_hqwt256_new_end_to_end. Qed.
Print Assumptions C02_source_new_256.
Theorem C02_source_new_512 : forall w seq f tab t fuel, width_ok w ->
  Forall (fun x => x < 2 ^ w) seq -> len seq < RSQ_MAXN -> seq <> [] -> maxN seq < 2 ^ 64 - 1 ->
  lengths_for seq f -> craft4 f (sym_index (maxN seq)) = Val tab -> hq_new 512 seq f = Val t ->
  (17 <= fuel)%nat -> (S (S (N.to_nat (len seq / (8 * 512)))) <= fuel)%nat ->
  C02_source_contract w t seq g_hqwt512_code_index g_hqwt512_len g_hqwt512_get g_hqwt512_get_unchecked
    (g_hqwt512_rank fuel) (g_hqwt512_rank_unchecked fuel) (g_hqwt512_select fuel) (g_hqwt512_select_unchecked fuel).
Proof. exact g_hqwt512_new_end_to_end. Qed.
Print Assumptions C02_source_new_512.

(* the code assignment craft_wm_codes of src/quadwt/huffqwt.rs REGENERATED as written (T5, Gen/FnsCraft.v: the hash map
   as the list of its pairs in ANY iteration order, lengths doubled to bits, the stable sort by length, the in-place expansion
   of the fixed-size scratch array with its four writes per entry, the reversal of the 2-bit fragments, the table as two
   lists): whenever the hand model returns a table the regenerated function returns the same table, hence for every
   admissible request and every iteration order of the hash map it returns a compatible table (the hypothesis of the tree
   theorems above).  The converse fails on infeasible length profiles (Kraft sum > 1): the source reads untouched zeros of
   the scratch array and returns clashing codes where the hand model faults (Proofs/FnsCraftOk.v,
   g_craft_infeasible_example); such profiles are never produced by the coder for a non-empty sequence. *)
From QwtModel Require Import Loops Codes CraftP FnsCraft FnsCraftOk.
Theorem C02_source_craft_sim : forall fuel freq sigma tab,
  let f := sort_by_snd (map dbl freq) in
  Forall (fun p => 2 * snd p < 2 ^ 32) freq -> 4 * len freq < 2 ^ 64 -> sigma + 1 < 2 ^ 64 ->
  (17 <= fuel)%nat ->
  craft4 f sigma = Val tab ->
  g_craft_wm_codes4 fuel freq sigma = Val (map pc_content tab, map pc_len tab).
Proof. exact g_craft_sim. Qed.
Print Assumptions C02_source_craft_sim.
Theorem C02_source_craft_end_to_end : forall fuel freq sigma,
  let f := sort_by_snd (map dbl freq) in
  craft_input_ok 2 f sigma -> Forall (fun p => snd p <= 32) f -> craft_fits 2 f (len f * 4) = true ->
  sigma + 1 < 2 ^ 64 -> (17 <= fuel)%nat ->
  exists tab, g_craft_wm_codes4 fuel freq sigma = Val (map pc_content tab, map pc_len tab) /\
    craft4 f sigma = Val tab /\
    len tab = sigma + 1 /\
    (forall sym l, In (sym, l) f -> exists c, nthN tab sym = Some c /\ pc_len c = l /\ code_wf 2 c = true) /\
    (forall sym v, In (sym, v) freq -> exists c, nthN tab sym = Some c /\ pc_len c = 2 * v /\ code_wf 2 c = true) /\
    (forall sym, ~ In sym (map fst f) -> sym <= sigma -> nthN tab sym = Some pc_zero) /\
    code_wm_ok 2 tab (map fst f) = true.
Proof. exact g_craft_end_to_end. Qed.
Print Assumptions C02_source_craft_end_to_end.
