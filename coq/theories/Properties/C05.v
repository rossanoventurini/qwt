(* C05 — Rank/select quad vector agrees with the plain quaternary sequence. *)
From QwtModel Require Import ListX Seq Consts QVec RSQ QVecP RSQBuild RSQP.

(* The full functional contract: for every block size, every quad vector q storing the
   symbols s (all < 4) and every argument, the model of the code returns a value (never a
   fault: no panic, no unchecked access out of range, no overflow) and that value is the list
   function.  rsq_spec (Proofs/RSQP.v) is the conjunction:
     len, is_empty, get i = s[i] / None, rank c i = Some(count) iff c <= 3 and i <= |s|,
     select c k = position of the (k+1)-th c or None (None for c > 3), occs, occs_smaller,
     the unchecked variants under their preconditions, and the block-directory lower bound. *)
Theorem C05_from_qvector : forall bsize q s,
  (bsize = 256 \/ bsize = 512) -> qvb_inv q s -> Forall (fun x => x < 4) s -> len s < RSQ_MAXN ->
  exists r, rsq_from_qv bsize q = Val r /\ rsq_spec bsize r s.
Proof. exact rsq_from_qv_correct. Qed.
Print Assumptions C05_from_qvector.

(* the constructors new / collect on arbitrary unsigned values (stored mod 4) *)
Theorem C05_new : forall bsize vs, (bsize = 256 \/ bsize = 512) -> len vs < RSQ_MAXN ->
  exists r, rsq_new bsize vs = Val r /\ rsq_spec bsize r (map sym4 vs).
Proof. exact rsq_new_correct. Qed.
Print Assumptions C05_new.

(* Default::default() is a valid empty vector *)
Theorem C05_default : forall bsize, (bsize = 256 \/ bsize = 512) ->
  exists r, rsq_default bsize = Val r /\ rsq_spec bsize r [].
Proof. exact rsq_default_correct. Qed.
Print Assumptions C05_default.

(* the contract spelled out (so that a weakening of rsq_spec cannot go unnoticed) *)
Theorem C05_contract : forall bsize r s, rsq_spec bsize r s ->
  rsq_len r = len s /\
  (forall i, rsq_get r i = Val (nthN s i)) /\
  (forall c i, rsq_rank bsize r c i = Val (if (c <=? 3) && (i <=? len s) then Some (rank_spec s c i) else None)) /\
  (forall c k, k < 2 ^ 64 -> rsq_select bsize r c k = Val (if c <=? 3 then select_spec s c k else None)) /\
  (forall c, rsq_occs r c = Val (if c <=? 3 then Some (countN c s) else None)) /\
  (forall c, rsq_occs_smaller_q r c = Val (if c <=? 3 then Some (count_lt c s) else None)).
Proof. intros bsize r s H. unfold rsq_spec in H. intuition. Qed.
Print Assumptions C05_contract.

(* non-vacuity: concrete 600-symbol inputs, both block sizes, evaluated by vm_compute
   (rsq_example_checks, Proofs/RSQP.v: 13 query values per block size) *)
Theorem C05_example : rsq_example_checks 256 /\ rsq_example_checks 512.
Proof. exact (conj rsq_example_256 rsq_example_512). Qed.
Print Assumptions C05_example.

From QwtModel Require Import Words LeavesSB LeavesSBOk LeavesLine LeavesLineOk.

(* T3: the packed superblock counters REGENERATED from
   src/qvector/rs_qvector/rs_support_plain.rs (SuperblockPlain::get_rank / get_superblock_counter)
   equal the hand model for every argument of the parameter types (for block_id >= 12 the source shifts
   a u128 by >= 128 bits: both sides are Fault Overflow there; callers pass block & 7). *)
Theorem C05_source_sb_get_rank : forall ws symbol block_id,
  Forall (fun w => w < 2 ^ 128) ws -> symbol < 256 -> block_id < 2 ^ 64 ->
  g_sb_get_rank ws symbol block_id = sb_get_rank ws symbol block_id.
Proof. exact g_sb_get_rank_ok. Qed.
Print Assumptions C05_source_sb_get_rank.
Theorem C05_source_sb_get_superblock_counter : forall ws symbol,
  Forall (fun w => w < 2 ^ 128) ws -> symbol < 256 ->
  g_sb_get_superblock_counter ws symbol = sb_get_superblock_counter ws symbol.
Proof. exact g_sb_get_superblock_counter_ok. Qed.
Print Assumptions C05_source_sb_get_superblock_counter.

(* T3: the word-level DataLine functions REGENERATED from src/qvector/mod.rs on every run
   (tools/gen_leaves.py -> Gen/LeavesLine.v: typed, operation-by-operation translation of the Rust
   text) are equal to the hand-written word view on all in-range arguments; together with
   C13_line_get / C13_line_rank / C13_line_set the theorems hold of the source as it stands. *)
Theorem C05_source_line_get_unchecked : forall ws i, i < 2 ^ 64 ->
  g_qline_get_unchecked ws i = qline_get_unchecked ws i.
Proof. exact g_qline_get_unchecked_ok. Qed.
Print Assumptions C05_source_line_get_unchecked.
Theorem C05_source_line_rank_unchecked : forall ws symbol i, symbol < 256 -> i < 2 ^ 64 ->
  g_qline_rank_unchecked ws symbol i = qline_rank_unchecked ws symbol i.
Proof. exact g_qline_rank_unchecked_ok. Qed.
Print Assumptions C05_source_line_rank_unchecked.

From QwtModel Require Import Loops FnsRss FnsRssOk RSQBuild.

(* T5: the SEARCHES of the rank/select support REGENERATED from
   src/qvector/rs_qvector/rs_support_plain.rs on every run (tools/gen_fns.py -> Gen/FnsRss.v; RSSupportPlain<B>
   monomorphised for B = 256 and B = 512): block_predecessor (the for loop over the seven 12-bit counters),
   rank_block, select_block (sample lookup, sqrt-step scan, linear scan, predecessor) are EQUAL to the hand model
   (value or fault) on every well-typed directory, for every fuel above the number of superblocks; and on the
   directory the constructor builds they return the block of the requested occurrence with its rank. *)
Theorem C05_source_block_predecessor : forall counters symbol target,
  g_sb_block_predecessor counters symbol target = sb_block_predecessor counters symbol target.
Proof. exact g_sb_block_predecessor_ok. Qed.
Print Assumptions C05_source_block_predecessor.
Theorem C05_source_rank_block_256 : forall r symbol i,
  g_rss256_rank_block (rs_superblocks r) symbol i = rss_rank_block 256 r symbol i.
Proof. exact g_rss256_rank_block_ok. Qed.
Print Assumptions C05_source_rank_block_256.
Theorem C05_source_rank_block_512 : forall r symbol i,
  g_rss512_rank_block (rs_superblocks r) symbol i = rss_rank_block 512 r symbol i.
Proof. exact g_rss512_rank_block_ok. Qed.
Print Assumptions C05_source_rank_block_512.
Theorem C05_source_select_block_256 : forall r symbol i fuel, i < 2 ^ 64 ->
  Forall (Forall (fun x => x < 2 ^ 32)) (rs_samples r) -> Forall (Forall (fun w => w < 2 ^ 128)) (rs_superblocks r) ->
  (S (length (rs_superblocks r)) <= fuel)%nat ->
  g_rss256_select_block fuel (rs_superblocks r) (rs_samples r) symbol i = rss_select_block 256 r symbol i.
Proof. exact g_rss256_select_block_ok. Qed.
Print Assumptions C05_source_select_block_256.
Theorem C05_source_select_block_512 : forall r symbol i fuel, i < 2 ^ 64 ->
  Forall (Forall (fun x => x < 2 ^ 32)) (rs_samples r) -> Forall (Forall (fun w => w < 2 ^ 128)) (rs_superblocks r) ->
  (S (length (rs_superblocks r)) <= fuel)%nat ->
  g_rss512_select_block fuel (rs_superblocks r) (rs_samples r) symbol i = rss_select_block 512 r symbol i.
Proof. exact g_rss512_select_block_ok. Qed.
Print Assumptions C05_source_select_block_512.
Theorem C05_source_directory_typed : forall bsize s rs, (bsize = 256 \/ bsize = 512) -> len s < RSQ_MAXN ->
  Forall (fun x => x < 4) s -> rss_new bsize s = Val rs ->
  Forall (Forall (fun x => x < 2 ^ 32)) (rs_samples rs) /\ Forall (Forall (fun w => w < 2 ^ 128)) (rs_superblocks rs) /\
  length (rs_superblocks rs) = S (N.to_nat (len s / (8 * bsize))).
Proof. exact rss_new_typed. Qed.
Print Assumptions C05_source_directory_typed.
Theorem C05_source_select_block_e2e_256 : forall s rs c k fuel,
  len s < RSQ_MAXN -> Forall (fun x => x < 4) s -> rss_new 256 s = Val rs -> c <= 3 -> k < countN c s ->
  (S (S (N.to_nat (len s / 2048))) <= fuel)%nat ->
  exists pos, g_rss256_select_block fuel (rs_superblocks rs) (rs_samples rs) c (k + 1)
              = Val (pos, rank_spec s c pos) /\
    pos mod 256 = 0 /\ rank_spec s c pos <= k /\ k < rank_spec s c (pos + 256).
Proof. exact g_rss256_select_block_e2e. Qed.
Print Assumptions C05_source_select_block_e2e_256.
Theorem C05_source_select_block_e2e_512 : forall s rs c k fuel,
  len s < RSQ_MAXN -> Forall (fun x => x < 4) s -> rss_new 512 s = Val rs -> c <= 3 -> k < countN c s ->
  (S (S (N.to_nat (len s / 4096))) <= fuel)%nat ->
  exists pos, g_rss512_select_block fuel (rs_superblocks rs) (rs_samples rs) c (k + 1)
              = Val (pos, rank_spec s c pos) /\
    pos mod 512 = 0 /\ rank_spec s c pos <= k /\ k < rank_spec s c (pos + 512).
Proof. exact g_rss512_select_block_e2e. Qed.
Print Assumptions C05_source_select_block_e2e_512.

From QwtModel Require Import QVecP FnsQv2 FnsRsq FnsQv2Ok FnsRsqOk.

(* T5: the whole query API of RSQVector REGENERATED from src/qvector/rs_qvector.rs and src/qvector/mod.rs
   (tools/gen_fns.py -> Gen/FnsRsq.v, Gen/FnsQv2.v; RSQVector<RSSupportPlain<B>> monomorphised for B = 256, 512),
   working on the WORD view of the data lines (four u128 per line, `rsq_wdata r` = the packed list view) and on the
   fields of the structure the hand-modelled constructor builds: for every input sequence, get / rank / select /
   occs / occs_smaller and their unchecked variants return exactly the list specification of the stored symbols
   (map sym4 vs), for every fuel above the number of superblocks; no premise speaks of the regenerated code. *)
Theorem C05_source_rank_256 : forall vs r, len vs < RSQ_MAXN -> rsq_new 256 vs = Val r -> forall c i,
  g_rsq256_rank (rsq_wdata r) (rsq_pos r) (rs_superblocks (rsq_rs r)) c i
  = Val (if (c <=? 3) && (i <=? len vs) then Some (rank_spec (map sym4 vs) c i) else None).
Proof. exact g_rsq256_rank_new. Qed.
Print Assumptions C05_source_rank_256.
Theorem C05_source_rank_512 : forall vs r, len vs < RSQ_MAXN -> rsq_new 512 vs = Val r -> forall c i,
  g_rsq512_rank (rsq_wdata r) (rsq_pos r) (rs_superblocks (rsq_rs r)) c i
  = Val (if (c <=? 3) && (i <=? len vs) then Some (rank_spec (map sym4 vs) c i) else None).
Proof. exact g_rsq512_rank_new. Qed.
Print Assumptions C05_source_rank_512.
Theorem C05_source_select_256 : forall vs r, len vs < RSQ_MAXN -> rsq_new 256 vs = Val r ->
  forall c k fuel, k < 2 ^ 64 -> (S (S (N.to_nat (len vs / (8 * 256)))) <= fuel)%nat ->
  g_rsq256_select fuel (rsq_wdata r) (rs_superblocks (rsq_rs r)) (rs_samples (rsq_rs r))
    (rsq_occs_smaller r) c k
  = Val (if c <=? 3 then select_spec (map sym4 vs) c k else None).
Proof. exact g_rsq256_select_new. Qed.
Print Assumptions C05_source_select_256.
Theorem C05_source_select_512 : forall vs r, len vs < RSQ_MAXN -> rsq_new 512 vs = Val r ->
  forall c k fuel, k < 2 ^ 64 -> (S (S (N.to_nat (len vs / (8 * 512)))) <= fuel)%nat ->
  g_rsq512_select fuel (rsq_wdata r) (rs_superblocks (rsq_rs r)) (rs_samples (rsq_rs r))
    (rsq_occs_smaller r) c k
  = Val (if c <=? 3 then select_spec (map sym4 vs) c k else None).
Proof. exact g_rsq512_select_new. Qed.
Print Assumptions C05_source_select_512.
Theorem C05_source_select_unchecked_256 : forall vs r, len vs < RSQ_MAXN -> rsq_new 256 vs = Val r ->
  forall c k p fuel, c <= 3 -> select_spec (map sym4 vs) c k = Some p ->
  (S (S (N.to_nat (len vs / (8 * 256)))) <= fuel)%nat ->
  g_rsq256_select_unchecked fuel (rsq_wdata r) (rs_superblocks (rsq_rs r)) (rs_samples (rsq_rs r))
    (rsq_occs_smaller r) c k = Val p.
Proof. exact g_rsq256_select_unchecked_new. Qed.
Print Assumptions C05_source_select_unchecked_256.
Theorem C05_source_select_unchecked_512 : forall vs r, len vs < RSQ_MAXN -> rsq_new 512 vs = Val r ->
  forall c k p fuel, c <= 3 -> select_spec (map sym4 vs) c k = Some p ->
  (S (S (N.to_nat (len vs / (8 * 512)))) <= fuel)%nat ->
  g_rsq512_select_unchecked fuel (rsq_wdata r) (rs_superblocks (rsq_rs r)) (rs_samples (rsq_rs r))
    (rsq_occs_smaller r) c k = Val p.
Proof. exact g_rsq512_select_unchecked_new. Qed.
Print Assumptions C05_source_select_unchecked_512.
Theorem C05_source_get : forall bsize vs r, (bsize = 256 \/ bsize = 512) -> len vs < RSQ_MAXN ->
  rsq_new bsize vs = Val r -> forall i,
  g_rsq256_get (rsq_wdata r) (rsq_pos r) i = Val (nthN (map sym4 vs) i) /\
  g_rsq512_get (rsq_wdata r) (rsq_pos r) i = Val (nthN (map sym4 vs) i).
Proof. exact g_rsq_get_new. Qed.
Print Assumptions C05_source_get.
Theorem C05_source_occs : forall bsize vs r, (bsize = 256 \/ bsize = 512) -> len vs < RSQ_MAXN ->
  rsq_new bsize vs = Val r -> forall c,
  g_rsq256_occs (rsq_occs_smaller r) c = Val (if c <=? 3 then Some (countN c (map sym4 vs)) else None) /\
  g_rsq512_occs (rsq_occs_smaller r) c = Val (if c <=? 3 then Some (countN c (map sym4 vs)) else None).
Proof. exact g_rsq_occs_new. Qed.
Print Assumptions C05_source_occs.
Theorem C05_source_occs_smaller : forall bsize vs r, (bsize = 256 \/ bsize = 512) -> len vs < RSQ_MAXN ->
  rsq_new bsize vs = Val r -> forall c,
  g_rsq256_occs_smaller (rsq_occs_smaller r) c = Val (if c <=? 3 then Some (count_lt c (map sym4 vs)) else None) /\
  g_rsq512_occs_smaller (rsq_occs_smaller r) c = Val (if c <=? 3 then Some (count_lt c (map sym4 vs)) else None).
Proof. exact g_rsq_occs_smaller_new. Qed.
Print Assumptions C05_source_occs_smaller.
Theorem C05_source_len : forall bsize vs r, (bsize = 256 \/ bsize = 512) -> len vs < RSQ_MAXN ->
  rsq_new bsize vs = Val r ->
  g_rsq256_len (rsq_pos r) = Val (len vs) /\ g_rsq512_len (rsq_pos r) = Val (len vs).
Proof. exact g_rsq_len_new. Qed.
Print Assumptions C05_source_len.
(* non-vacuity: the regenerated functions evaluated on the word view of the 600-symbol example *)
Theorem C05_source_example : g_rsq_example_checks256 /\ g_rsq_example_checks512.
Proof. exact (conj g_rsq_example_256 g_rsq_example_512). Qed.
Print Assumptions C05_source_example.

(* the directory CONSTRUCTOR regenerated from src/qvector/rs_qvector/rs_support_plain.rs on every run (T5:
   SuperblockPlain::new / set_block_counters, RSSupportPlain::<B>::new): run on the stored quad vector it returns exactly
   the superblocks and select samples of the hand model (value or fault alike), so the regenerated queries above, run on
   the directory the regenerated constructor built, answer by the list specification. *)
From QwtModel Require Import FnsRssNewOk.
Theorem C05_source_sb_new : forall sbc, len sbc = 4 -> g_sb_new sbc = Val (sb_new sbc).
Proof. exact g_sb_new_ok. Qed.
Print Assumptions C05_source_sb_new.
Theorem C05_source_sb_set_block_counters : forall s block_id counters, len s = 4 -> len counters = 4 ->
  g_sb_set_block_counters s block_id counters = sb_set_block_counters s block_id counters.
Proof. exact g_sb_set_block_counters_ok. Qed.
Print Assumptions C05_source_sb_set_block_counters.
Theorem C05_source_directory_new_256 : forall q syms, qv_lines_ok q -> qv_cap_ok q -> qv_symbols q = Val syms ->
  g_rss256_new (pack_qdata (qv_data q)) (qv_position q)
  = let! rs := rss_new 256 syms in Val (rs_superblocks rs, rs_samples rs).
Proof. exact g_rss256_new_ok. Qed.
Print Assumptions C05_source_directory_new_256.
Theorem C05_source_directory_new_512 : forall q syms, qv_lines_ok q -> qv_cap_ok q -> qv_symbols q = Val syms ->
  g_rss512_new (pack_qdata (qv_data q)) (qv_position q)
  = let! rs := rss_new 512 syms in Val (rs_superblocks rs, rs_samples rs).
Proof. exact g_rss512_new_ok. Qed.
Print Assumptions C05_source_directory_new_512.
Theorem C05_source_directory_e2e_256 : forall vs r, rsq_new 256 vs = Val r ->
  g_rss256_new (rsq_wdata r) (rsq_pos r) = Val (rs_superblocks (rsq_rs r), rs_samples (rsq_rs r)).
Proof. exact g_rss256_new_e2e. Qed.
Print Assumptions C05_source_directory_e2e_256.
Theorem C05_source_directory_e2e_512 : forall vs r, rsq_new 512 vs = Val r ->
  g_rss512_new (rsq_wdata r) (rsq_pos r) = Val (rs_superblocks (rsq_rs r), rs_samples (rsq_rs r)).
Proof. exact g_rss512_new_e2e. Qed.
Print Assumptions C05_source_directory_e2e_512.
Theorem C05_source_regenerated_dir_256 : forall vs r, len vs < RSQ_MAXN -> rsq_new 256 vs = Val r ->
  exists sbs samples, g_rss256_new (rsq_wdata r) (rsq_pos r) = Val (sbs, samples) /\
    (forall c i, g_rsq256_rank (rsq_wdata r) (rsq_pos r) sbs c i
       = Val (if (c <=? 3) && (i <=? len vs) then Some (rank_spec (map sym4 vs) c i) else None)) /\
    (forall c k fuel, k < 2 ^ 64 -> (S (S (N.to_nat (len vs / (8 * 256)))) <= fuel)%nat ->
       g_rsq256_select fuel (rsq_wdata r) sbs samples (rsq_occs_smaller r) c k
       = Val (if c <=? 3 then select_spec (map sym4 vs) c k else None)) /\
    (forall c i, c <= 3 -> i <= len vs ->
       g_rsq256_rank_unchecked (rsq_wdata r) sbs c i = Val (rank_spec (map sym4 vs) c i)) /\
    (forall c k p fuel, c <= 3 -> select_spec (map sym4 vs) c k = Some p ->
       (S (S (N.to_nat (len vs / (8 * 256)))) <= fuel)%nat ->
       g_rsq256_select_unchecked fuel (rsq_wdata r) sbs samples (rsq_occs_smaller r) c k = Val p) /\
    (forall c i, c <= 3 -> i <= len vs ->
       exists v, g_rsq256_rank_block_unchecked sbs c i = Val v /\ v <= rank_spec (map sym4 vs) c i).
Proof. exact g_rsq256_regenerated_dir. Qed.
Print Assumptions C05_source_regenerated_dir_256.
Theorem C05_source_regenerated_dir_512 : forall vs r, len vs < RSQ_MAXN -> rsq_new 512 vs = Val r ->
  exists sbs samples, g_rss512_new (rsq_wdata r) (rsq_pos r) = Val (sbs, samples) /\
    (forall c i, g_rsq512_rank (rsq_wdata r) (rsq_pos r) sbs c i
       = Val (if (c <=? 3) && (i <=? len vs) then Some (rank_spec (map sym4 vs) c i) else None)) /\
    (forall c k fuel, k < 2 ^ 64 -> (S (S (N.to_nat (len vs / (8 * 512)))) <= fuel)%nat ->
       g_rsq512_select fuel (rsq_wdata r) sbs samples (rsq_occs_smaller r) c k
       = Val (if c <=? 3 then select_spec (map sym4 vs) c k else None)) /\
    (forall c i, c <= 3 -> i <= len vs ->
       g_rsq512_rank_unchecked (rsq_wdata r) sbs c i = Val (rank_spec (map sym4 vs) c i)) /\
    (forall c k p fuel, c <= 3 -> select_spec (map sym4 vs) c k = Some p ->
       (S (S (N.to_nat (len vs / (8 * 512)))) <= fuel)%nat ->
       g_rsq512_select_unchecked fuel (rsq_wdata r) sbs samples (rsq_occs_smaller r) c k = Val p) /\
    (forall c i, c <= 3 -> i <= len vs ->
       exists v, g_rsq512_rank_block_unchecked sbs c i = Val v /\ v <= rank_spec (map sym4 vs) c i).
Proof. exact g_rsq512_regenerated_dir. Qed.
Print Assumptions C05_source_regenerated_dir_512.
Theorem C05_source_directory_total : forall vs, len vs < RSQ_MAXN ->
  exists r, rsq_new 256 vs = Val r /\
    g_rss256_new (rsq_wdata r) (rsq_pos r) = Val (rs_superblocks (rsq_rs r), rs_samples (rsq_rs r)).
Proof. exact g_rss_new_total. Qed.
Print Assumptions C05_source_directory_total.

(* From<QVector> (the directory call, the symbol counts, the prefix sums), Default and the public constructor
   RSQVector::new (QVector::from_iter then From) REGENERATED (T5, end of Gen/FnsRsq.v): equal to the hand model, value or fault
   alike, on every well-formed quad vector; and the regenerated public constructor followed by the regenerated queries is
   the list specification on the stored symbols (v mod 4), with no hand-model function in the statement. *)
From QwtModel Require Import FnsQvb FnsRsqFromOk FnsWrapRsqOk.
Theorem C05_source_from_256 : forall q, qv_lines_ok q -> qv_cap_ok q ->
  g_rsq256_from (pack_qdata (qv_data q)) (qv_position q)
  = let! r := rsq_from_qv 256 q in
    Val (rsq_wdata r, rsq_pos r, rs_superblocks (rsq_rs r), rs_samples (rsq_rs r), rsq_occs_smaller r).
Proof. exact g_rsq256_from_ok. Qed.
Print Assumptions C05_source_from_256.
Theorem C05_source_from_512 : forall q, qv_lines_ok q -> qv_cap_ok q ->
  g_rsq512_from (pack_qdata (qv_data q)) (qv_position q)
  = let! r := rsq_from_qv 512 q in
    Val (rsq_wdata r, rsq_pos r, rs_superblocks (rsq_rs r), rs_samples (rsq_rs r), rsq_occs_smaller r).
Proof. exact g_rsq512_from_ok. Qed.
Print Assumptions C05_source_from_512.
Theorem C05_source_default_256 :
  g_rsq256_default
  = let! r := rsq_default 256 in
    Val (rsq_wdata r, rsq_pos r, rs_superblocks (rsq_rs r), rs_samples (rsq_rs r), rsq_occs_smaller r).
Proof. exact g_rsq256_default_ok. Qed.
Print Assumptions C05_source_default_256.
Theorem C05_source_default_512 :
  g_rsq512_default
  = let! r := rsq_default 512 in
    Val (rsq_wdata r, rsq_pos r, rs_superblocks (rsq_rs r), rs_samples (rsq_rs r), rsq_occs_smaller r).
Proof. exact g_rsq512_default_ok. Qed.
Print Assumptions C05_source_default_512.
Theorem C05_source_new_256 : forall wT vs, len vs < RSQ_MAXN ->
  exists d p sbs samples occs,
    g_rsq256_new wT vs = Val (d, p, sbs, samples, occs) /\
    g_rsq256_len p = Val (len vs) /\ g_rsq256_is_empty p = Val (len vs =? 0) /\
    (forall i, g_rsq256_get d p i = Val (nthN (map sym4 vs) i)) /\
    (forall i x, nthN (map sym4 vs) i = Some x -> g_rsq256_get_unchecked d p i = Val x) /\
    (forall c i, g_rsq256_rank d p sbs c i
       = Val (if (c <=? 3) && (i <=? len vs) then Some (rank_spec (map sym4 vs) c i) else None)) /\
    (forall c k fuel, k < 2 ^ 64 -> (S (S (N.to_nat (len vs / (8 * 256)))) <= fuel)%nat ->
       g_rsq256_select fuel d sbs samples occs c k
       = Val (if c <=? 3 then select_spec (map sym4 vs) c k else None)) /\
    (forall c i, c <= 3 -> i <= len vs ->
       g_rsq256_rank_unchecked d sbs c i = Val (rank_spec (map sym4 vs) c i)) /\
    (forall c k pos fuel, c <= 3 -> select_spec (map sym4 vs) c k = Some pos ->
       (S (S (N.to_nat (len vs / (8 * 256)))) <= fuel)%nat ->
       g_rsq256_select_unchecked fuel d sbs samples occs c k = Val pos) /\
    (forall c i, c <= 3 -> i <= len vs ->
       exists v, g_rsq256_rank_block_unchecked sbs c i = Val v /\ v <= rank_spec (map sym4 vs) c i) /\
    (forall c, g_rsq256_occs occs c = Val (if c <=? 3 then Some (countN c (map sym4 vs)) else None)) /\
    (forall c, g_rsq256_occs_smaller occs c = Val (if c <=? 3 then Some (count_lt c (map sym4 vs)) else None)) /\
    (forall c, c <= 3 -> g_rsq256_occs_unchecked occs c = Val (countN c (map sym4 vs))) /\
    (forall c, c <= 3 -> g_rsq256_occs_smaller_unchecked occs c = Val (count_lt c (map sym4 vs))).
Proof. exact g_rsq256_new_correct. Qed.
Print Assumptions C05_source_new_256.
Theorem C05_source_new_512 : forall wT vs, len vs < RSQ_MAXN ->
  exists d p sbs samples occs,
    g_rsq512_new wT vs = Val (d, p, sbs, samples, occs) /\
    g_rsq512_len p = Val (len vs) /\ g_rsq512_is_empty p = Val (len vs =? 0) /\
    (forall i, g_rsq512_get d p i = Val (nthN (map sym4 vs) i)) /\
    (forall i x, nthN (map sym4 vs) i = Some x -> g_rsq512_get_unchecked d p i = Val x) /\
    (forall c i, g_rsq512_rank d p sbs c i
       = Val (if (c <=? 3) && (i <=? len vs) then Some (rank_spec (map sym4 vs) c i) else None)) /\
    (forall c k fuel, k < 2 ^ 64 -> (S (S (N.to_nat (len vs / (8 * 512)))) <= fuel)%nat ->
       g_rsq512_select fuel d sbs samples occs c k
       = Val (if c <=? 3 then select_spec (map sym4 vs) c k else None)) /\
    (forall c i, c <= 3 -> i <= len vs ->
       g_rsq512_rank_unchecked d sbs c i = Val (rank_spec (map sym4 vs) c i)) /\
    (forall c k pos fuel, c <= 3 -> select_spec (map sym4 vs) c k = Some pos ->
       (S (S (N.to_nat (len vs / (8 * 512)))) <= fuel)%nat ->
       g_rsq512_select_unchecked fuel d sbs samples occs c k = Val pos) /\
    (forall c i, c <= 3 -> i <= len vs ->
       exists v, g_rsq512_rank_block_unchecked sbs c i = Val v /\ v <= rank_spec (map sym4 vs) c i) /\
    (forall c, g_rsq512_occs occs c = Val (if c <=? 3 then Some (countN c (map sym4 vs)) else None)) /\
    (forall c, g_rsq512_occs_smaller occs c = Val (if c <=? 3 then Some (count_lt c (map sym4 vs)) else None)) /\
    (forall c, c <= 3 -> g_rsq512_occs_unchecked occs c = Val (countN c (map sym4 vs))) /\
    (forall c, c <= 3 -> g_rsq512_occs_smaller_unchecked occs c = Val (count_lt c (map sym4 vs))).
Proof. exact g_rsq512_new_correct. Qed.
Print Assumptions C05_source_new_512.
