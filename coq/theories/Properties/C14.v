(* C14 — Plain trees and rank/select vectors stay within their stated space overhead.
   Closed-form bounds on the heap bytes retained by the model state (Model/Space.v: sum over the
   boxed slices / vectors of element count x element size; inline struct sizes abi64 are
   measured by the harness), for every input.  The harness checks on every case that the bytes
   actually live after construction (counting allocator; every construction path) equal the
   model's value.  Allocator rounding is outside the model. *)
From QwtModel Require Import ListX Seq Consts QVec RSQ QWT BitVec RSBin Prefetch Space RSQBuild QWTP RSBinB SpaceP.
From QwtModel Require Import Words Huff.
From QwtModel Require WrapP BinWTP.

(* one level: n/4 bytes of symbols (2 bits each, 64-byte lines) + one 64-byte superblock record
   per 8 blocks (12.5% for block size 256, 6.25% for 512) + select samples (n/2048) + constant *)
Theorem C14_rsq : forall bsize vs r, (bsize = 256 \/ bsize = 512) -> len vs < RSQ_MAXN -> rsq_new bsize vs = Val r ->
  rsq_heap r <= len vs / 4 + 64 + (len vs / (8 * bsize) + 1) * 64 + (len vs / 2048 + 32).
Proof. exact rsq_heap_bound. Qed.
Print Assumptions C14_rsq.

(* the tree: L = ceil(bitlen(max)/2) levels; (1 + r) * n/4 bytes per level, r = 1/8 or 1/16 *)
Theorem C14_qwt : forall w bsize seq t, width_ok w -> (bsize = 256 \/ bsize = 512) ->
  Forall (fun x => x < 2 ^ w) seq -> len seq < RSQ_MAXN -> qwt_new w bsize seq = Val t ->
  qwt_heap abi64 t None <= levels_of seq * (len seq / 4 + len seq / (bsize / 8) + len seq / 2048 + 304).
Proof. exact qwt_heap_bound. Qed.
Print Assumptions C14_qwt.

(* prefetch support adds n/2048 + a constant per level: well under 1% of n/4 *)
Theorem C14_qwt_pfs : forall w bsize seq t ps, width_ok w -> (bsize = 256 \/ bsize = 512) ->
  Forall (fun x => x < 2 ^ w) seq -> len seq < RSQ_MAXN -> qwt_new w bsize seq = Val t -> qwt_pfs_new w seq = Val ps ->
  qwt_heap abi64 t (Some ps) <= levels_of seq * (len seq / 4 + len seq / (bsize / 8) + len seq / 2048 + 304 + (len seq / 2048 + 1056)).
Proof. exact qwt_pfs_heap_bound. Qed.
Print Assumptions C14_qwt_pfs.

(* RSWide (level of the binary tree): n/8 bytes of bits + one u128 per 4096 bits + hints: < 1.05 n/8 + c *)
Theorem C14_rswide : forall bv r, bv_wf bv -> rsw_new bv = Val r ->
  rsw_heap r <= bv_nbits bv / 8 + 64 + (bv_nbits bv / 4096 + 2) * 16 + (bv_nbits bv / 8192 + 5) * 8.
Proof. exact rsw_heap_bound. Qed.
Print Assumptions C14_rswide.
Theorem C14_rsnarrow : forall bv r, bv_wf bv -> rsn_new bv = Val r ->
  rsn_heap r <= bv_nbits bv / 8 + 64 + (bv_nbits bv / 512 + 3) * 16 + (bv_nbits bv / 1024 + 5) * 8.
Proof. exact rsn_heap_bound. Qed.
Print Assumptions C14_rsnarrow.
(* exact size of one level (no slack): what a retained Vec capacity or a doubled array would break *)
Theorem C14_rsq_exact : forall bsize vs r, (bsize = 256 \/ bsize = 512) -> len vs < RSQ_MAXN -> rsq_new bsize vs = Val r ->
  rsq_heap r = 64 * ((len vs + 255) / 256) + 64 * (len vs / (8 * bsize) + 1) + 4 * sample_entries (map QVecP.sym4 vs) /\
  len (rs_samples (rsq_rs r)) = 4.
Proof. exact rsq_heap_exact. Qed.
Print Assumptions C14_rsq_exact.

(* the binary wavelet tree: bitlen(max) levels, each n/8 bytes of bits + one u128 per 4096 bits
   + one hint per 8192 + constant: 1 + 16/512 + 8/1024 < 1.05 times n * bitlen(m) bits, plus a
   per-level term (the bound is attained: WrapP.wt_heap_bound_attained) *)
Theorem C14_wt : forall w seq t, BinWTP.width_ok w -> Forall (fun x => x < 2 ^ w) seq ->
  len seq < RSQ_MAXN -> seq <> [] -> wt_build w false seq [] = Val t ->
  wt_heap_plain abi64 t <=
  (msb (maxN seq) + 1) * (len seq / 8 + (len seq / 4096) * 16 + (len seq / 8192) * 8 + 232).
Proof. exact WrapP.wt_heap_bound. Qed.
Print Assumptions C14_wt.
Theorem C14_wt_empty : forall w compressed tab t, wt_build w compressed [] tab = Val t ->
  wt_heap_plain abi64 t = 0.
Proof. exact WrapP.wt_heap_empty. Qed.
Print Assumptions C14_wt_empty.
(* Huffman-shaped binary tree: level-wise, in terms of the level lengths (whose sum is
   sum_c f_c * len_c: C15) *)
Theorem C14_hwt_levelwise : forall w seq tab t, len seq < RSQ_MAXN -> seq <> [] ->
  wt_build w true seq tab = Val t ->
  len (w_lens t) = maxN (map pc_len tab) /\
  map (fun r => bv_len (rsw_bv r)) (w_bvs t) = w_lens t /\
  Forall (fun ln => ln <= len seq) (w_lens t) /\
  wt_heap_plain abi64 t <= sumN (map (fun n => n / 8 + (n / 4096) * 16 + (n / 8192) * 8 + 232) (w_lens t)).
Proof. exact WrapP.hwt_heap_bound. Qed.
Print Assumptions C14_hwt_levelwise.
