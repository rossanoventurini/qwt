(* C10 — Unchecked variants equal the checked ones on valid arguments in every build.
   The model carries every debug assertion (odebug_assert), every overflow point and every
   unchecked access as a possible Fault, so "= Val v" covers builds with and without debug
   assertions.  Each theorem: under the documented precondition the unchecked method returns
   v and the checked method returns Some v. *)
From QwtModel Require Import ListX Seq Consts Words QVec RSQ QWT Huff BitVec RSBin RSQBuild QVecP RSQP QWTP HQWTP BinWTP BitsLib BitVecP WordsP BinFinalP.

Theorem C10_rsq : forall bsize r s, rsq_spec bsize r s ->
  (forall i x, nthN s i = Some x -> rsq_get_unchecked r i = Val x /\ rsq_get r i = Val (Some x)) /\
  (forall c i, c <= 3 -> i <= len s -> rsq_rank_unchecked bsize r c i = Val (rank_spec s c i) /\ rsq_rank bsize r c i = Val (Some (rank_spec s c i))) /\
  (forall c k p, c <= 3 -> k < 2 ^ 64 -> select_spec s c k = Some p -> rsq_select_unchecked bsize r c k = Val p /\ rsq_select bsize r c k = Val (Some p)) /\
  (forall c, c <= 3 -> rsq_occs_unchecked r c = Val (countN c s) /\ rsq_occs r c = Val (Some (countN c s))) /\
  (forall c, c <= 3 -> rsq_occs_smaller_unchecked r c = Val (count_lt c s) /\ rsq_occs_smaller_q r c = Val (Some (count_lt c s))).
Proof.
  intros bsize r s (_ & _ & G & R & S & O & OS & RU & GU & SU & OU & OSU & _).
  repeat split; intros.
  - now apply GU. - rewrite G. now f_equal.
  - now apply RU. - rewrite R. replace (c <=? 3) with true by (symmetry; now apply N.leb_le). replace (i <=? len s) with true by (symmetry; now apply N.leb_le). reflexivity.
  - now apply SU with (k := k). - rewrite S by assumption. replace (c <=? 3) with true by (symmetry; now apply N.leb_le). now f_equal.
  - now apply OU. - rewrite O. replace (c <=? 3) with true by (symmetry; now apply N.leb_le). reflexivity.
  - now apply OSU. - rewrite OS. replace (c <=? 3) with true by (symmetry; now apply N.leb_le). reflexivity.
Qed.
Print Assumptions C10_rsq.

Theorem C10_qwt : forall w bsize t seq, qwt_spec w bsize t seq ->
  (forall i x, nthN seq i = Some x -> qwt_get_unchecked w bsize t i = Val x /\ qwt_get w bsize t i = Val (Some x)) /\
  (forall c i, 0 < len seq -> c <= maxN seq -> i <= len seq ->
      qwt_rank_unchecked w bsize t c i = Val (rank_spec seq c i) /\ qwt_rank_prefetch_unchecked w bsize t c i = Val (rank_spec seq c i)) /\
  (forall c k p, c < 2 ^ w -> select_spec seq c k = Some p -> qwt_select_unchecked w bsize t c k = Val p).
Proof.
  intros w bsize t seq (_ & _ & _ & _ & G & _ & _ & _ & GU & RU & SU).
  repeat split; intros.
  - now apply GU. - rewrite G. now f_equal. - now apply RU. - now apply RU. - now apply SU with (k := k).
Qed.
Print Assumptions C10_qwt.

Theorem C10_hqwt : forall w bsize t seq, hq_spec w bsize t seq ->
  (forall i x, nthN seq i = Some x -> hq_get_unchecked w bsize t i = Val x /\ hq_get w bsize t i = Val (Some x)) /\
  (forall c i, 0 < countN c seq -> i <= len seq ->
      hq_rank_unchecked bsize t c i = Val (rank_spec seq c i) /\ hq_rank_prefetch_unchecked bsize t c i = Val (rank_spec seq c i)) /\
  (forall c k p, c < 2 ^ w -> select_spec seq c k = Some p -> hq_select_unchecked bsize t c k = Val p).
Proof.
  intros w bsize t seq (_ & G & _ & _ & _ & GU & RU & SU).
  repeat split; intros.
  - now apply GU. - rewrite G. now f_equal. - now apply RU. - now apply RU. - now apply SU with (k := k).
Qed.
Print Assumptions C10_hqwt.

Theorem C10_wt : forall w t seq, wt_spec w t seq ->
  (forall i x, nthN seq i = Some x -> wt_get_unchecked w false t i = Val x /\ wt_get w false t i = Val (Some x)) /\
  (forall c i, 0 < len seq -> c <= maxN seq -> i <= len seq -> wt_rank_unchecked w false t c i = Val (rank_spec seq c i)) /\
  (forall c k p, c < 2 ^ w -> select_spec seq c k = Some p -> wt_select_unchecked w false t c k = Val p).
Proof.
  intros w t seq (_ & _ & G & _ & _ & GU & RU & SU).
  repeat split; intros.
  - now apply GU. - rewrite G. now f_equal. - now apply RU. - now apply SU with (k := k).
Qed.
Print Assumptions C10_wt.

Theorem C10_bitvector_get : forall b i, bv_inv b -> i < len (bv_abs b) -> bv_get_unchecked b i = Val (nthb (bv_abs b) i).
Proof. exact bv_get_unchecked_correct. Qed.
Print Assumptions C10_bitvector_get.
Theorem C10_bitvector_get_bits : forall b i n, bv_inv b -> 1 <= n -> n <= 64 -> i + n <= len (bv_abs b) ->
  bv_get_bits_unchecked b i n = Val (bits_value (firstnN n (skipnN i (bv_abs b)))).
Proof. exact bv_get_bits_unchecked_correct. Qed.
Print Assumptions C10_bitvector_get_bits.
(* RSNarrow / RSWide / DArray unchecked variants are part of C06_rsnarrow, C06_rswide (rank1/rank0/
   select1/select0 _unchecked) and of C07 (select*_unchecked = unwrap of the checked select). *)

From QwtModel Require GapsP.
Theorem C10_hwt : forall w t seq, hwt_spec w t seq ->
  (forall i x, nthN seq i = Some x -> wt_get_unchecked w true t i = Val x /\ wt_get w true t i = Val (Some x)) /\
  (forall c i, 0 < countN c seq -> i <= len seq -> wt_rank_unchecked w true t c i = Val (rank_spec seq c i)) /\
  (forall c k p, c < 2 ^ w -> select_spec seq c k = Some p -> wt_select_unchecked w true t c k = Val p).
Proof. exact GapsP.hwt_unchecked. Qed.
Print Assumptions C10_hwt.
