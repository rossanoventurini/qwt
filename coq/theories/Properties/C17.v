(* C17 — Word-level primitives meet their contracts for all words.
   The functions are the straight-line leaves of src/utils/mod.rs modelled in Model/Words.v with
   explicit wrap/overflow points; the 2048-entry table and every literal constant are regenerated
   from the Rust source on every run. *)
From QwtModel Require Import ListX Seq Consts SelTable Words QWT Huff WordsP QWTP BinWTP.

(* the in-byte table is the in-byte select, for all 256 x 8 entries (complete enumeration) *)
Theorem C17_table : forall b r, b < 256 -> r < 8 ->
  nthN sel_table (b + 256 * r) = Some (match select_spec (bits_of 8 b) 1 r with Some p => p | None => 8 end).
Proof. exact sel_table_ok. Qed.
Print Assumptions C17_table.

(* all 2^64 words, all k < 128 (the property asks k < 64): position of the (k+1)-th set bit,
   64 if there is none; never a fault (no overflow, no table index out of range) *)
Theorem C17_select_in_word : forall w k, w < 2 ^ 64 -> k < 128 ->
  select_in_word w k = Val (match select_spec (bits_of 64 w) 1 k with Some p => p | None => 64 end).
Proof. exact select_in_word_correct. Qed.
Print Assumptions C17_select_in_word.

Theorem C17_select_in_word_u128 : forall w k, w < 2 ^ 128 -> k < 128 ->
  select_in_word_u128 w k = Val (match select_spec (bits_of 128 w) 1 k with Some p => p | None => 128 end).
Proof. exact select_in_word_u128_correct. Qed.
Print Assumptions C17_select_in_word_u128.

Theorem C17_popcount : forall n x, x < 2 ^ N.of_nat n -> popcount x = countN 1 (bits_of n x).
Proof. exact popcount_correct. Qed.
Print Assumptions C17_popcount.
Theorem C17_popcnt_wide : forall n data, Forall (fun x => x < 2 ^ 64) data ->
  popcnt_wide n data = countN 1 (concat (map (bits_of 64) (firstn n data))).
Proof. exact popcnt_wide_bits. Qed.
Print Assumptions C17_popcnt_wide.

Theorem C17_msb : forall w v, 0 < w -> v < 2 ^ w ->
  msb_w w v = Val (if v =? 0 then 0 else N.log2 v) /\ (v <> 0 -> 2 ^ N.log2 v <= v < 2 ^ (N.log2 v + 1)).
Proof. exact msb_w_correct. Qed.
Print Assumptions C17_msb.

(* the partitions: the output is the concatenation of the groups in increasing order of the
   two bits (one bit) at the given shift, each group in input order *)
Theorem C17_partition4 : forall w seq shift, QWTP.width_ok w -> shift < w -> Forall (fun x => x < 2 ^ w) seq ->
  stable_partition_of_4 w seq shift =
  Val (concat (map (fun d => filter (fun x => (x / 2 ^ shift) mod 4 =? d) seq) [0;1;2;3])).
Proof. exact stable_partition_of_4_correct. Qed.
Print Assumptions C17_partition4.
Theorem C17_partition2 : forall w seq shift, BinWTP.width_ok w -> shift < w -> Forall (fun x => x < 2 ^ w) seq ->
  stable_partition_of_2 w seq shift =
  Val (filter (fun x => (x / 2 ^ shift) mod 2 =? 0) seq ++ filter (fun x => (x / 2 ^ shift) mod 2 =? 1) seq).
Proof. exact stable_partition_of_2_correct. Qed.
Print Assumptions C17_partition2.

From Coq Require Import Permutation Sorted.
From QwtModel Require Import Remap UtilsP.
(* select_in_word in the property's own words: the bit is set and exactly k set bits lie below it *)
Theorem C17_select_in_word_meaning : forall w k, w < 2 ^ 64 -> k < 64 ->
  exists p, select_in_word w k = Val p /\
    (k < popcount w -> p < 64 /\ N.testbit w p = true /\ popcount (w mod 2 ^ p) = k) /\
    (popcount w <= k -> p = 64).
Proof. exact select_in_word_property. Qed.
Print Assumptions C17_select_in_word_meaning.
(* the partitions return a permutation, grouped in increasing key order, stable inside each group *)
Theorem C17_partition4_contract : forall w seq shift, QWTP.width_ok w -> shift < w -> Forall (fun x => x < 2 ^ w) seq ->
  exists out, stable_partition_of_4 w seq shift = Val out /\ Permutation seq out /\
    StronglySorted (fun x y => (x / 2 ^ shift) mod 4 <= (y / 2 ^ shift) mod 4) out /\
    forall d, filter (fun x => (x / 2 ^ shift) mod 4 =? d) out = filter (fun x => (x / 2 ^ shift) mod 4 =? d) seq.
Proof. exact partition4_contract. Qed.
Print Assumptions C17_partition4_contract.
Theorem C17_partition2_contract : forall w seq shift, BinWTP.width_ok w -> shift < w -> Forall (fun x => x < 2 ^ w) seq ->
  exists out, stable_partition_of_2 w seq shift = Val out /\ Permutation seq out /\
    StronglySorted (fun x y => (x / 2 ^ shift) mod 2 <= (y / 2 ^ shift) mod 2) out /\
    forall d, filter (fun x => (x / 2 ^ shift) mod 2 =? d) out = filter (fun x => (x / 2 ^ shift) mod 2 =? d) seq.
Proof. exact partition2_contract. Qed.
Print Assumptions C17_partition2_contract.
(* text_remap: for every iteration order of the hash set, the order-preserving dense remapping *)
Theorem C17_text_remap_order_irrelevant : forall u1 u2 input, NoDup u1 -> NoDup u2 ->
  (forall x, In x u1 <-> In x input) -> (forall x, In x u2 <-> In x input) -> text_remap u1 input = text_remap u2 input.
Proof. exact text_remap_order_irrelevant. Qed.
Print Assumptions C17_text_remap_order_irrelevant.
Theorem C17_text_remap : forall uniq input, NoDup uniq -> (forall x, In x uniq <-> In x input) -> Forall (fun x => x < 256) input ->
  exists out d, text_remap uniq input = Val (out, d) /\
    d = len (distinct_sorted input) /\ d <= 256 /\ len out = len input /\
    (forall i x, nthN input i = Some x -> nthN out i = Some (len (filter (fun y => y <? x) (distinct_sorted input)))) /\
    (forall i j x y a b, nthN input i = Some x -> nthN input j = Some y -> nthN out i = Some a -> nthN out j = Some b -> (x < y <-> a < b) /\ (x = y <-> a = b)) /\
    (forall a, a < d -> exists i, nthN out i = Some a).
Proof. exact text_remap_correct. Qed.
Print Assumptions C17_text_remap.

From QwtModel Require Import LeavesUtils LeavesUtilsOk.

(* T3: the utils leaves REGENERATED from src/utils/mod.rs on every run (tools/gen_leaves.py ->
   Gen/LeavesUtils.v) equal the hand-written model the theorems above are about. *)
Theorem C17_source_select_in_word : forall word k, word < 2 ^ 64 -> k < 2 ^ 64 ->
  g_select_in_word word k = select_in_word word k.
Proof. exact g_select_in_word_ok. Qed.
Print Assumptions C17_source_select_in_word.
Theorem C17_source_select_in_word_u128 : forall word k, word < 2 ^ 128 -> k < 2 ^ 64 ->
  g_select_in_word_u128 word k = select_in_word_u128 word k.
Proof. exact g_select_in_word_u128_ok. Qed.
Print Assumptions C17_source_select_in_word_u128.
Theorem C17_source_msb :
  (forall v, v < 2 ^ 8 -> g_msb_u8 v = msb_w 8 v) /\ (forall v, v < 2 ^ 16 -> g_msb_u16 v = msb_w 16 v) /\
  (forall v, v < 2 ^ 32 -> g_msb_u32 v = msb_w 32 v) /\ (forall v, v < 2 ^ 64 -> g_msb_u64 v = msb_w 64 v) /\
  (forall v, v < 2 ^ 128 -> g_msb_u128 v = msb_w 128 v).
Proof. exact (conj g_msb_u8_ok (conj g_msb_u16_ok (conj g_msb_u32_ok (conj g_msb_u64_ok g_msb_u128_ok)))). Qed.
Print Assumptions C17_source_msb.

(* msb at a symbolic element width and stable_partition_of_4 REGENERATED from src/utils/mod.rs on every run (T5,
   Gen/FnsUtils.v; the partition as it is written: four local vectors filled in one pass, then copied back over the slice):
   equal to the hand model, faults included, and hence the contracts above hold of the regenerated functions. *)
From QwtModel Require Import Loops FnsUtils FnsQvbOk.
Theorem C17_source_msb_generic : forall wT v, QWTP.width_ok wT -> v < 2 ^ wT -> g_msb wT v = Val (msb v).
Proof. exact g_msb_ok. Qed.
Print Assumptions C17_source_msb_generic.
Theorem C17_source_msb_contract : forall wT v, QWTP.width_ok wT -> v < 2 ^ wT ->
  g_msb wT v = Val (if v =? 0 then 0 else N.log2 v) /\ (v <> 0 -> 2 ^ N.log2 v <= v < 2 ^ (N.log2 v + 1)).
Proof. exact g_msb_spec. Qed.
Print Assumptions C17_source_msb_contract.
Theorem C17_source_partition4_eq : forall wT seq shift, len seq < 2 ^ 64 ->
  g_stable_partition_of_4 wT seq shift = stable_partition_of_4 wT seq shift.
Proof. exact g_stable_partition_of_4_ok. Qed.
Print Assumptions C17_source_partition4_eq.
Theorem C17_source_partition4 : forall wT seq shift, QWTP.width_ok wT -> shift < wT ->
  Forall (fun x => x < 2 ^ wT) seq -> len seq < 2 ^ 64 ->
  g_stable_partition_of_4 wT seq shift =
  Val (concat (map (fun d => filter (fun x => (x / 2 ^ shift) mod 4 =? d) seq) [0;1;2;3])).
Proof. exact g_stable_partition_of_4_spec. Qed.
Print Assumptions C17_source_partition4.
Theorem C17_source_partition4_contract : forall wT seq shift, QWTP.width_ok wT -> shift < wT ->
  Forall (fun x => x < 2 ^ wT) seq -> len seq < 2 ^ 64 ->
  exists out, g_stable_partition_of_4 wT seq shift = Val out /\ Permutation seq out /\
    StronglySorted (fun x y => (x / 2 ^ shift) mod 4 <= (y / 2 ^ shift) mod 4) out /\
    forall d, filter (fun x => (x / 2 ^ shift) mod 4 =? d) out = filter (fun x => (x / 2 ^ shift) mod 4 =? d) seq.
Proof. exact g_stable_partition_of_4_contract. Qed.
Print Assumptions C17_source_partition4_contract.

(* stable_partition_of_2 regenerated (two local vectors, copied back) *)
From QwtModel Require Import FnsWtNewOk.
From Coq Require Import Permutation Sorted.
Theorem C17_source_partition2_eq : forall wT seq shift, len seq < 2 ^ 64 ->
  g_stable_partition_of_2 wT seq shift = stable_partition_of_2 wT seq shift.
Proof. exact g_stable_partition_of_2_ok. Qed.
Print Assumptions C17_source_partition2_eq.
Theorem C17_source_partition2 : forall w seq shift,
  BinWTP.width_ok w -> shift < w -> Forall (fun x => x < 2 ^ w) seq -> len seq < 2 ^ 64 ->
  g_stable_partition_of_2 w seq shift =
  Val (filter (fun x => (x / 2 ^ shift) mod 2 =? 0) seq ++ filter (fun x => (x / 2 ^ shift) mod 2 =? 1) seq).
Proof. exact g_stable_partition_of_2_correct. Qed.
Print Assumptions C17_source_partition2.
Theorem C17_source_partition2_contract : forall w seq shift,
  BinWTP.width_ok w -> shift < w -> Forall (fun x => x < 2 ^ w) seq -> len seq < 2 ^ 64 ->
  exists out, g_stable_partition_of_2 w seq shift = Val out /\ Permutation seq out /\
    StronglySorted (fun x y => (x / 2 ^ shift) mod 2 <= (y / 2 ^ shift) mod 2) out /\
    forall d, filter (fun x => (x / 2 ^ shift) mod 2 =? d) out = filter (fun x => (x / 2 ^ shift) mod 2 =? d) seq.
Proof. exact g_stable_partition_of_2_contract. Qed.
Print Assumptions C17_source_partition2_contract.
