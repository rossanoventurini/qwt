(* Entropy bounds for minimum-redundancy (Huffman-shaped) code length
   assignments, for ALL frequency vectors.  Self-contained: plain stdlib. *)
From Coq Require Import Reals Lra Lia List Arith.
Import ListNotations.

Definition total (fs : list nat) : nat := fold_right plus 0%nat fs.

(* Σ f_i * l_i *)
Definition cost (fs ls : list nat) : nat :=
  fold_right plus 0%nat (map (fun p => (fst p * snd p)%nat) (combine fs ls)).

Definition log2R (x : R) : R := (ln x / ln 2)%R.

(* zero-order empirical entropy, bits per symbol *)
Definition H0 (fs : list nat) : R :=
  let n := INR (total fs) in
  fold_right Rplus 0%R (map (fun f => (INR f / n * log2R (n / INR f))%R) fs).

Definition kraft (d : nat) (ls : list nat) : R :=
  fold_right Rplus 0%R (map (fun l => (/ (INR d ^ l))%R) ls).

(* Shannon length for degree d: least l >= 1 with d^l * f >= n *)
Fixpoint shl_aux (d n f l fuel : nat) : nat :=
  match fuel with
  | O => l
  | S k => if (n <=? d ^ l * f)%nat then l else shl_aux d n f (S l) k
  end.

Definition shl (d n f : nat) : nat := shl_aux d n f 1 n.

Definition optimal (d : nat) (fs ls : list nat) : Prop :=
  length ls = length fs /\
  forall ls', length ls' = length fs ->
              Forall (fun l => 1 <= l)%nat ls' ->
              (kraft d ls' <= 1)%R ->
              (cost fs ls <= cost fs ls')%nat.

Lemma shl_aux_spec d n f : (2 <= d)%nat -> (1 <= f)%nat ->
  forall fuel l, (1 <= l)%nat -> (l = 1 \/ d ^ pred l * f < n)%nat ->
    (n <= l + fuel)%nat ->
    (l <= shl_aux d n f l fuel)%nat /\
    (n <= d ^ shl_aux d n f l fuel * f)%nat /\
    (shl_aux d n f l fuel = 1 \/ d ^ pred (shl_aux d n f l fuel) * f < n)%nat.
Proof.
  intros Hd Hf. induction fuel as [|k IH]; intros l Hl HP Hn; simpl.
  - split; [lia|]. split; [|exact HP].
    assert (l < d ^ l)%nat by (apply Nat.pow_gt_lin_r; lia).
    assert (d ^ l * 1 <= d ^ l * f)%nat by (apply Nat.mul_le_mono_l; lia).
    lia.
  - destruct (Nat.leb_spec n (d ^ l * f)) as [Hle|Hlt].
    + split; [lia|]. split; [exact Hle|exact HP].
    + destruct (IH (S l)) as (A & B & C).
      * lia.
      * right. simpl pred. exact Hlt.
      * lia.
      * split; [lia|]. split; [exact B|exact C].
Qed.

Lemma shl_spec d n f : (2 <= d)%nat -> (1 <= f)%nat ->
  (1 <= shl d n f)%nat /\
  (n <= d ^ shl d n f * f)%nat /\
  (shl d n f = 1 \/ d ^ pred (shl d n f) * f < n)%nat.
Proof.
  intros Hd Hf. unfold shl.
  apply (shl_aux_spec d n f Hd Hf n 1%nat); [lia | left; reflexivity | lia].
Qed.

Lemma shl_least d n f l : (2 <= d)%nat -> (1 <= f)%nat ->
  (1 <= l)%nat -> (n <= d ^ l * f)%nat -> (shl d n f <= l)%nat.
Proof.
  intros Hd Hf Hl Hn.
  destruct (shl_spec d n f Hd Hf) as (A & B & [C|C]); [lia|].
  destruct (le_lt_dec (shl d n f) l) as [|Hlt]; [assumption|exfalso].
  assert (Hpow : (d ^ l <= d ^ pred (shl d n f))%nat)
    by (apply Nat.pow_le_mono_r; lia).
  assert ((d ^ l * f <= d ^ pred (shl d n f) * f)%nat)
    by (apply Nat.mul_le_mono_r; exact Hpow).
  lia.
Qed.

Lemma Rdiv_le_bound a b c : (0 < c -> a <= b * c -> a / c <= b)%R.
Proof.
  intros Hc H. apply Rmult_le_reg_r with c; [exact Hc|].
  unfold Rdiv. rewrite Rmult_assoc, Rinv_l by lra. lra.
Qed.

Lemma Rle_div_bound a b c : (0 < c -> a * c <= b -> a <= b / c)%R.
Proof.
  intros Hc H. apply Rmult_le_reg_r with c; [exact Hc|].
  unfold Rdiv. rewrite Rmult_assoc, Rinv_l by lra. lra.
Qed.

Lemma Rlt_div_bound a b c : (0 < c -> a * c < b -> a < b / c)%R.
Proof.
  intros Hc H. apply Rmult_lt_reg_r with c; [exact Hc|].
  unfold Rdiv. rewrite Rmult_assoc, Rinv_l by lra. lra.
Qed.

Lemma INR_d_ge2 d : (2 <= d)%nat -> (2 <= INR d)%R.
Proof. intros H. apply le_INR in H. simpl in H. lra. Qed.

Lemma ln2_pos : (0 < ln 2)%R.
Proof. generalize ln_lt_2. lra. Qed.

Lemma log2R_lt x y : (0 < x -> x < y -> log2R x < log2R y)%R.
Proof.
  intros Hx Hxy. unfold log2R, Rdiv.
  apply Rmult_lt_compat_r; [apply Rinv_0_lt_compat, ln2_pos|apply ln_increasing; assumption].
Qed.

Lemma log2R_nonneg x : (1 <= x -> 0 <= log2R x)%R.
Proof.
  assert (E : log2R 1 = 0%R) by (unfold log2R; rewrite ln_1; lra).
  intros [H | <-]; [|lra].
  apply (log2R_lt 1 x) in H; lra.
Qed.

Lemma log2R_pow x k : (0 < x)%R -> log2R (x ^ k) = (INR k * log2R x)%R.
Proof.
  intros Hx. unfold log2R. induction k as [|k IH].
  - simpl. rewrite ln_1. lra.
  - rewrite S_INR, <- tech_pow_Rmult, ln_mult; [|exact Hx|apply pow_lt; exact Hx].
    unfold Rdiv in *. rewrite Rmult_plus_distr_r, IH. ring.
Qed.

Lemma log2R_INR2 : log2R (INR 2) = 1%R.
Proof.
  replace (INR 2) with 2%R by (simpl; lra).
  unfold log2R. field. apply Rgt_not_eq, ln2_pos.
Qed.

Lemma log2R_INR4 : log2R (INR 4) = 2%R.
Proof.
  replace (INR 4) with (INR 2 ^ 2)%R by (simpl; lra).
  rewrite log2R_pow, log2R_INR2 by (simpl; lra). simpl. lra.
Qed.

(* the per-symbol bound, in digits of log2 d bits: l * log2 d <= log2 (n/f) + log2 d *)
Lemma shl_bits d n f : (2 <= d)%nat -> (1 <= f)%nat -> (f <= n)%nat ->
  (log2R (INR d) * INR (shl d n f) <= log2R (INR n / INR f) + log2R (INR d))%R.
Proof.
  intros Hd Hf Hfn.
  assert (HD : (2 <= INR d)%R) by (apply INR_d_ge2; exact Hd).
  assert (HF : (0 < INR f)%R) by (apply lt_0_INR; lia).
  destruct (shl_spec d n f Hd Hf) as (A & _ & [C|C]).
  - rewrite C. simpl INR.
    assert (0 <= log2R (INR n / INR f))%R.
    { apply log2R_nonneg, Rle_div_bound; [exact HF|]. apply le_INR in Hfn. lra. }
    lra.
  - destruct (shl d n f) as [|r]; [lia|]. simpl pred in C.
    apply lt_INR in C. rewrite mult_INR, pow_INR in C.
    apply Rlt_div_bound in C; [|exact HF].
    apply log2R_lt in C; [|apply pow_lt; lra].
    rewrite log2R_pow in C by lra.
    rewrite S_INR. lra.
Qed.

Lemma cost_cons f fs l ls : cost (f :: fs) (l :: ls) = (f * l + cost fs ls)%nat.
Proof. reflexivity. Qed.

Lemma total_cons f fs : total (f :: fs) = (f + total fs)%nat.
Proof. reflexivity. Qed.

(* Σ f * log2 (n/f), the un-normalised entropy *)
Definition nH (n : R) (fs : list nat) : R :=
  fold_right Rplus 0%R (map (fun f => (INR f * log2R (n / INR f))%R) fs).

Lemma nH_H0 fs : (0 < total fs)%nat ->
  (INR (total fs) * H0 fs = nH (INR (total fs)) fs)%R.
Proof.
  intros H. apply lt_0_INR in H. unfold H0, nH. cbv zeta.
  revert H. generalize (INR (total fs)). intros n Hn.
  induction fs as [|f fs IH]; simpl.
  - lra.
  - rewrite Rmult_plus_distr_l, IH. f_equal. field. lra.
Qed.

Definition bounded (n : nat) (fs : list nat) : Prop :=
  Forall (fun f => 1 <= f /\ f <= n)%nat fs.

Lemma le_total f fs : In f fs -> (f <= total fs)%nat.
Proof.
  induction fs as [|g fs IH]; simpl; [tauto|].
  intros [->|H]; [lia|]. specialize (IH H). lia.
Qed.

Lemma pos_bounded fs : Forall (fun f => 0 < f)%nat fs -> bounded (total fs) fs.
Proof.
  intros H. unfold bounded. rewrite Forall_forall in *.
  intros f Hf. split; [apply (H f Hf)|apply le_total; exact Hf].
Qed.

Lemma pos_total fs : Forall (fun f => 0 < f)%nat fs -> fs <> [] -> (0 < total fs)%nat.
Proof.
  intros H Hne. destruct fs as [|f fs]; [congruence|].
  inversion H; subst. rewrite total_cons. lia.
Qed.

Lemma cost_sum d n fs : (2 <= d)%nat -> bounded n fs ->
  (log2R (INR d) * INR (cost fs (map (shl d n) fs))
   <= nH (INR n) fs + log2R (INR d) * INR (total fs))%R.
Proof.
  intros Hd. unfold nH. induction 1 as [|f fs [Hf Hfn] _ IH].
  - simpl. lra.
  - simpl map. rewrite cost_cons, total_cons, !plus_INR, mult_INR.
    simpl fold_right.
    assert (B := shl_bits d n f Hd Hf Hfn).
    apply (Rmult_le_compat_l (INR f)) in B; [|apply pos_INR].
    lra.
Qed.

Lemma kraft_sum d n fs : (2 <= d)%nat -> (0 < n)%nat -> bounded n fs ->
  (kraft d (map (shl d n) fs) <= INR (total fs) / INR n)%R.
Proof.
  intros Hd Hn. unfold kraft.
  assert (HD : (2 <= INR d)%R) by (apply INR_d_ge2; exact Hd).
  assert (HN : (0 < INR n)%R) by (apply lt_0_INR; exact Hn).
  induction 1 as [|f fs [Hf Hfn] _ IH].
  - simpl. unfold Rdiv. lra.
  - simpl map. simpl fold_right. rewrite total_cons, plus_INR.
    destruct (shl_spec d n f Hd Hf) as (_ & B & _).
    apply le_INR in B. rewrite mult_INR, pow_INR in B.
    assert (E : (/ INR d ^ shl d n f <= INR f / INR n)%R).
    { apply Rle_div_bound; [exact HN|]. rewrite Rmult_comm.
      apply Rdiv_le_bound; [apply pow_lt; lra|]. lra. }
    unfold Rdiv in *. rewrite Rmult_plus_distr_r. lra.
Qed.

Theorem shannon_kraft : forall d fs, (2 <= d)%nat ->
  Forall (fun f => 0 < f)%nat fs -> fs <> [] ->
  (kraft d (map (shl d (total fs)) fs) <= 1)%R.
Proof.
  intros d fs Hd Hpos Hne.
  assert (Hn := pos_total fs Hpos Hne).
  eapply Rle_trans; [apply kraft_sum; [exact Hd|exact Hn|apply pos_bounded; exact Hpos]|].
  apply Rdiv_le_bound; [apply lt_0_INR; exact Hn|lra].
Qed.

(* the Shannon cost is within one digit per symbol of the entropy, for every degree d, the digit counted as
   log2 d bits *)
Theorem shannon_cost d fs : (2 <= d)%nat ->
  Forall (fun f => 0 < f)%nat fs -> fs <> [] ->
  (log2R (INR d) * INR (cost fs (map (shl d (total fs)) fs))
   <= INR (total fs) * (H0 fs + log2R (INR d)))%R.
Proof.
  intros Hd Hpos Hne.
  rewrite Rmult_plus_distr_l, nH_H0 by exact (pos_total fs Hpos Hne).
  rewrite (Rmult_comm (INR (total fs))).
  apply cost_sum; [exact Hd|apply pos_bounded; exact Hpos].
Qed.

Theorem shannon_cost_quad : forall fs,
  Forall (fun f => 0 < f)%nat fs -> fs <> [] ->
  (2 * INR (cost fs (map (shl 4 (total fs)) fs)) <= INR (total fs) * (H0 fs + 2))%R.
Proof.
  intros fs Hpos Hne. assert (H := shannon_cost 4 fs ltac:(lia) Hpos Hne).
  rewrite log2R_INR4 in H. exact H.
Qed.

Theorem shannon_cost_bin : forall fs,
  Forall (fun f => 0 < f)%nat fs -> fs <> [] ->
  (INR (cost fs (map (shl 2 (total fs)) fs)) <= INR (total fs) * (H0 fs + 1))%R.
Proof.
  intros fs Hpos Hne. assert (H := shannon_cost 2 fs ltac:(lia) Hpos Hne).
  rewrite log2R_INR2 in H. lra.
Qed.

(* an optimal assignment costs no more than the Shannon lengths, which are admissible *)
Theorem optimal_entropy d fs ls : (2 <= d)%nat ->
  Forall (fun f => 0 < f)%nat fs -> fs <> [] -> optimal d fs ls ->
  (log2R (INR d) * INR (cost fs ls) <= INR (total fs) * (H0 fs + log2R (INR d)))%R.
Proof.
  intros Hd Hpos Hne [_ Hopt].
  eapply Rle_trans; [|apply shannon_cost; assumption].
  apply Rmult_le_compat_l.
  { apply log2R_nonneg. pose proof (INR_d_ge2 d Hd). lra. }
  apply le_INR, Hopt.
  - apply map_length.
  - apply Forall_map. eapply Forall_impl; [|exact Hpos].
    intros f Hf. apply shl_spec; assumption.
  - apply shannon_kraft; assumption.
Qed.

Theorem optimal_entropy_quad : forall fs ls,
  Forall (fun f => 0 < f)%nat fs -> fs <> [] -> optimal 4 fs ls ->
  (2 * INR (cost fs ls) <= INR (total fs) * (H0 fs + 2))%R.
Proof.
  intros fs ls Hpos Hne Hopt. assert (H := optimal_entropy 4 fs ls ltac:(lia) Hpos Hne Hopt).
  rewrite log2R_INR4 in H. exact H.
Qed.

Theorem optimal_entropy_bin : forall fs ls,
  Forall (fun f => 0 < f)%nat fs -> fs <> [] -> optimal 2 fs ls ->
  (INR (cost fs ls) <= INR (total fs) * (H0 fs + 1))%R.
Proof.
  intros fs ls Hpos Hne Hopt. assert (H := optimal_entropy 2 fs ls ltac:(lia) Hpos Hne Hopt).
  rewrite log2R_INR2 in H. lra.
Qed.

Lemma cost_repeat L fs : cost fs (repeat L (length fs)) = (total fs * L)%nat.
Proof.
  induction fs as [|f fs IH].
  - reflexivity.
  - simpl length. simpl repeat. rewrite cost_cons, total_cons, IH. lia.
Qed.

Lemma kraft_repeat d L k : kraft d (repeat L k) = (INR k * / INR d ^ L)%R.
Proof.
  unfold kraft. induction k as [|k IH].
  - simpl. lra.
  - rewrite S_INR. simpl repeat. simpl map. simpl fold_right. rewrite IH. lra.
Qed.

Theorem optimal_le_fixed : forall d L fs ls,
  (2 <= d)%nat -> (1 <= L)%nat -> (length fs <= d ^ L)%nat ->
  optimal d fs ls -> (cost fs ls <= total fs * L)%nat.
Proof.
  intros d L fs ls Hd HL Hlen [_ Hopt].
  rewrite <- cost_repeat. apply Hopt.
  - apply repeat_length.
  - apply Forall_forall. intros l Hl. apply repeat_spec in Hl. subst l. exact HL.
  - rewrite kraft_repeat. pose proof (INR_d_ge2 d Hd) as HD.
    apply le_INR in Hlen. rewrite pow_INR in Hlen.
    apply Rdiv_le_bound; [apply pow_lt; lra|lra].
Qed.

(* the hypotheses are satisfiable, the definitions compute *)

Example ex_fs_pos : Forall (fun f => 0 < f)%nat [5;2;1;1]%nat /\ [5;2;1;1]%nat <> [].
Proof. split; [repeat constructor|discriminate]. Qed.

Example ex_total : total [5;2;1;1]%nat = 9%nat.
Proof. reflexivity. Qed.

Example ex_shl_quad : map (shl 4 9) [5;2;1;1]%nat = [1;2;2;2]%nat.
Proof. vm_compute. reflexivity. Qed.

Example ex_shl_bin : map (shl 2 9) [5;2;1;1]%nat = [1;3;4;4]%nat.
Proof. vm_compute. reflexivity. Qed.

Example ex_cost_quad_shannon : cost [5;2;1;1]%nat (map (shl 4 9) [5;2;1;1]%nat) = 13%nat.
Proof. vm_compute. reflexivity. Qed.

Example ex_cost_flat : cost [5;2;1;1]%nat [1;1;1;1]%nat = 9%nat.
Proof. vm_compute. reflexivity. Qed.

Example ex_kraft_flat : (kraft 4 [1;1;1;1]%nat <= 1)%R.
Proof. unfold kraft. simpl. lra. Qed.

(* [1;1;1;1] really is optimal for degree 4 on this frequency vector:
   every admissible assignment has all lengths >= 1, hence cost >= total. *)
Lemma cost_ge_total fs : forall ls, length ls = length fs ->
  Forall (fun l => 1 <= l)%nat ls -> (total fs <= cost fs ls)%nat.
Proof.
  induction fs as [|f fs IH]; intros [|l ls] Hlen Hall; simpl in Hlen; try discriminate.
  - simpl. lia.
  - inversion Hall; subst. rewrite cost_cons, total_cons.
    assert (total fs <= cost fs ls)%nat by (apply IH; [lia|assumption]).
    nia.
Qed.

Example ex_optimal : optimal 4 [5;2;1;1]%nat [1;1;1;1]%nat.
Proof.
  split; [reflexivity|]. intros ls' Hlen Hall _.
  change (cost [5;2;1;1]%nat [1;1;1;1]%nat) with (total [5;2;1;1]%nat).
  apply cost_ge_total; assumption.
Qed.

Example ex_entropy :
  (2 * INR 9 <= INR 9 * (H0 [5;2;1;1]%nat + 2))%R.
Proof.
  exact (optimal_entropy_quad [5;2;1;1]%nat [1;1;1;1]%nat
           (proj1 ex_fs_pos) (proj2 ex_fs_pos) ex_optimal).
Qed.

Print Assumptions shannon_kraft.
Print Assumptions shannon_cost_quad.
Print Assumptions shannon_cost_bin.
Print Assumptions optimal_entropy_quad.
Print Assumptions optimal_entropy_bin.
Print Assumptions optimal_le_fixed.
Print Assumptions shl_least.
Print Assumptions ex_optimal.
